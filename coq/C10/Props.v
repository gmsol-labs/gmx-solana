(* C10 — Opening and immediately closing a position is never profitable.  Statements only.

   MAIN THEOREM c10_open_close_no_profit (all states, prices, sizes, sides, collateral tokens, fee and impact
   settings, virtual inventories): if max_positive_position_impact_factor <= max_negative_position_impact_factor,
   an increase of an empty position followed by its full close at the same prices with no fee-state update in
   between hands out (output + secondary output + claimable funding + claimable collateral for the user, valued
   at the collateral token's min / the pnl token's max price) at most
       collateral_in * min price + 4 base units of the pnl token + 1 USD unit,
   which is exactly the inequality Corr.round_trip_ok evaluates on the real code.  The four base units are the
   four payments of the collateral waterfall that may each convert a remainder into pnl tokens rounding down; the
   USD unit is the rounding of the two impact values.
   The theorems ..._partial below state the mechanisms the property names one by one. *)
From GV Require Import lib.Base C01.Model PS.Model PS.Actions PS.Hist C11.Proofs C10.Proofs C10.Impact C10.Corr C10.RoundTrip.
Open Scope Z_scope.

(* 0. THE PROPERTY.  Hypotheses: the position is empty; amounts are non-negative (unsigned in the code); the three
      prices are positive with min <= max (store oracle validation, C24); pools are non-negative (unsigned);
      the positive impact cap does not exceed the negative one (the complement is the known finding below). *)
Theorem c10_open_close_no_profit : forall w, 1 <= w -> forall unit, 0 < unit ->
  forall p m pr ci sd acc p1 m1 ir sd' acc' cw fl p2 m2 dr,
  size_usd p = 0 -> coll p = 0 -> 0 <= ci -> 0 <= sd ->
  prices_nonneg pr -> price_ordered (p_index pr) ->
  0 < pmin (coll_price pr (coll_long p)) <= pmax (coll_price pr (coll_long p)) ->
  0 < pmin (coll_price pr (is_long p)) <= pmax (coll_price pr (is_long p)) ->
  pnl_market_nonneg m1 -> 0 <= pl (m_impact m) -> 0 <= pl (m_impact m1) ->
  ip_ok (c_impact (m_cfg m)) ->
  0 <= pp_max_pos_impact (c_pos (m_cfg m)) <= pp_max_neg_impact (c_pos (m_cfg m)) ->
  increase w unit p m pr ci sd acc = Ok (p1, m1, ir) ->
  decrease w unit p1 m1 pr sd' acc' cw fl = Ok (p2, m2, dr) -> dr_remove dr = true ->
  value_out (coll_long p1) (is_long p1) pr ir dr <= ci * pmin (coll_price pr (coll_long p1)) + slack (is_long p1) pr.
Proof.
  intros w Hw unit Hu p m pr ci sd acc p1 m1 ir sd' acc' cw fl p2 m2 dr H1 H2 H3 H4 H5 H6 H7 H8 H9 H10 H11 H12 H13 Hi Hd Hr.
  pose proof (open_close_no_profit w Hw unit Hu _ _ _ _ _ _ _ _ _ _ _ _ _ _ _ _ H1 H2 H3 H4 H5 H6 H7 H8 H9 H10 H11 H12 H13 Hi Hd Hr) as T.
  pose proof (C07.Proofs.increase_spec w Hw unit _ _ _ _ _ _ _ _ _ Hi) as (_ & L & C & _).
  unfold slack. rewrite L, C in *. lia.
Qed.

(* the uncapped impact function alone: opening then reverting the same delta never gains more than one unit *)
Theorem c10_impact_round_trip : forall w, 1 <= w -> forall unit, 0 < unit -> forall cl cs dl ds ip i1 c1 i2 c2,
  ip_ok ip -> 0 <= cl < 2 ^ w -> 0 <= cs < 2 ^ w ->
  pool_delta_impact w unit cl cs dl ds ip = Ok (i1, c1) ->
  pool_delta_impact w unit (cl + dl) (cs + ds) (- dl) (- ds) ip = Ok (i2, c2) ->
  i1 + i2 <= 1.
Proof. intros w Hw unit Hu. exact (impact_round_trip w Hw unit Hu). Qed.

(* 1. mechanism "size delta in tokens rounds against the trader (long: down on open, up on close)":
      the total pnl of a freshly opened position at the same prices is at most the impact value of the open *)
Theorem c10_open_pnl_le_impact_partial : forall w, 1 <= w -> forall unit p m pr ci sd acc p1 m' rep,
  size_usd p = 0 -> price_ordered (p_index pr) -> 0 <= sd ->
  increase w unit p m pr ci sd acc = Ok (p1, m', rep) ->
  size_usd p1 = sd /\ size_tok p1 = ir_sdt rep /\ exact_total p1 pr <= ir_impact_value rep.
Proof. intros w Hw unit. exact (open_pnl_le_impact w Hw unit). Qed.

(* 2. round trip: the pnl credited by the full close is at most the impact value received when opening *)
Theorem c10_roundtrip_pnl_le_open_impact_partial : forall w, 1 <= w -> forall unit, 0 < unit ->
  forall p m pr ci sd acc p1 m1 ir sd' acc' cw fl p2 m2 dr,
  size_usd p = 0 -> price_ordered (p_index pr) -> 0 <= sd -> prices_nonneg pr -> pnl_market_nonneg m1 ->
  increase w unit p m pr ci sd acc = Ok (p1, m1, ir) ->
  decrease w unit p1 m1 pr sd' acc' cw fl = Ok (p2, m2, dr) -> dr_remove dr = true ->
  dr_size_delta dr = sd /\ dr_sdt dr = ir_sdt ir /\
  dr_pnl dr <= dr_uncapped_pnl dr /\ dr_uncapped_pnl dr = exact_total p1 pr /\ exact_total p1 pr <= ir_impact_value ir.
Proof. intros w Hw unit Hu. exact (roundtrip_pnl_le_open_impact w Hw unit Hu). Qed.

(* 3. mechanism "positive impact capped by the impact pool and the max positive factor; the negative impact is
      capped by the max negative factor and the excess is the (claimable) price impact diff" *)
Theorem c10_decrease_impact_capped_partial : forall w, 1 <= w -> forall unit, 0 < unit ->
  forall p m pr sd0 acc cw fl p1 m' rep,
  0 <= pp_max_pos_impact (c_pos (m_cfg m)) -> 0 <= pp_max_neg_impact (c_pos (m_cfg m)) ->
  0 <= pl (m_impact m) -> 0 <= pmin (p_index pr) ->
  decrease w unit p m pr sd0 acc cw fl = Ok (p1, m', rep) ->
  let D := dr_size_delta rep in
  - (Z.abs D * pp_max_neg_impact (c_pos (m_cfg m)) / unit) <= dr_impact_value rep /\
  dr_impact_value rep <= Z.max 0 (Z.min (pl (m_impact m) * pmin (p_index pr)) (Z.abs D * pp_max_pos_impact (c_pos (m_cfg m)) / unit)) /\
  0 <= dr_impact_diff rep /\
  (dr_impact_diff rep <> 0 ->
     exists raw change, position_price_impact w unit p m (- D) = Ok (raw, change) /\
       dr_impact_value rep - dr_impact_diff rep = raw /\ raw < dr_impact_value rep <= 0).
Proof.
  intros w Hw unit Hu p m pr sd0 acc cw fl p1 m' rep H1 H2 H3 H4 H. cbv zeta.
  destruct (decrease_parts w Hw unit _ _ _ _ _ _ _ _ _ _ H) as [_ [(E0 & E1 & E2)|(E0 & change & Ecap)]].
  - rewrite E0, E1, E2. cbn [Z.abs Z.mul]. rewrite !Z.div_0_l by lia. repeat split; try lia.
  - destruct (capped_impact_bounds w Hw unit Hu _ _ _ _ _ _ _ H1 H2 Ecap) as (B1 & B2 & B3 & raw & Eraw & Hd).
    rewrite Z.abs_opp in B1, B2. repeat split; try assumption.
    intros Hne. exists raw, change. split; [exact Eraw|]. exact (Hd Hne).
Qed.

(* Known finding PositiveCapAboveNegativeCap: with max_positive_position_impact_factor (1 %) above
   max_negative_position_impact_factor (0.1 %) and a pre-funded impact pool the round trip is profitable:
   the open receives the positive impact up to the larger cap, the close pays the negative impact only up to
   the smaller cap and gets the rest back as claimable collateral.  Witness = the scripted replay executed on the
   real code (ps --mode c10, case 0): collateral in 20000000000, out 12585365852 + claimable 8048780488. *)
Definition wit_cfg : config :=
  MkConfig (MkPosParams 1000000000 1000000000 10000000 None 10000000 1000000 2500000) (MkImpactParams 2000000000 5000 10000)
           (MkFeeParams 500000 700000 370000000 None) 370000000 2000000 370000000 1000000000 1000000000
           500000000 500000000 0 18446744073709551615 0 10000.
Definition wit_s0 : mstate :=
  let z := MkPool 0 0 in MkMState (MkPool 1000000000000 100000000000000) z z z z z z (MkPool 2000000000 0) z z z z z z z z None None.
Definition wit_ps0 := [MkPos true true 0 0 0 0 0 0 0; MkPos false false 0 0 0 0 0 0 0].
Definition wit_pr := MkPrices (MkPrice 123 123) (MkPrice 123 123) (MkPrice 1 1).
Definition wit_w1 := step 64 (10 ^ 9) wit_cfg (wit_s0, wit_ps0) (OpInc 1 wit_pr 2000000000000 10000000000000 None).
Definition wit_open := OpInc 0 wit_pr 20000000000 10000000000000 None.
Definition wit_close := OpDec 0 wit_pr 10000000000000 None 0 (MkFlags false false false).
Definition wit_x1 := (wit_open, run_op 64 (10 ^ 9) wit_cfg wit_w1 wit_open, MkAux false (Ok None) (Ok None)).
Definition wit_w2 := step 64 (10 ^ 9) wit_cfg wit_w1 wit_open.
Definition wit_x2 := (wit_close, run_op 64 (10 ^ 9) wit_cfg wit_w2 wit_close, MkAux false (Ok None) (Ok None)).

Theorem c10_positive_cap_above_negative_cap_refuted :
  pp_max_neg_impact (c_pos wit_cfg) < pp_max_pos_impact (c_pos wit_cfg) /\
  round_trip_ok wit_w1 wit_x1 wit_x2 = false /\ round_trip_class wit_cfg wit_w1 wit_x1 wit_x2 = 1.
Proof. split; [vm_compute; reflexivity|]. split; vm_compute; reflexivity. Qed.

(* non-vacuity: the same round trip with the caps the other way round (0.1 % / 1 %) is not profitable *)
Definition ok_cfg : config :=
  MkConfig (MkPosParams 1000000000 1000000000 10000000 None 1000000 10000000 2500000) (MkImpactParams 2000000000 5000 10000)
           (MkFeeParams 500000 700000 370000000 None) 370000000 2000000 370000000 1000000000 1000000000
           500000000 500000000 0 18446744073709551615 0 10000.
Example c10_ex_not_profitable :
  let w1 := step 64 (10 ^ 9) ok_cfg (wit_s0, wit_ps0) (OpInc 1 wit_pr 2000000000000 10000000000000 None) in
  let x1 := (wit_open, run_op 64 (10 ^ 9) ok_cfg w1 wit_open, MkAux false (Ok None) (Ok None)) in
  let w2 := step 64 (10 ^ 9) ok_cfg w1 wit_open in
  let x2 := (wit_close, run_op 64 (10 ^ 9) ok_cfg w2 wit_close, MkAux false (Ok None) (Ok None)) in
  outcome_ok (snd (fst x1)) = true /\ outcome_removed (snd (fst x2)) = true /\ round_trip_ok w1 x1 x2 = true.
Proof. vm_compute. repeat split; reflexivity. Qed.
