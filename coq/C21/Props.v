(* C21 — uncommitted market operations never leak into stored state.
   [bstate] = storage entries, buffer entries (each value + revision) and the buffer revision;
   [tstate] = the specification: a plain store [tS], the write-set [tW] of the running
   operation and an operation counter.  [R m t] = invariant (no buffer entry carries a future
   revision) + "t is the abstraction of m". *)
From GV Require Import lib.Base C21.Model C21.Proofs.
Open Scope Z_scope.

(* the state left by Market::init satisfies the relation *)
Theorem c21_init : forall t0, R (init t0) (mkt (fun k => ev (entry0 t0 k)) (fun _ => None) 1).
Proof.
  intros t0. split; [apply inv_init|]. split; [reflexivity|]. split; [|reflexivity].
  intros k. unfold absW, dirty. cbn. reflexivity.
Qed.

(* REFINEMENT over arbitrary histories (clock changes; operations = start, any accesses,
   commit or abandon; abandoned operations may follow each other, commits may be empty):
   every observation equals that of plain transactions, and the stored values after the
   history are the transactional store.  The only hypothesis is that the u64 revision
   counter does not overflow (start panics with "rev overflow" otherwise). *)
Theorem c21_refines_transactions : forall h now m t, R m t -> 0 <= brev m -> brev m + n_ops h < 2 ^ 64 ->
  exists m', run_hist now m h = Ok (m', snd (trun_hist now t h)) /\ R m' (fst (trun_hist now t h)).
Proof. exact run_hist_sim. Qed.

(* one operation: observations as in the specification; the revision advances by one; and
   STORAGE CHANGES ONLY ON COMMIT: an abandoned operation leaves every storage entry
   (value and revision) exactly as it was *)
Theorem c21_storage_changes_only_on_commit : forall now m t acts cm,
  R m t -> 0 <= brev m -> brev m + 1 < 2 ^ 64 ->
  exists m', run_op now m acts cm = Ok (m', snd (trun_op now t acts cm)) /\
             R m' (fst (trun_op now t acts cm)) /\ brev m' = brev m + 1 /\
             (cm = false -> storage m' = storage m).
Proof. exact run_op_sim. Qed.

(* accesses never touch storage *)
Theorem c21_access_keeps_storage : forall now m t a, R m t ->
  storage (fst (astep now m a)) = storage m /\ brev (fst (astep now m a)) = brev m.
Proof. intros now m t a _. apply astep_frame. Qed.

(* COMMIT WRITES EXACTLY THE WRITE-SET: a key in the write-set gets the buffered value, any
   other entry is untouched *)
Theorem c21_commit_exact : forall m k, in_keys k = true ->
  ev (storage (commit m) k) = match absW m k with Some v => v | None => ev (storage m k) end.
Proof.
  intros m k K. rewrite commit_storage, K. cbn [andb]. unfold absW. destruct (dirty m k); reflexivity.
Qed.
Theorem c21_commit_untouched : forall m k, dirty m k = false -> storage (commit m) k = storage m k.
Proof. intros m k D. rewrite commit_storage, D. now rewrite Bool.andb_false_r. Qed.

(* READ YOUR WRITES (and only yours) *)
Theorem c21_read_your_writes : forall m k f, get (get_mut m k f) k = f (get m k).
Proof.
  intros m k f. unfold get, get_mut, dirty, upd. cbn. rewrite !Z.eqb_refl. cbn.
  destruct (erev (buffer m k) =? brev m); reflexivity.
Qed.
Theorem c21_write_is_local : forall m k j f, j <> k -> get (get_mut m k f) j = get m j.
Proof.
  intros m k j f N. unfold get, get_mut, dirty, upd. cbn. destruct (Z.eqb_spec j k); [contradiction|reflexivity].
Qed.

(* NOTHING LEAKS FROM AN ABANDONED OPERATION: whatever the buffer contains, a freshly started
   operation reads the stored value of every key *)
Theorem c21_no_leak_from_abandoned : forall m m', inv m -> start m = Ok m' ->
  forall k, get m' k = ev (storage m k).
Proof.
  intros m m' I E k. destruct (start_clean m m' I E) as (Es & _ & _ & _ & D).
  unfold get. rewrite D, Es. reflexivity.
Qed.

(* the invariant entry.rev <= buffer.rev is preserved by start / accesses / commit *)
Theorem c21_invariant : forall m m', inv m -> start m = Ok m' -> inv m' /\ forall k, dirty m' k = false.
Proof. intros m m' I E. destruct (start_clean m m' I E) as (_ & _ & _ & I' & D). auto. Qed.

(* MINT / BURN DEFERRAL of RevertibleLiquidityMarket: requests only accumulate ([lm_sums] is an
   independent account of the accepted requests); an abandoned operation issues no token-program
   CPI and leaves the supply alone; a committed one mints / burns exactly the accumulated totals
   and the supply stays within u64 *)
Theorem c21_mint_burn_deferred : forall acts sup, 0 <= sup < 2 ^ 64 ->
  let l := fst (lm_run (mklm sup 0 0) acts) in
  supply l = sup /\
  (to_mint l, to_burn l) = lm_sums sup 0 0 acts /\
  lm_cpis l false = [] /\ lm_finish l false = sup /\
  lm_finish l true = sup + to_mint l - to_burn l /\ 0 <= lm_finish l true < 2 ^ 64.
Proof.
  intros acts sup Hs. cbn zeta. rewrite (lm_run_sums acts (mklm sup 0 0)). cbn [supply to_mint to_burn lm_cpis lm_finish].
  pose proof (lm_sums_bounds acts sup 0 0) as B.
  destruct (lm_sums sup 0 0 acts) as [tm tb]. cbn [fst snd].
  assert (B' : 0 <= tm /\ 0 <= tb /\ sup + tm < 2 ^ 64 /\ tb <= sup) by (apply B; lia).
  repeat split; try reflexivity; lia.
Qed.

(* non-vacuity: abandon, then commit, then an empty commit *)
Example c21_ex :
  match run_hist 100 (init 100)
        [HOp [APoolAdd 0 true 5; APoolRead 0; ABalIn true 7] false;
         HOp [APoolRead 0; ABalRead true; APoolAdd 3 false 9; ARev] true;
         HSetTime 130;
         HOp [] true;
         HOp [AClockTick 1; APoolRead 3] false] with
  | Ok (m, obs) =>
      obs = [[OCode 0; OPair 5 0; OCode 0]; [OPair 0 0; OVal 0; OCode 0; OVal 3]; []; [OVal 30; OPair 0 9]]
      /\ ev (storage m 0) = [0; 0] /\ ev (storage m 3) = [0; 9] /\ ev (storage m 16) = [100; 100; 100]
  | Err _ => False
  end.
Proof. vm_compute. repeat split; reflexivity. Qed.
