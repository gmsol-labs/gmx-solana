(* C03 — property theorems only (price impact penalises imbalance and cannot be farmed by
   round trips).  Each is closed by a lemma of Proofs.v. *)
From GV Require Import lib.Base C03.Model C03.Proofs.
Open Scope Z_scope.

(* the positive factor is never allowed to exceed the negative one *)
Theorem c03_positive_factor_capped : forall p,
  fst (adjusted p) = Z.min (pi_pos p) (pi_neg p) /\ snd (adjusted p) = pi_neg p /\
  fst (adjusted p) <= snd (adjusted p).
Proof. exact adjusted_spec. Qed.

(* a change that worsens the balance never receives a positive impact *)
Theorem c03_worsened_nonpos : forall w, 1 <= w -> forall unit, 0 < unit < 2 ^ w -> forall p, wf_pi p ->
  forall d v bc, price_impact w unit p d = Ok (v, bc) ->
  initial_diff d < next_diff d -> v <= 0 /\ bc = Worsened.
Proof. exact worsened_nonpos. Qed.

(* an unchanged imbalance: never positive; exactly zero if the heavier side is the same *)
Theorem c03_unchanged_nonpos : forall w, 1 <= w -> forall unit, 0 < unit < 2 ^ w -> forall p, wf_pi p ->
  forall d v bc, price_impact w unit p d = Ok (v, bc) ->
  initial_diff d = next_diff d -> v <= 0 /\ bc = Unchanged /\ (same_side d = true -> v = 0).
Proof. exact unchanged_nonpos. Qed.

(* a same-side change that improves the balance never receives a negative impact
   (complement of known-finding class 1, CrossOverImproved) *)
Theorem c03_improved_same_side_nonneg : forall w, 1 <= w -> forall unit, 0 < unit < 2 ^ w -> forall p, wf_pi p ->
  forall d v bc, price_impact w unit p d = Ok (v, bc) ->
  next_diff d < initial_diff d -> bc = Improved /\ (same_side d = true -> 0 <= v).
Proof. exact improved_same_side_nonneg. Qed.

(* known finding 1: a cross-over rebalance that improves the balance gets a negative impact
   (long 20u / short 10u, +19u short, e = 1, pf = 0.1, nf = 0.2 -> -0.8u, Improved) *)
Theorem c03_improved_cross_over_refuted :
  exists p d v, wf_pi p /\ next_diff d < initial_diff d /\ same_side d = false /\
    price_impact 64 (10 ^ 9) p d = Ok (v, Improved) /\ v < 0.
Proof.
  exists (MkPI 1000000000 100000000 200000000),
         (MkPD 20000000000 10000000000 20000000000 29000000000 0 19000000000), (-800000000).
  split; [unfold wf_pi; simpl; lia|]. split; [vm_compute; reflexivity|]. split; [vm_compute; reflexivity|].
  split; [vm_compute; reflexivity|lia].
Qed.

(* a balance change followed by its exact reverse: never positive when the heavier side flips,
   at most one unit of 10^-DEC usd otherwise (complement of class 2, RoundTripFloorResidue) *)
Theorem c03_round_trip : forall w, 1 <= w -> forall unit, 0 < unit < 2 ^ w -> forall p, wf_pi p ->
  forall d v1 b1 v2 b2,
  price_impact w unit p d = Ok (v1, b1) -> price_impact w unit p (reverse d) = Ok (v2, b2) ->
  (same_side d = false -> v1 + v2 <= 0) /\ (same_side d = true -> v1 + v2 <= 1).
Proof. exact round_trip. Qed.

(* ... where [reverse d] is exactly what the code builds from the moved pool and the negated amounts *)
Theorem c03_reverse_by_amounts : forall w, 1 <= w -> forall la sa pl ps dal das d d',
  0 <= la -> 0 <= sa -> 0 <= pl -> 0 <= ps ->
  pd_from_amounts w la sa pl ps dal das = Ok d ->
  pd_from_amounts w (la + dal) (sa + das) pl ps (- dal) (- das) = Ok d' -> d' = reverse d.
Proof. intros w Hw la sa pl ps dal das d d' _ _. exact (reverse_by_amounts w Hw la sa pl ps dal das d d'). Qed.

(* known finding 2: a same-side round trip nets exactly +1 (pf = 0.02, nf = 0.03, e = 1,
   imbalance 2u+34 <-> 2u+50: 0 + 1) *)
Theorem c03_round_trip_same_side_refuted :
  exists p d v1 b1 v2 b2, wf_pi p /\ same_side d = true /\
    price_impact 64 (10 ^ 9) p d = Ok (v1, b1) /\ price_impact 64 (10 ^ 9) p (reverse d) = Ok (v2, b2) /\
    v1 + v2 = 1.
Proof.
  exists (MkPI 1000000000 20000000 30000000), (MkPD 2000000034 0 2000000050 0 16 0), 0, Worsened, 1, Improved.
  split; [unfold wf_pi; simpl; lia|]. split; [vm_compute; reflexivity|].
  split; [vm_compute; reflexivity|]. split; [vm_compute; reflexivity|reflexivity].
Qed.

(* swap_impact_value / position_price_impact take the worse of the real and the virtual impact:
   the result never exceeds the real impact, and is the real impact when that is non-negative *)
Theorem c03_swap_virtual_only_worsens : forall w unit p la sa pl ps dl ds vi incl r,
  swap_impact_value w unit p la sa pl ps dl ds vi incl = Ok r ->
  exists d real, pd_new w la sa pl ps dl ds = Ok d /\ price_impact w unit p d = Ok real /\
    swap_impact_value w unit p la sa pl ps dl ds vi false = Ok real /\
    fst r <= fst real /\ (0 <= fst real -> r = real) /\
    (r = real \/ exists vl vs dv, vi = Some (vl, vs) /\ incl = true /\
                   pd_new w vl vs pl ps dl ds = Ok dv /\ price_impact w unit p dv = Ok r /\ fst r < fst real).
Proof. exact swap_virtual_only_worsens. Qed.

Theorem c03_position_virtual_only_worsens : forall w unit p oll ols osl oss vi is_long sd incl r,
  position_price_impact w unit p oll ols osl oss vi is_long sd incl = Ok r ->
  exists ol os d real,
    uadd w oll ols = Some ol /\ uadd w osl oss = Some os /\
    pd_new w ol os 1 1 (if is_long then sd else 0) (if is_long then 0 else sd) = Ok d /\
    price_impact w unit p d = Ok real /\
    position_price_impact w unit p oll ols osl oss vi is_long sd false = Ok real /\
    fst r <= fst real /\ (0 <= fst real -> r = real) /\
    (r = real \/ (incl = true /\ vi <> None /\ fst r < fst real)).
Proof. exact position_virtual_only_worsens. Qed.

(* the sign rules hold at the API level, with or without virtual inventory: a swap / position change
   that does not improve the (real) balance never gets a positive impact, a same-side improvement
   never a negative one *)
Theorem c03_swap_sign_rules : forall w, 1 <= w -> forall unit, 0 < unit < 2 ^ w ->
  forall p la sa pl ps dl ds vi incl v bc, wf_pi p ->
  swap_impact_value w unit p la sa pl ps dl ds vi incl = Ok (v, bc) ->
  exists d, pd_new w la sa pl ps dl ds = Ok d /\
    (initial_diff d <= next_diff d -> v <= 0) /\
    (next_diff d < initial_diff d -> same_side d = true -> 0 <= v /\ bc = Improved).
Proof. exact swap_sign_rules. Qed.

Theorem c03_position_sign_rules : forall w, 1 <= w -> forall unit, 0 < unit < 2 ^ w ->
  forall p oll ols osl oss vi is_long sd incl v bc, wf_pi p ->
  position_price_impact w unit p oll ols osl oss vi is_long sd incl = Ok (v, bc) ->
  exists d, pd_new w (oll + ols) (osl + oss) 1 1 (if is_long then sd else 0) (if is_long then 0 else sd) = Ok d /\
    (initial_diff d <= next_diff d -> v <= 0) /\
    (next_diff d < initial_diff d -> same_side d = true -> 0 <= v /\ bc = Improved).
Proof. exact position_sign_rules. Qed.

(* non-vacuity *)
Example c03_ex1 :
  (d <-- pd_new 64 100 300 7 3 (-50) 0 ;; price_impact 64 (10 ^ 9) (MkPI 2000000000 4 8) d) = Ok (0, Worsened)
  /\ (d <-- pd_new 64 102834581000000 999999995 1 1 1000000000 (-1) ;;
      price_impact 64 (10 ^ 9) (MkPI 2000000000 1000000724 1000000000) d) = Ok (-205668162205679, Worsened).
Proof. vm_compute. split; reflexivity. Qed.
Example c03_ex2 :
  swap_impact_value 64 (10 ^ 9) (MkPI 1000000000 100000000 200000000) 20000000000 10000000000 1 1 5000000000 0
                    (Some (40000000000, 10000000000)) true = Ok (-1000000000, Worsened).
Proof. vm_compute. reflexivity. Qed.
