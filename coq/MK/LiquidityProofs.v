(* MK.LiquidityProofs — what deposits and withdrawals do to the pools and the supply
   (ledger facts used by C04's history form and by C06). *)
From GV Require Import lib.Base lib.DivLemmas C01.Model C01.Proofs MK.Market MK.Liquidity MK.MarketProofs
  MK.SwapProofs.
Open Scope Z_scope.

Lemma gross_le mtv lval sval gl gs : 0 < lval + sval ->
  (lval + sval) * gl <= mtv * lval -> (lval + sval) * gs <= mtv * sval -> gl + gs <= mtv.
Proof. intros. nia. Qed.

Section P.
  Variable w : Z.
  Hypothesis Hw : 1 <= w.
  Variable unit : Z.
  Hypothesis Hunit : 0 < unit.
  Variable cfg : config.

  Notation in_range := (in_range w).
  Notation wf_pool := (wf_pool w).
  Notation wf_opool := (wf_opool w).
  Notation wf_price := (wf_price w).
  Notation wf_prices := (wf_prices w).
  Notation wf_state := (wf_state w).

  Lemma apply_delta_ok s il d s' : wf_pool (primary s) -> wf_opool (vi_swaps s) -> apply_delta w s il d = Ok s' ->
    pamount (primary s') il = pamount (primary s) il + d /\
    pamount (primary s') (negb il) = pamount (primary s) (negb il) /\ wf_pool (primary s') /\
    swap_impact s' = swap_impact s /\ fee s' = fee s /\ total_supply s' = total_supply s /\
    same_rest s s' /\ vi_follows s s' /\ wf_opool (vi_swaps s').
  Proof.
    intros Hp Hvi H. unfold apply_delta in H. rinv H. destruct x as [l v]. cbn [fst snd] in H. injection H as <-.
    app market_apply_delta_ok E. destruct E as (L & Hv & M). app pool_apply_one L. destruct L as (L1 & L2 & L3).
    destruct (commit_vi_ok w s (set_primary s l) v eq_refl Hv M) as (-> & -> & -> & -> & G5 & G6 & G7).
    cbn [primary swap_impact fee total_supply set_primary]. auto 10.
  Qed.

  Lemma apply_swap_impact_ok s il p usd s' amt : wf_price p -> wf_pool (swap_impact s) ->
    apply_swap_impact_value_with_cap w s il p usd = Ok (s', amt) ->
    exists a c ip, swap_impact_amount_with_cap w s il p usd = Ok (a, c) /\ amt = Z.abs a /\
      s' = set_swap_impact s ip /\
      pamount ip il = pamount (swap_impact s) il - a /\
      pamount ip (negb il) = pamount (swap_impact s) (negb il) /\ wf_pool ip.
  Proof.
    intros Hp Hip H. unfold apply_swap_impact_value_with_cap in H. rinv H. destruct x as [a c]. cbn [fst] in *.
    apply sneg_some in E0. destruct E0 as [_ ->]. app pool_apply_one E1. destruct E1 as (I1 & I2 & I3).
    injection H as <- <-. exists a, c, x1. rewrite Z.abs_opp. repeat split; try lia; try exact E; apply (I3 Hip).
  Qed.

  Record leg_facts (s s4 : mstate) (ps : prices) (il : bool) (amount0 pv impact mint : Z) (fs : fees)
         (g : deposit_leg) : Prop := {
    lf_hold_in : holdings s4 il = holdings s il + amount0;
    lf_hold_out : holdings s4 (negb il) = holdings s (negb il);
    lf_supply : total_supply s4 = total_supply s;
    lf_rest : same_rest s s4;
    lf_vi : vi_follows s s4;
    lf_wf : wf_state s4;
    lf_prim_in : pamount (primary s4) il = pamount (primary s) il + lg_amount g + f_pool fs;
    lf_prim_out : pamount (primary s4) (negb il) = pamount (primary s) (negb il) + lg_pos_amount g;
    lf_imp_in : pamount (swap_impact s4) il = pamount (swap_impact s) il + lg_neg_amount g;
    lf_imp_out : pamount (swap_impact s4) (negb il) = pamount (swap_impact s) (negb il) - lg_pos_amount g;
    lf_fee_in : pamount (fee s4) il = pamount (fee s) il + f_receiver fs;
    lf_fee_out : pamount (fee s4) (negb il) = pamount (fee s) (negb il);
    lf_split : lg_after_fees g + f_receiver fs + f_pool fs = amount0;
    lf_amount : lg_amount g = lg_after_fees g - lg_neg_amount g;
    lf_amount_nonneg : 0 <= lg_amount g;
    lf_pos_nonneg : 0 <= lg_pos_amount g;
    lf_neg_nonneg : 0 <= lg_neg_amount g;
    lf_fpool_nonneg : 0 <= f_pool fs;
    lf_recv_nonneg : 0 <= f_receiver fs;
    lf_pos_le_pool : lg_pos_amount g <= pamount (swap_impact s) (negb il);
    lf_excl : lg_pos_amount g = 0 \/ lg_neg_amount g = 0;
    lf_mint : mint = lg_mint_impact g + lg_mint_amount g;
    lf_mint_amount : usd_to_mt w (lg_amount g * pr_min (side_price ps il)) pv (total_supply s)
                       (value_to_amount_divisor s) = Some (lg_mint_amount g);
    lf_mint_impact : (lg_pos_amount g = 0 /\ lg_mint_impact g = 0) \/
                     (0 < impact /\ total_supply s <> 0 /\
                      lg_pos_amount g * pr_max (side_price ps (negb il)) <= impact /\
                      usd_to_mt w (lg_pos_amount g * pr_max (side_price ps (negb il))) pv (total_supply s)
                        (value_to_amount_divisor s) = Some (lg_mint_impact g));
    lf_neg_only : 0 < lg_neg_amount g -> impact < 0
  }.

  (* the impact step of a leg, from the state [s] (with the fee pool [cf] written) to [s3]: [pa] tokens
     move from the opposite impact pool to the opposite liquidity, or [na] of the deposit into the own
     impact pool *)
  Record impact_step (s s3 : mstate) (ps : prices) (il : bool) (cf : pool)
         (after impact pv amount pa na mint1 : Z) : Prop := {
    is_prim_in : pamount (primary s3) il = pamount (primary s) il;
    is_prim_out : pamount (primary s3) (negb il) = pamount (primary s) (negb il) + pa;
    is_imp_in : pamount (swap_impact s3) il = pamount (swap_impact s) il + na;
    is_imp_out : pamount (swap_impact s3) (negb il) = pamount (swap_impact s) (negb il) - pa;
    is_fee : fee s3 = cf;
    is_supply : total_supply s3 = total_supply s;
    is_rest : same_rest s s3;
    is_vi : vi_follows s s3;
    is_wf_prim : wf_pool (primary s3);
    is_wf_imp : wf_pool (swap_impact s3);
    is_wf_vi : wf_opool (vi_swaps s3);
    is_amount : amount = after - na;
    is_amount_nonneg : 0 <= amount;
    is_pos : 0 <= pa <= pamount (swap_impact s) (negb il);
    is_neg : 0 <= na;
    is_excl : pa = 0 \/ na = 0;
    is_neg_only : 0 < na -> impact < 0;
    is_mint : (pa = 0 /\ mint1 = 0) \/
       (0 < impact /\ total_supply s <> 0 /\ pa * pr_max (side_price ps (negb il)) <= impact /\
        usd_to_mt w (pa * pr_max (side_price ps (negb il))) pv (total_supply s) (value_to_amount_divisor s) = Some mint1)
  }.

  Lemma execute_deposit_ok s ps il amount0 pv impact bc s4 mint fs g :
    wf_state s -> wf_prices ps -> in_range amount0 ->
    execute_deposit w unit cfg s ps il amount0 pv impact bc = Ok (s4, mint, fs, g) ->
    leg_facts s s4 ps il amount0 pv impact mint fs g.
  Proof.
    intros (Hsup & Hprim & Himpp & Hfee & Hvi) Hps Ha H. unfold execute_deposit in H.
    pose proof (side_price_wf w ps il Hps) as Hpin. pose proof (side_price_wf w ps (negb il) Hps) as Hpout.
    destruct ((pv =? 0) && negb (total_supply s =? 0)); [discriminate|].
    (* the inversion stops at the [let] of the impact step *)
    rinv H. rename E into Efees, E0 into Erecv, E1 into Efeepool, x1 into cf, E2 into Eimpact.
    destruct x as [after fs0], x2 as [[[[s3 mint1] amount] pa] na]. cbn [fst snd] in *.
    app apply_fees_ok Efees. destruct Efees as (Fsum & Faft & Fpool & _ & _ & [Frecv _]).
    app to_sig_ok Erecv. destruct Erecv as [-> _].
    app pool_apply_one Efeepool. destruct Efeepool as (C1 & C2 & C3). specialize (C3 Hfee).
    pose proof (pamount_range w _ (negb il) Himpp) as Rimp.
    (* [H], the rest of the chain, stays out of the way of the impact step *)
    revert H. assert (IS : impact_step s s3 ps il cf after impact pv amount pa na mint1).
    { remember (if (0 <? impact) && (total_supply s =? 0) then 0 else impact) as imp eqn:Himp.
      assert (Hi : (0 < imp -> imp = impact /\ total_supply s <> 0) /\ (imp < 0 -> imp = impact))
        by (subst imp; destruct (0 <? impact) eqn:?, (total_supply s =? 0) eqn:?; cbn; lia).
      clear Himp. destruct Hi as [Hpos Hneg]. destruct (0 <? imp) eqn:Cpos; [|destruct (imp <? 0) eqn:Cneg].
      - (* positive impact: paid from the opposite token's impact pool into the opposite liquidity *)
        destruct (Hpos ltac:(lia)) as [-> Hsup0]. clear Hpos Hneg.
        rinv Eimpact. rename E into Epay, E4 into Eliq. destruct x as [s2 pa0]. cbn [fst snd] in *.
        injection Eimpact as <- <- <- <- <-.
        app apply_swap_impact_ok Epay. destruct Epay as (a & c & ip & EA & -> & -> & I1 & I2 & I3).
        rewrite Bool.negb_involutive in I2.
        app swap_impact_amount_pos EA. destruct EA as (Ha0 & Hc0 & _ & Hsum & _ & _). cbn [swap_impact set_fee] in *.
        rewrite Z.abs_eq in * by lia. norm.
        app apply_delta_ok Eliq. rewrite Bool.negb_involutive in Eliq.
        destruct Eliq as (P1 & P2 & P3 & P4 & P5 & P6 & P7 & P8 & P9).
        constructor; rewrite ?P4, ?P5, ?P6; cbn [primary swap_impact fee total_supply set_swap_impact set_fee] in *;
          try assumption; try reflexivity; try lia.
        right. rewrite Z.add_0_l. repeat split; try assumption; lia.
      - (* negative impact: part of the deposit goes to the token's impact pool *)
        rewrite (Hneg ltac:(lia)) in *. clear Hpos Hneg.
        rinv Eimpact. rename E into Epay. destruct x as [s2 na0]. cbn [fst snd] in *. injection Eimpact as <- <- <- <- <-.
        app apply_swap_impact_ok Epay. destruct Epay as (a & c & ip & EA & -> & -> & I1 & I2 & I3).
        app swap_impact_amount_nonpos EA. destruct EA as (Ha0 & _ & Hz & _). cbn [swap_impact set_fee] in *.
        rewrite Z.abs_neq in * by lia. norm.
        constructor; cbn [primary swap_impact fee total_supply vi_swaps set_swap_impact set_fee];
          try assumption; try reflexivity; try lia.
        + exact (same_rest_refl s).
        + apply vi_follows_same; reflexivity.
        + split; [lia|apply Rimp].
      - injection Eimpact as <- <- <- <- <-.
        constructor; cbn [primary swap_impact fee total_supply vi_swaps set_fee]; try assumption; try reflexivity; try lia.
        + exact (same_rest_refl s).
        + apply vi_follows_same; reflexivity.
        + split; [lia|apply Rimp]. }
    intros H. pose proof (is_fee _ _ _ _ _ _ _ _ _ _ _ _ IS) as Sfee. pose proof (is_supply _ _ _ _ _ _ _ _ _ _ _ _ IS) as Ssup. destruct IS.
    clear Eimpact. rinv H. rename E4 into Eliq. norm.
    app apply_delta_ok Eliq. destruct Eliq as (Q1 & Q2 & Q3 & Q4 & Q5 & Q6 & Q7 & Q8 & Q9).
    injection H as <- <- <- <-.
    constructor; cbn [lg_after_fees lg_amount lg_pos_amount lg_neg_amount lg_mint_amount lg_mint_impact];
      unfold holdings; rewrite ?Q4, ?Q5, ?Q6, ?Sfee; try assumption; try lia.
    - eapply same_rest_trans; eassumption.
    - eapply vi_follows_trans; eassumption.
    - unfold MarketProofs.wf_state. rewrite Q4, Q5, Q6, Sfee, Ssup. auto 6.
  Qed.

  Lemma usd_to_mt_nonneg usd pool supply dv r : 0 <= usd -> 0 <= pool -> 0 <= supply -> 0 <= dv ->
    usd_to_mt w usd pool supply dv = Some r -> 0 <= r.
  Proof.
    intros A B C D H. app usd_to_mt_cases H. destruct H as (Hd & [(? & ? & ->)|[(? & ? & -> & ?)|(? & ? & ? & ?)]]).
    - apply div_nonneg; lia.
    - apply div_nonneg; lia.
    - nia.
  Qed.

  Lemma usd_to_mt_first usd dv r : 0 <= usd -> 0 <= dv ->
    usd_to_mt w usd 0 0 dv = Some r -> r = usd / dv.
  Proof.
    intros A D H. app usd_to_mt_cases H. destruct H as (_ & [(_ & _ & ->)|[(_ & ? & _)|(? & _)]]); lia.
  Qed.

  Lemma mul_div_signed_sign a imp tot adj : 0 <= a -> 0 <= tot -> mul_div_signed w a imp tot = Some adj ->
    (0 < adj -> 0 < imp) /\ (adj < 0 -> imp < 0).
  Proof.
    intros A0 T0 M. app mul_div_signed_exact M. destruct M as (Td & Mabs & _ & Mp & Mn).
    split; intros Hadj.
    - destruct (Z_lt_le_dec 0 imp) as [P|P]; [exact P|]. specialize (Mn P). lia.
    - destruct (Z_lt_le_dec imp 0) as [P|P]; [exact P|].
      destruct (Z.eq_dec imp 0) as [->|N]; [|specialize (Mp ltac:(lia)); lia].
      rewrite Z.abs_0, Z.mul_0_r, Z.div_0_l in Mabs by lia. lia.
  Qed.

  (* what one side of a deposit contributes, executed or skipped (nothing to deposit);
     [imp] is the price impact value of the whole deposit *)
  Record leg_sum (s s1 : mstate) (ps : prices) (il : bool) (amount pv imp m : Z) (fs : fees) (g : deposit_leg) : Prop := {
    ls_hold_in : holdings s1 il = holdings s il + amount;
    ls_hold_out : holdings s1 (negb il) = holdings s (negb il);
    ls_supply : total_supply s1 = total_supply s;
    ls_rest : same_rest s s1;
    ls_vi : vi_follows s s1;
    ls_wf : wf_state s1;
    ls_prim_in : pamount (primary s1) il = pamount (primary s) il + lg_amount g + f_pool fs;
    ls_prim_out : pamount (primary s1) (negb il) = pamount (primary s) (negb il) + lg_pos_amount g;
    ls_imp_out : pamount (swap_impact s1) (negb il) = pamount (swap_impact s) (negb il) - lg_pos_amount g;
    ls_imp_in : pamount (swap_impact s1) il = pamount (swap_impact s) il + lg_neg_amount g;
    ls_split : lg_amount g + lg_neg_amount g + f_receiver fs + f_pool fs = amount;
    ls_nonneg : 0 <= lg_amount g /\ 0 <= lg_pos_amount g /\ 0 <= lg_neg_amount g /\ 0 <= f_pool fs /\ 0 <= f_receiver fs;
    ls_mint : m = lg_mint_impact g + lg_mint_amount g;
    ls_mint_nonneg : 0 <= lg_mint_impact g /\ 0 <= lg_mint_amount g;
    ls_pos_first : total_supply s = 0 -> lg_pos_amount g = 0 /\ lg_mint_impact g = 0;
    ls_pos_pool : lg_pos_amount g <= pamount (swap_impact s) (negb il);
    ls_fair : 0 < total_supply s ->
      pv * lg_mint_amount g <= total_supply s * (lg_amount g * pr_min (side_price ps il)) /\
      pv * lg_mint_impact g <= total_supply s * (lg_pos_amount g * pr_max (side_price ps (negb il))) /\
      (amount <> 0 -> 0 < pv) /\
      (0 < pv ->
        total_supply s * (lg_amount g * pr_min (side_price ps il)) < pv * lg_mint_amount g + pv /\
        total_supply s * (lg_pos_amount g * pr_max (side_price ps (negb il))) < pv * lg_mint_impact g + pv);
    ls_first : total_supply s = 0 -> pv = 0 ->
      lg_mint_amount g = lg_amount g * pr_min (side_price ps il) / value_to_amount_divisor s;
    ls_pos_sign : 0 < lg_pos_amount g -> 0 < imp;
    ls_neg_sign : 0 < lg_neg_amount g -> imp < 0
  }.

  (* [tv / (ltv + stv)] is the side's share of the impact *)
  Lemma leg_summary s ps il amount pv ltv stv tv imp bc s1 m fs g :
    wf_state s -> wf_prices ps -> in_range amount -> 0 <= pv -> 0 <= value_to_amount_divisor s ->
    0 <= ltv -> 0 <= stv -> 0 <= tv ->
    (if amount =? 0 then Ok (s, 0, mkFees 0 0, leg0) else
       tot <-- of_opt E_OVERFLOW (uadd w ltv stv) ;;
       adj <-- of_opt E_COMP (mul_div_signed w tv imp tot) ;;
       execute_deposit w unit cfg s ps il amount pv adj bc) = Ok (s1, m, fs, g) ->
    leg_sum s s1 ps il amount pv imp m fs g.
  Proof.
    intros Hs Hps Ha Hpv Hdv Hl Hst Ht H.
    pose proof Hs as ([S0 _] & _ & Himp & _). destruct (pamount_range w _ (negb il) Himp) as [Rimp _].
    pose proof (side_price_wf w ps il Hps) as [[P0 _] _]. pose proof (side_price_wf w ps (negb il) Hps) as [_ [Q1 _]].
    destruct (amount =? 0) eqn:Z0.
    - injection H as <- <- <- <-. constructor; cbn; try lia; try reflexivity.
      + apply same_rest_refl.
      + apply vi_follows_refl.
      + exact Hs.
    - rinv H. rename E into Etot, x0 into adj, E0 into Eadj. apply uadd_some in Etot. destruct Etot as [_ ->].
      destruct (mul_div_signed_sign tv imp (ltv + stv) adj Ht ltac:(lia) Eadj) as [Sp Sn].
      app execute_deposit_ok H.
      pose proof (lf_mint_amount _ _ _ _ _ _ _ _ _ _ H) as Um. pose proof (lf_mint_impact _ _ _ _ _ _ _ _ _ _ H) as Ui. destruct H.
      assert (0 <= lg_amount g * pr_min (side_price ps il)) by (apply Z.mul_nonneg_nonneg; assumption).
      assert (0 <= lg_pos_amount g * pr_max (side_price ps (negb il))) by (apply Z.mul_nonneg_nonneg; assumption).
      assert (Hma : 0 <= lg_mint_amount g) by (eapply usd_to_mt_nonneg; [| | | |exact Um]; lia).
      assert (Hmi : 0 <= lg_mint_impact g).
      { destruct Ui as [[_ ->]|(_ & _ & _ & U)]; [lia|]. eapply usd_to_mt_nonneg; [| | | |exact U]; lia. }
      constructor; try assumption; try lia.
      + intros Spos. pose proof Um as U. app usd_to_mt_floor U.
        destruct Ui as [[-> ->]|(_ & _ & _ & U2)]; [|app usd_to_mt_floor U2]; lia.
      + intros Z1 P0'. rewrite Z1, P0' in Um. eapply usd_to_mt_first; [| |exact Um]; lia.
  Qed.

  Record deposit_facts (s s' : mstate) (l sh : Z) (ps : prices) (r : deposit_report) (t : deposit_trace) : Prop := {
    df_hold_long : holdings s' true = holdings s true + l;
    df_hold_short : holdings s' false = holdings s false + sh;
    df_supply : total_supply s' = total_supply s + dr_minted r;
    df_minted_nonneg : 0 <= dr_minted r;
    df_rest : same_rest s s';
    df_vi : vi_follows s s';
    df_wf : wf_state s';
    df_pv : pool_value w unit cfg s ps MaxAfterDeposit true = Ok (dt_pool_value t) /\ 0 <= dt_pool_value t;
    df_legs : exists s1 s2 m1 m2,
        leg_sum s s1 ps true l (dt_pool_value t) (dr_impact r) m1 (dr_fees_long r) (dt_long t) /\
        leg_sum s1 s2 ps false sh (dt_pool_value t) (dr_impact r) m2 (dr_fees_short r) (dt_short t) /\
        dr_minted r = m1 + m2 /\ s' = set_supply s2 (total_supply s2 + (m1 + m2))
  }.

  Theorem deposit_exec_trace_ok s l sh ps s' r t :
    wf_state s -> wf_prices ps -> in_range l -> in_range sh -> 0 <= value_to_amount_divisor s ->
    deposit_exec_trace w unit cfg s l sh ps = Ok (s', r, t) ->
    deposit_facts s s' l sh ps r t.
  Proof.
    intros Hs Hps Hl Hsh Hdv H. unfold deposit_exec_trace in H.
    destruct ((l =? 0) && (sh =? 0)); [discriminate|].
    (* E..E4 are the pnl validation, the sign conversions, the mid prices and the pool delta; E5 the impact *)
    rinv H. clear E E0 E1 E2 E3 E4. rename x6 into pv, E6 into HPV, E7 into Long.
    assert (Hpv : 0 <= pv) by lia. rewrite (Z.abs_eq pv) in * by lia.
    destruct x7 as [[[s1 m1] f1] g1]. app leg_summary Long; try apply Z.abs_nonneg.
    pose proof (ls_wf _ _ _ _ _ _ _ _ _ _ Long) as Hs1. rewrite (same_rest_divisor _ _ (ls_rest _ _ _ _ _ _ _ _ _ _ Long)) in Hdv.
    rinv H. rename E into Short. destruct x6 as [[[s2 m2] f2] g2]. app leg_summary Short; try apply Z.abs_nonneg.
    rinv H. norm. injection H as <- <- <-.
    pose proof (ls_hold_in _ _ _ _ _ _ _ _ _ _ Long). pose proof (ls_hold_out _ _ _ _ _ _ _ _ _ _ Long). pose proof (ls_supply _ _ _ _ _ _ _ _ _ _ Long).
    pose proof (ls_hold_in _ _ _ _ _ _ _ _ _ _ Short). pose proof (ls_hold_out _ _ _ _ _ _ _ _ _ _ Short). pose proof (ls_supply _ _ _ _ _ _ _ _ _ _ Short).
    pose proof (ls_mint _ _ _ _ _ _ _ _ _ _ Long). pose proof (ls_mint_nonneg _ _ _ _ _ _ _ _ _ _ Long).
    pose proof (ls_mint _ _ _ _ _ _ _ _ _ _ Short). pose proof (ls_mint_nonneg _ _ _ _ _ _ _ _ _ _ Short). cbn [negb] in *.
    constructor; cbn [dr_minted dr_impact dr_fees_long dr_fees_short dt_pool_value dt_long dt_short].
    - change (holdings s2 true = holdings s true + l). lia.
    - change (holdings s2 false = holdings s false + sh). lia.
    - cbn. lia.
    - lia.
    - eapply same_rest_trans; [exact (ls_rest _ _ _ _ _ _ _ _ _ _ Long)|]. eapply same_rest_trans; [exact (ls_rest _ _ _ _ _ _ _ _ _ _ Short)|]. apply same_rest_set_supply.
    - eapply vi_follows_trans; [exact (ls_vi _ _ _ _ _ _ _ _ _ _ Long)|]. eapply vi_follows_trans; [exact (ls_vi _ _ _ _ _ _ _ _ _ _ Short)|]. apply vi_follows_same; reflexivity.
    - destruct (ls_wf _ _ _ _ _ _ _ _ _ _ Short) as (W1 & W2). split; [split; cbn; lia|exact W2].
    - split; assumption.
    - exists s1, s2, m1, m2. auto.
  Qed.

  Record withdraw_facts (s s' : mstate) (amount : Z) (ps : prices) (r : withdraw_report) (t : withdraw_trace) : Prop := {
    wd_hold_long : holdings s' true = holdings s true - wr_long_out r;
    wd_hold_short : holdings s' false = holdings s false - wr_short_out r;
    wd_supply : total_supply s' = total_supply s - amount;
    wd_amount : 0 < amount <= total_supply s;
    wd_rest : same_rest s s';
    wd_vi : vi_follows s s';
    wd_wf : wf_state s';
    wd_pv : pool_value w unit cfg s ps MaxAfterWithdrawal false = Ok (wt_pool_value t) /\ 0 < wt_pool_value t;
    wd_mtv : total_supply s * wt_mtv t <= wt_pool_value t * amount < total_supply s * wt_mtv t + total_supply s;
    wd_mtv_nonneg : 0 <= wt_mtv t;
    wd_gross_value : wt_long_gross t * pr_max (px_long ps) + wt_short_gross t * pr_max (px_short ps) <= wt_mtv t;
    wd_long_split : wr_long_out r + f_receiver (wr_fees_long r) + f_pool (wr_fees_long r) = wt_long_gross t;
    wd_short_split : wr_short_out r + f_receiver (wr_fees_short r) + f_pool (wr_fees_short r) = wt_short_gross t;
    wd_nonneg : 0 <= wr_long_out r /\ 0 <= wr_short_out r /\ 0 <= f_pool (wr_fees_long r) /\ 0 <= f_pool (wr_fees_short r) /\
                0 <= f_receiver (wr_fees_long r) /\ 0 <= f_receiver (wr_fees_short r);
    wd_prim_long : p_long (primary s') = p_long (primary s) - (wr_long_out r + f_receiver (wr_fees_long r));
    wd_prim_short : p_short (primary s') = p_short (primary s) - (wr_short_out r + f_receiver (wr_fees_short r));
    wd_imp : swap_impact s' = swap_impact s;
    wd_fee_long : p_long (fee s') = p_long (fee s) + f_receiver (wr_fees_long r);
    wd_fee_short : p_short (fee s') = p_short (fee s) + f_receiver (wr_fees_short r)
  }.

  (* the tokens paid for one side are worth at most the side's share of [mtv] *)
  Lemma side_amount_ok mtv v tot p a : 0 <= mtv -> 0 <= v -> 0 <= tot -> 0 <= p ->
    (x <- mul_div w mtv v tot ;; udiv w x p) = Some a -> 0 < tot /\ 0 <= a /\ tot * (a * p) <= mtv * v.
  Proof.
    intros Hm Hv Ht Hp H. apply obind_some in H. destruct H as (x & M & D).
    app mul_div_floor M. apply udiv_some in D. destruct D as [P0 ->].
    pose proof (div_floor_spec x p ltac:(lia)). assert (0 <= x / p) by (apply div_nonneg; lia).
    remember (x / p) as q eqn:Hq. clear Hq. split; [lia|]. split; [assumption|]. nia.
  Qed.

  Theorem withdraw_exec_trace_ok s amount ps s' r t :
    wf_state s -> wf_prices ps -> in_range amount ->
    withdraw_exec_trace w unit cfg s amount ps = Ok (s', r, t) ->
    withdraw_facts s s' amount ps r t.
  Proof.
    intros Hs Hps Ha H. unfold withdraw_exec_trace in H.
    pose proof Hs as ([S0 S1] & Hprim & Himpp & Hfee & Hvi). pose proof Hprim as [[PL0 _] [PS0 _]].
    pose proof Hps as (_ & [_ [PL1 _]] & [_ [PS1 _]]). destruct Ha as [Ha _].
    (* the inverted steps, in the order of the action; E18..E20 are the validations *)
    rinv H. clear E18 E19 E20. rename x into pv, x3 into mtv, x4 into la, x5 into sa.
    rename E0 into Elval, E1 into Esval, E2 into Etot, E3 into Emtv, E4 into Ela, E5 into Esa, E6 into Elfees, E7 into Esfees.
    rename E8 into Elrecv, E9 into Elfeepool, E10 into Esrecv, E11 into Esfeepool.
    rename E12 into Elsum, E13 into Elopp, E14 into Elliq, E15 into Essum, E16 into Esopp, E17 into Esliq, E21 into Eburn.
    destruct x6 as [lout lfs], x7 as [sout sfs]. cbn [fst snd] in *. rewrite (Z.abs_eq pv) in * by lia.
    apply umul_some in Elval, Esval. destruct Elval as [[V0 _] ->], Esval as [[V1 _] ->]. apply uadd_some in Etot. destruct Etot as [_ ->].
    unfold mt_to_usd in Emtv. app mul_div_floor Emtv. destruct Emtv as (HM & Mn & _).
    app side_amount_ok Ela. destruct Ela as (Tot & La & GL). app side_amount_ok Esa. destruct Esa as (_ & Sa & GS).
    app apply_fees_ok Elfees. destruct Elfees as (Lsum & Lout & Lpool & _ & _ & [Lrecv _]).
    app apply_fees_ok Esfees. destruct Esfees as (Ssum & Sout & Spool & _ & _ & [Srecv _]).
    app to_sig_ok Elrecv. destruct Elrecv as [-> _]. app pool_apply_one Elfeepool. destruct Elfeepool as (F1 & F2 & F3).
    app to_sig_ok Esrecv. destruct Esrecv as [-> _]. app pool_apply_one Esfeepool. destruct Esfeepool as (F4 & F5 & F6).
    apply uadd_some in Elsum. destruct Elsum as [_ ->]. app to_opp_ok Elopp. destruct Elopp as [-> _].
    app apply_delta_ok Elliq. destruct Elliq as (P1 & P2 & P3 & P4 & P5 & P6 & P7 & P8 & P9).
    apply uadd_some in Essum. destruct Essum as [_ ->]. app to_opp_ok Esopp. destruct Esopp as [-> _].
    app apply_delta_ok Esliq. destruct Esliq as (Q1 & Q2 & Q3 & Q4 & Q5 & Q6 & Q7 & Q8 & Q9).
    apply usub_some in Eburn. destruct Eburn as [[Sup _] ->].
    injection H as <- <- <-. cbn [pamount negb primary fee swap_impact total_supply set_fee] in *.
    constructor; cbn [wr_long_out wr_short_out wr_fees_long wr_fees_short wt_pool_value wt_mtv wt_long_gross wt_short_gross];
      unfold holdings; cbn [pamount set_supply primary swap_impact fee total_supply]; rewrite ?Q4, ?Q5, ?P4, ?P5; try lia.
    - eapply same_rest_trans; [exact P7|]. eapply same_rest_trans; [exact Q7|]. apply same_rest_set_supply.
    - eapply vi_follows_trans; [exact P8|]. eapply vi_follows_trans; [exact Q8|]. apply vi_follows_same; reflexivity.
    - unfold MarketProofs.wf_state. cbn [set_supply primary swap_impact fee total_supply vi_swaps]. rewrite Q4, Q5, P4, P5.
      split; [split; lia|]. auto 8.
    - split; [assumption|lia].
    - apply (gross_le mtv (p_long (primary s) * pr_max (px_long ps)) (p_short (primary s) * pr_max (px_short ps))); assumption.
    - reflexivity.
  Qed.
End P.
