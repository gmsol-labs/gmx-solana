(* C14 — proofs about the distribution model. *)
From GV Require Import lib.Base lib.DivLemmas C01.Model C01.Proofs C14.Model.
Open Scope Z_scope.

Definition expected (unit : Z) (c : cfg) (cur dur : Z) : Z :=
  Z.min (dur * rate c / unit) (Z.max 0 (cur - minp c)).

Definition wf_cfg (c : cfg) : Prop := 0 <= rate c /\ 0 <= minp c.

Section E.
  Variable unit : Z.
  Hypothesis Hunit : 0 < unit.

  Lemma expected_bounds c cur dur : wf_cfg c -> 0 <= cur -> 0 <= dur ->
    0 <= expected unit c cur dur <= Z.max 0 (cur - minp c).
  Proof.
    intros [Hr Hm] Hc Hd. unfold expected.
    assert (0 <= dur * rate c / unit) by (apply div_nonneg; nia). lia.
  Qed.

  Lemma expected_pos c cur dur : 0 < expected unit c cur dur -> rate c <> 0 /\ minp c < cur.
  Proof.
    unfold expected. intros H. split; [|lia].
    intros R. rewrite R, Z.mul_0_r, Z.div_0_l in H; lia.
  Qed.

  (* splitting a period never distributes more than one distribution over the whole period:
     floor(d1*r/u) + floor(d2*r/u) <= floor((d1+d2)*r/u), and the cap is the same excess *)
  Lemma split_le c cur d1 d2 : wf_cfg c -> 0 <= cur -> 0 <= d1 -> 0 <= d2 ->
    let e1 := expected unit c cur d1 in
    e1 + expected unit c (cur - e1) d2 <= expected unit c cur (d1 + d2).
  Proof.
    intros [Hr Hm] Hc H1 H2. cbv zeta. unfold expected.
    pose proof (div_add_super (d1 * rate c) (d2 * rate c) unit Hunit) as HS.
    replace (d1 * rate c + d2 * rate c) with ((d1 + d2) * rate c) in HS by ring.
    assert (0 <= d1 * rate c / unit) by (apply div_nonneg; nia).
    assert (0 <= d2 * rate c / unit) by (apply div_nonneg; nia).
    lia.
  Qed.
End E.

Section P.
  Variable w : Z.
  Hypothesis Hw : 1 <= w.
  Variable unit : Z.
  Hypothesis Hunit : 0 < unit.

  Definition wf_st (s : st) : Prop := 0 <= pool s < 2 ^ w /\ 0 <= last s.

  Lemma pending_cases c cur dur : wf_cfg c -> 0 <= cur < 2 ^ w -> 0 <= dur ->
    let e := expected unit c cur dur in
    pending w unit c cur dur = Ok (e, cur - e) /\
      (rate c = 0 \/ cur <= minp c \/ dur * rate c / unit < 2 ^ w) \/
    pending w unit c cur dur = Err 1 /\ rate c <> 0 /\ minp c < cur /\ 2 ^ w <= dur * rate c / unit.
  Proof.
    intros Hc Hcur Hd e. pose proof (expected_bounds unit Hunit c cur dur Hc ltac:(lia) Hd) as HB.
    pose proof (expected_pos unit Hunit c cur dur) as HP. fold e in HB, HP. destruct Hc as [Hr Hm].
    unfold pending. destruct ((rate c =? 0) || (cur <=? minp c)) eqn:E.
    - apply orb_true_iff in E. rewrite Z.eqb_eq, Z.leb_le in E.
      left. replace e with 0 by lia. rewrite Z.sub_0_r. split; [reflexivity|tauto].
    - apply orb_false_iff in E. rewrite Z.eqb_neq, Z.leb_gt in E.
      replace (usub w cur (minp c)) with (Some (cur - minp c)) by (symmetry; apply usub_some; lia).
      cbn [of_opt rbind].
      destruct (apply_factor w unit dur (rate c)) as [d0|] eqn:Ed; cbn [of_opt rbind].
      + apply apply_factor_exact in Ed; [|lia..]. destruct Ed as [-> Hlt].
        replace (if cur - minp c <? dur * rate c / unit then cur - minp c else dur * rate c / unit) with e
          by (unfold e, expected; destruct (Z.ltb_spec (cur - minp c) (dur * rate c / unit)); lia).
        replace (usub w cur e) with (Some (cur - e)) by (symmetry; apply usub_some; lia).
        left. split; [reflexivity|lia].
      + right. apply mul_div_none in Ed; [|lia..]. split; [reflexivity|lia].
  Qed.

  Lemma elapsed_nonneg s now : 0 <= elapsed s now.
  Proof. unfold elapsed. lia. Qed.

  (* the whole action: it hands out the capped amount, unless rate * duration does not fit (1) or
     the amount does not convert to a signed delta (2); then only the clock has moved *)
  Lemma execute_cases c s now : wf_cfg c -> wf_st s ->
    let dur := elapsed s now in
    let d := expected unit c (pool s) dur in
    execute w unit c s now = (Ok {| r_dur := dur; r_dist := d; r_next := pool s - d |},
                              {| pool := pool s - d; last := now |}) \/
    rate c <> 0 /\ minp c < pool s /\
    exists e, execute w unit c s now = (Err e, {| pool := pool s; last := now |}) /\
      (e = 1 /\ 2 ^ w <= dur * rate c / unit \/
       e = 2 /\ dur * rate c / unit < 2 ^ w /\ 2 ^ (w - 1) <= d).
  Proof.
    intros Hc [Hp Hl] dur d. pose proof (elapsed_nonneg s now) as Hd. fold dur in Hd.
    pose proof (expected_bounds unit Hunit c (pool s) dur Hc ltac:(lia) Hd) as HB.
    pose proof (expected_pos unit Hunit c (pool s) dur) as HP. fold d in HB, HP.
    unfold execute. fold dur.
    destruct (pending_cases c (pool s) dur Hc Hp Hd) as [[E Hg]|[E HO]]; rewrite E; fold d; destruct Hc as [Hr Hm].
    - destruct (Z.eqb_spec d 0) as [D0|D0].
      { left. replace (pool s - d) with (pool s) by lia. reflexivity. }
      destruct (Z.lt_ge_cases d (2 ^ (w - 1))) as [Hlt|Hge].
      + replace (to_opposite_signed w d) with (Some (- d)) by (symmetry; apply to_opposite_signed_some; lia).
        unfold pool_apply. replace (0 <? - d) with false by lia.
        replace (usub w (pool s) (Z.abs (- d))) with (Some (pool s - d)) by (symmetry; apply usub_some; lia).
        left. reflexivity.
      + destruct (to_opposite_signed w d) as [sd|] eqn:Es.
        { apply to_opposite_signed_some in Es; lia. }
        right. split; [lia|]. split; [lia|]. exists 2. split; [reflexivity|]. right. lia.
    - right. split; [tauto|]. split; [tauto|]. exists 1. split; [reflexivity|]. left. lia.
  Qed.

  Lemma execute_ok c s now rep s' : wf_cfg c -> wf_st s ->
    execute w unit c s now = (Ok rep, s') ->
    r_dur rep = elapsed s now /\
    r_dist rep = expected unit c (pool s) (elapsed s now) /\
    r_next rep = pool s - r_dist rep /\
    pool s' = r_next rep /\ last s' = now.
  Proof.
    intros Hc Hs H. destruct (execute_cases c s now Hc Hs) as [E|(_ & _ & e & E & _)]; rewrite E in H.
    - injection H as <- <-. cbn. auto.
    - discriminate.
  Qed.

  Lemma execute_err c s now e s' : wf_cfg c -> wf_st s ->
    execute w unit c s now = (Err e, s') ->
    pool s' = pool s /\ last s' = now /\ rate c <> 0 /\ minp c < pool s /\
    ((e = 1 /\ 2 ^ w <= elapsed s now * rate c / unit) \/
     (e = 2 /\ elapsed s now * rate c / unit < 2 ^ w /\ 2 ^ (w - 1) <= expected unit c (pool s) (elapsed s now))).
  Proof.
    intros Hc Hs H. destruct (execute_cases c s now Hc Hs) as [E|(R & M & e0 & E & HE)]; rewrite E in H.
    - discriminate.
    - injection H as <- <-. cbn. auto.
  Qed.

  Lemma step_pool c s now : wf_cfg c -> wf_st s ->
    let s' := step w unit c s now in
    pool s' <= pool s /\
    (minp c < pool s -> minp c <= pool s') /\
    (pool s <= minp c -> pool s' = pool s) /\
    last s' = now /\ 0 <= pool s'.
  Proof.
    intros Hc Hs. unfold step.
    pose proof (expected_bounds unit Hunit c (pool s) (elapsed s now) Hc ltac:(destruct Hs; lia) (elapsed_nonneg s now)).
    destruct Hc as [Hr Hm], Hs as [Hp Hl].
    destruct (execute_cases c s now) as [E|(_ & _ & e & E & _)]; try (split; assumption); rewrite E; cbn; lia.
  Qed.

  Lemma run_inv c nows : wf_cfg c -> Forall (fun t => 0 <= t) nows -> forall s, wf_st s ->
    let s' := run w unit c s nows in
    wf_st s' /\ pool s' <= pool s /\
    (minp c < pool s -> minp c <= pool s') /\
    (pool s <= minp c -> pool s' = pool s).
  Proof.
    intros Hc Ht s Hs. unfold run. rewrite Forall_forall in Ht.
    apply (fold_left_inv _ (fun s' => wf_st s' /\ pool s' <= pool s /\
             (minp c < pool s -> minp c <= pool s') /\ (pool s <= minp c -> pool s' = pool s))).
    - intros a t Hin (Wa & I2 & I3 & I4).
      pose proof (step_pool c a t Hc Wa) as H1. cbv zeta in H1. specialize (Ht t Hin).
      destruct Wa. unfold wf_st. lia.
    - destruct Hs. unfold wf_st. lia.
  Qed.
End P.

(* on the production instance (u128, 20 decimals) with a u64 duration the amount is below
   2^64 * 2^128 / 10^20 < 2^127: it fits, and converts to a signed delta *)
Lemma amount_bound_u128 dur r : 0 <= dur < 2 ^ 64 -> 0 <= r < 2 ^ 128 -> dur * r / 10 ^ 20 < 2 ^ 127.
Proof.
  intros Hd Hr. apply Z.div_lt_upper_bound; [lia|].
  assert (dur * r < 2 ^ 64 * 2 ^ 128) by nia.
  assert (2 ^ 64 * 2 ^ 128 <= 10 ^ 20 * 2 ^ 127) by (vm_compute; discriminate). lia.
Qed.

Lemma execute_never_fails_u128 c s now : 0 <= rate c < 2 ^ 128 -> 0 <= minp c ->
  wf_st 128 s -> 0 <= now < 2 ^ 64 ->
  exists rep s', execute 128 (10 ^ 20) c s now = (Ok rep, s').
Proof.
  intros Hr Hm Hs Hn.
  destruct (execute_cases 128 ltac:(lia) (10 ^ 20) ltac:(lia) c s now) as [E|(_ & _ & e & _ & HE)];
    [split; lia|exact Hs|eauto|exfalso].
  assert (Hd : 0 <= elapsed s now < 2 ^ 64) by (destruct Hs; unfold elapsed; lia).
  pose proof (amount_bound_u128 _ (rate c) Hd Hr) as HB.
  unfold expected in HE. change (128 - 1) with 127 in HE. lia.
Qed.
