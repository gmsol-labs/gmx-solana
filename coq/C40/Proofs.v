From GV Require Import lib.Base gen.C16Tables gen.C40Tables C16.Model C16.Proofs C40.Model.
From Coq Require Import String.
Open Scope string_scope.
Open Scope Z_scope.

(* the last two conjuncts here and in clock_tables_agree are the side conditions of the C16 table law for the
   program's own pool and clock arms; no theorem of C40 states that law *)
Lemma pool_tables_agree :
  agree_b s_pool_get p_pool_get = true /\ agree_b s_pool_get_mut p_pool_get_mut = true
  /\ agree_b p_pool_get p_pool_get_mut = true /\ inj_b p_pool_get = true.
Proof. vm_compute. repeat split. Qed.

Definition kinds_without_pool : list string :=
  filter (fun k => negb (is_some (lookup k p_pool_get) && is_some (lookup k s_pool_get))) pool_kinds.
Lemma all_kinds_have_pools : kinds_without_pool = []. Proof. vm_compute. reflexivity. Qed.

Lemma clock_tables_agree :
  agree_b s_clock_get p_clock_get = true /\ agree_b p_clock_get p_clock_get_mut = true /\ inj_b p_clock_get = true.
Proof. vm_compute. repeat split. Qed.
Definition kinds_without_clock : list string :=
  filter (fun k => negb (is_some (lookup k p_clock_get) && is_some (lookup k s_clock_get))) clock_kinds.
Lemma all_kinds_have_clocks : kinds_without_clock = []. Proof. vm_compute. reflexivity. Qed.

Definition const_mismatch : list string :=
  map (fun x => fst (fst x)) (filter (fun x => negb (snd (fst x) =? snd x)) const_pairs).
Lemma constants_agree : const_mismatch = []. Proof. vm_compute. reflexivity. Qed.

(* shared Balance / Pool trait methods have identical bodies; is_pure too *)
Definition body_mismatch : list string :=
  map fst (filter (fun kv => negb (oseqb (lookup (fst kv) p_pool_impl) (Some (snd kv)))) s_pool_impl)
  ++ map fst (filter (fun kv => negb (oseqb (lookup (fst kv) p_balance_impl) (Some (snd kv)))) s_balance_impl)
  ++ map fst (filter (fun kv => negb (is_some (lookup (fst kv) s_balance_impl))) p_balance_impl)
  ++ map fst (filter (fun kv => negb (is_some (lookup (fst kv) s_pool_impl))) p_pool_impl)
  ++ (if String.eqb p_pool_is_pure s_pool_is_pure then [] else ["is_pure"])
  ++ (if String.eqb p_cancel_amounts_fn s_cancel_amounts_fn && negb (String.eqb p_cancel_amounts_fn "") then [] else ["cancel_amounts"]).
Lemma pool_bodies_agree : body_mismatch = []. Proof. vm_compute. reflexivity. Qed.

(* the Pool trait methods the program overrides and the SDK leaves to the trait default *)
Definition sdk_missing_overrides : list string :=
  map fst (filter (fun kv => negb (is_some (lookup (fst kv) s_pool_impl))) p_pool_impl).
(* the list is the fourth summand of body_mismatch *)
Lemma sdk_has_all_overrides : sdk_missing_overrides = [] /\ is_some (lookup "checked_cancel_amounts" s_pool_impl) = true.
Proof.
  split; [|vm_compute; reflexivity]. pose proof pool_bodies_agree as H. unfold body_mismatch in H.
  do 3 apply app_eq_nil, proj2 in H. exact (proj1 (app_eq_nil _ _ H)).
Qed.

(* parameter slots: the SDK slot reads the same cell as the program slot (swap_fee_params: under the
   swap / deposit / withdrawal pricing kinds; under `shift` the two impact fee factors are the literal 0
   on both sides — RevertibleMarket::swap_fee_params does the same in the program) *)
Definition src_eqb (a b : option (src * bool)) : bool :=
  match a, b with
  | Some (SField x, z1), Some (SField y, z2) => String.eqb x y && Bool.eqb z1 z2
  | Some (SFlag x, z1), Some (SFlag y, z2) => String.eqb x y && Bool.eqb z1 z2
  | Some (SLit x, _), Some (SLit y, _) => x =? y
  | None, None => true
  | _, _ => false
  end.

Definition sdk_slots_of (slot : string) : list string :=
  if String.prefix "swap_fee_params/" slot
  then let f := substring 16 (String.length slot - 16) slot in
       map (fun p => "swap_fee_params/pricing_" ++ p ++ "." ++ f) ["swap"; "deposit"; "withdrawal"]
  else [slot].

Definition cell_of (params : list (string * src)) (helpers : list (string * list (option bool * option bool * src)))
           (zn : list string) (uc : bool) (slot : string) : option (src * bool) :=
  match lookup slot params with Some s => slot_cell helpers zn uc s | None => None end.

Definition slot_mismatch : list (string * bool) :=
  filter (fun su =>
            negb (forallb (fun ss => is_some (lookup ss s_params)
                                     && src_eqb (cell_of s_params s_helpers s_zero_is_none (snd su) ss)
                                                (cell_of p_params p_helpers p_zero_is_none (snd su) (fst su)))
                          (sdk_slots_of (fst su))))
         (map (fun s => (s, false)) (map fst p_params) ++ map (fun s => (s, true)) (map fst p_params)).
Lemma sdk_slots_agree : slot_mismatch = []. Proof. vm_compute. reflexivity. Qed.

Lemma cancel_agree : forall byte l s, cancel_sdk byte l s = cancel_prog byte l s.
Proof.
  intros byte l s. unfold cancel_sdk, cancel_prog. destruct (pure byte); [reflexivity|].
  destruct (s <=? l) eqn:E; [apply Z.leb_le in E|apply Z.leb_gt in E]; f_equal; lia.
Qed.

Lemma cancel_prog_spec : forall byte l s, 0 <= l -> 0 <= s -> pure byte = false ->
  cancel_prog byte l s = RPool byte (l - Z.min l s) (s - Z.min l s).
Proof.
  intros byte l s Hl Hs P. unfold cancel_prog. rewrite P.
  destruct (s <=? l) eqn:E; [apply Z.leb_le in E|apply Z.leb_gt in E]; f_equal; lia.
Qed.

(* why both types override: the trait default fails above i128::MAX where the override succeeds *)
Lemma default_cancel_refuted :
  exists l s, 0 <= l < 2 ^ 128 /\ 0 <= s < 2 ^ 128
    /\ cancel_prog 0 l s = RPool 0 (2 ^ 127 - 1) 0 /\ cancel_sdk 0 l s = RPool 0 (2 ^ 127 - 1) 0 /\ cancel_default 0 l s = RErr.
Proof. exists (2 ^ 128 - 1), (2 ^ 127). vm_compute. repeat split; discriminate. Qed.
