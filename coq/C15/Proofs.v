(* C15 — proofs about the pool model. *)
From GV Require Import lib.Base lib.Checked C15.Model.
Open Scope Z_scope.
Ltac Zify.zify_post_hook ::= Z.div_mod_to_equations.

(* well-formed pure pool: pure flag set, short field unused (zero), total in u128 *)
Definition wf_pure (p : pool) : Prop :=
  pure p = true /\ short_f p = 0 /\ 0 <= long_f p < 2 ^ 128.
Definition in_range (p : pool) : Prop := 0 <= long_f p < 2 ^ 128 /\ 0 <= short_f p < 2 ^ 128.
Definition fits (t : Z) : bool := (0 <=? t) && (t <? 2 ^ 128).

(* the ledger of a pure pool is ONE number; this is what every op does to it *)
Definition ledger_step (t : Z) (o : op) : Z :=
  match o with
  | OLong d | OShort d | OSide _ d => if fits (t + d) then t + d else t
  | ODelta dl ds =>
      let t1 := match dl with Some d => t + d | None => t end in
      let t2 := match ds with Some d => t1 + d | None => t1 end in
      if fits t1 && fits t2 then t2 else t
  | OCancel => t mod 2
  end.

Definition run (sdk dbg : bool) (p : pool) (ops : list op) : pool := fold_left (step_keep sdk dbg) ops p.

Lemma pure_views (dbg : bool) p : wf_pure p ->
  long_amount dbg p = Ok (ceil2 (long_f p)) /\ short_amount dbg p = Ok (long_f p / 2).
Proof.
  intros (Hp & Hs & Hr). unfold long_amount, short_amount. rewrite Hp, Hs. cbn.
  rewrite andb_false_r. auto.
Qed.

Lemma impure_views (dbg : bool) p : pure p = false ->
  long_amount dbg p = Ok (long_f p) /\ short_amount dbg p = Ok (short_f p).
Proof. intros Hp. unfold long_amount, short_amount. rewrite Hp. auto. Qed.

Lemma pure_sides_sum (dbg : bool) p : wf_pure p ->
  exists lv sv, long_amount dbg p = Ok lv /\ short_amount dbg p = Ok sv /\
    lv + sv = long_f p /\ 0 <= lv - sv <= 1 /\ 0 <= sv.
Proof.
  intros W. destruct (pure_views dbg p W) as [A B]. destruct W as (_ & _ & Hr).
  exists (ceil2 (long_f p)), (long_f p / 2). unfold ceil2 in *. repeat split; auto; lia.
Qed.

Lemma fits_spec t : fits t = true <-> 0 <= t < 2 ^ 128.
Proof. exact (in_u_iff 128 t). Qed.
Lemma fitsP t : reflect (0 <= t < 2 ^ 128) (fits t).
Proof. apply iff_reflect. symmetry. apply fits_spec. Qed.

Lemma add_signed_fits a d : add_signed a d = if fits (a + d) then Ok (a + d) else Err E_COMP.
Proof.
  unfold add_signed, chk_u. change (in_u W (a + d)) with (fits (a + d)). destruct (fits (a + d)); reflexivity.
Qed.

Lemma apply_long_eq p d :
  apply_long p d = if fits (long_f p + d) then Ok (mkp (is_pure p) (long_f p + d) (short_f p)) else Err E_COMP.
Proof. unfold apply_long. rewrite add_signed_fits. destruct (fits (long_f p + d)); reflexivity. Qed.

Lemma pure_apply_short p d : pure p = true -> apply_short p d = apply_long p d.
Proof. intros H. unfold apply_short, apply_long. now rewrite H. Qed.

Lemma impure_apply_short p d : pure p = false ->
  apply_short p d = if fits (short_f p + d) then Ok (mkp (is_pure p) (long_f p) (short_f p + d)) else Err E_COMP.
Proof.
  intros H. unfold apply_short. rewrite H, add_signed_fits. destruct (fits (short_f p + d)); reflexivity.
Qed.

Lemma pure_apply_delta p (is_long : bool) d : pure p = true ->
  apply_delta_amount p is_long d =
  if fits (long_f p + d) then Ok (mkp (is_pure p) (long_f p + d) (short_f p)) else Err E_COMP.
Proof.
  intros Hp. rewrite <- apply_long_eq. destruct is_long; [reflexivity|exact (pure_apply_short p d Hp)].
Qed.

Lemma pool_eta p : mkp (is_pure p) (long_f p) (short_f p) = p.
Proof. destruct p; reflexivity. Qed.

Lemma wf_pure_total p t : wf_pure p -> 0 <= t < 2 ^ 128 -> wf_pure (mkp (is_pure p) t (short_f p)).
Proof. intros (Hp & Hs & _) Ht. repeat split; assumption || apply Ht. Qed.

Lemma land1 x : 0 <= x -> Z.land x 1 = x mod 2.
Proof. intros H. change 1 with (Z.ones 1). rewrite Z.land_ones by lia. reflexivity. Qed.

Lemma pure_cancel_prog_eq p : wf_pure p -> cancel_prog p = Ok (mkp (is_pure p) (long_f p mod 2) (short_f p)).
Proof. intros (Hp & _ & Hr). unfold cancel_prog. rewrite Hp, land1 by lia. reflexivity. Qed.

Lemma to_opposite_signed_ok x : 0 <= x <= 2 ^ 127 - 1 -> to_opposite_signed x = Ok (- x).
Proof.
  intros H. unfold to_opposite_signed, to_signed_, W.
  replace (to_signed 128 x) with (Some x) by (symmetry; apply to_signed_some; lia). cbn [of_opt rbind].
  replace (sneg 128 x) with (Some (- x)) by (symmetry; apply sneg_some; lia). reflexivity.
Qed.

Lemma to_opposite_signed_err x : 2 ^ 127 <= x -> to_opposite_signed x = Err E_CONV.
Proof.
  intros H. unfold to_opposite_signed, to_signed_, W.
  replace (to_signed 128 x) with (@None Z) by (symmetry; apply to_signed_none; lia). reflexivity.
Qed.

(* the trait's default netting takes min(long view, short view) off each side, as two signed deltas *)
Lemma cancel_default_eq (dbg : bool) p l s : long_amount dbg p = Ok l -> short_amount dbg p = Ok s ->
  0 <= l -> 0 <= s ->
  cancel_default dbg p =
  (a <-- to_opposite_signed (Z.min l s) ;; b <-- to_opposite_signed (Z.min l s) ;;
   checked_apply_delta p (Some a) (Some b)).
Proof.
  intros A B Hl Hs. unfold cancel_default. rewrite A, B. cbn [rbind].
  replace (if s <=? l then (Z.abs (l - Z.abs (l - s)), s) else (l, Z.abs (s - Z.abs (l - s))))
    with (Z.min l s, Z.min l s) by (destruct (Z.leb_spec s l); f_equal; lia).
  reflexivity.
Qed.

Lemma pure_cancel_default (dbg : bool) p : wf_pure p -> cancel_default dbg p = cancel_prog p.
Proof.
  intros Wp. destruct (pure_views dbg p Wp) as [A B]. rewrite (pure_cancel_prog_eq p Wp).
  destruct Wp as (Hp & Hs & Hr). set (t := long_f p) in *.
  rewrite (cancel_default_eq dbg p _ _ A B) by (unfold ceil2; lia).
  replace (Z.min (ceil2 t) (t / 2)) with (t / 2) by (unfold ceil2; lia).
  rewrite to_opposite_signed_ok by lia. cbn [rbind].
  unfold checked_apply_delta. rewrite apply_long_eq. fold t.
  destruct (fitsP (t + - (t / 2))); [|lia]. cbn [rbind].
  rewrite pure_apply_short, apply_long_eq by exact Hp. cbn [long_f is_pure short_f].
  destruct (fitsP (t + - (t / 2) + - (t / 2))); [|lia].
  do 2 f_equal. lia.
Qed.

Lemma impure_cancel_prog p : pure p = false -> in_range p ->
  exists p', cancel_prog p = Ok p' /\ is_pure p' = is_pure p /\
    long_f p' = long_f p - Z.min (long_f p) (short_f p) /\
    short_f p' = short_f p - Z.min (long_f p) (short_f p) /\
    (long_f p' = 0 \/ short_f p' = 0) /\ long_f p' - short_f p' = long_f p - short_f p.
Proof.
  intros Hp [Hl Hs]. unfold cancel_prog, cancel_amounts. rewrite Hp.
  destruct (Z.leb_spec (short_f p) (long_f p)); eexists; (split; [reflexivity|]); cbn; repeat split; lia.
Qed.

(* on impure pools the trait's default fails as soon as the netted amount exceeds i128::MAX;
   this is why both Pool types override it *)
Lemma impure_cancel_default_fails (dbg : bool) p : pure p = false -> in_range p ->
  2 ^ 127 <= Z.min (long_f p) (short_f p) -> cancel_default dbg p = Err E_CONV.
Proof.
  intros Hp [Hl Hs] Hm. destruct (impure_views dbg p Hp) as [A B].
  rewrite (cancel_default_eq dbg p _ _ A B), to_opposite_signed_err by lia. reflexivity.
Qed.

Lemma impure_cancel_default_agrees (dbg : bool) p : pure p = false -> in_range p ->
  Z.min (long_f p) (short_f p) <= 2 ^ 127 - 1 -> cancel_default dbg p = cancel_prog p.
Proof.
  intros Hp [Hl Hs] Hm. destruct (impure_views dbg p Hp) as [A B].
  rewrite (cancel_default_eq dbg p _ _ A B), to_opposite_signed_ok by lia. cbn [rbind].
  set (m := Z.min (long_f p) (short_f p)) in *.
  unfold checked_apply_delta. rewrite apply_long_eq. destruct (fitsP (long_f p + - m)); [|lia]. cbn [rbind].
  rewrite impure_apply_short by exact Hp. cbn [long_f is_pure short_f].
  destruct (fitsP (short_f p + - m)); [|lia].
  unfold cancel_prog, cancel_amounts. rewrite Hp.
  destruct (Z.leb_spec (short_f p) (long_f p)); do 2 f_equal; lia.
Qed.

Lemma ledger_step_range t o : 0 <= t < 2 ^ 128 -> 0 <= ledger_step t o < 2 ^ 128.
Proof.
  intros Ht. destruct o as [d|d|b d|dl ds|]; cbn [ledger_step]; try (destruct (fitsP (t + d)); assumption).
  - set (t1 := match dl with Some d => t + d | None => t end).
    set (t2 := match ds with Some d => t1 + d | None => t1 end).
    destruct (fitsP t1), (fitsP t2); assumption.
  - lia.
Qed.

Lemma pure_delta_keep p (b : bool) d : pure p = true ->
  match apply_delta_amount p b d with Ok p' => p' | Err _ => p end
  = mkp (is_pure p) (if fits (long_f p + d) then long_f p + d else long_f p) (short_f p).
Proof.
  intros Hp. rewrite pure_apply_delta by exact Hp.
  destruct (fits (long_f p + d)); [reflexivity|symmetry; apply pool_eta].
Qed.

Lemma pure_opt_delta q (b : bool) od : pure q = true -> fits (long_f q) = true ->
  match od with Some d => apply_delta_amount q b d | None => Ok q end =
  let t' := match od with Some d => long_f q + d | None => long_f q end in
  if fits t' then Ok (mkp (is_pure q) t' (short_f q)) else Err E_COMP.
Proof.
  intros Hq Hf. destruct od as [d|]; cbv zeta; [apply pure_apply_delta, Hq|].
  rewrite Hf, pool_eta. reflexivity.
Qed.

(* a well-formed pure pool is its flag and its total, and every operation (kept or failed) acts
   on the total as the ledger says *)
Lemma pure_step_keep_eq (sdk dbg : bool) p o : wf_pure p ->
  step_keep sdk dbg p o = mkp (is_pure p) (ledger_step (long_f p) o) (short_f p).
Proof.
  intros Wp. pose proof Wp as (Hp & Hs & Hr). apply fits_spec in Hr.
  unfold step_keep, step. destruct o as [d|d|b d|dl ds|].
  - exact (pure_delta_keep p true d Hp).
  - exact (pure_delta_keep p false d Hp).
  - exact (pure_delta_keep p b d Hp).
  - unfold checked_apply_delta. cbn [ledger_step].
    set (t1 := match dl with Some d => long_f p + d | None => long_f p end).
    set (t2 := match ds with Some d => t1 + d | None => t1 end).
    pose proof (pure_opt_delta p true dl Hp Hr) as E1. cbn [apply_delta_amount] in E1. rewrite E1. fold t1.
    destruct (fits t1) eqn:F1; cbn [rbind andb]; [|symmetry; apply pool_eta].
    pose proof (pure_opt_delta (mkp (is_pure p) t1 (short_f p)) false ds Hp F1) as E2.
    cbn [apply_delta_amount] in E2. rewrite E2. cbn [long_f is_pure short_f]. fold t2.
    destruct (fits t2); [reflexivity|symmetry; apply pool_eta].
  - replace (if sdk then cancel_sdk dbg p else cancel_prog p) with (cancel_prog p) by (destruct sdk; reflexivity).
    rewrite (pure_cancel_prog_eq p Wp). reflexivity.
Qed.

Lemma pure_history (sdk dbg : bool) ops : forall p, wf_pure p ->
  let p' := run sdk dbg p ops in
  wf_pure p' /\ is_pure p' = is_pure p /\ long_f p' = fold_left ledger_step ops (long_f p).
Proof.
  induction ops as [|o ops IH]; intros p Wp; cbn; [auto|].
  rewrite (pure_step_keep_eq sdk dbg p o Wp). apply IH, wf_pure_total; [exact Wp|].
  apply ledger_step_range, Wp.
Qed.

(* the SDK pool and the program pool net alike on every pool, hence identical states over any history *)
Lemma sdk_eq_prog (dbg : bool) ops : forall p, run true dbg p ops = run false dbg p ops.
Proof.
  induction ops as [|o ops IH]; intros p; [reflexivity|].
  unfold run in *. cbn [fold_left].
  assert (E : step_keep true dbg p o = step_keep false dbg p o).
  { unfold step_keep, step. destruct o; reflexivity. }
  rewrite E. apply IH.
Qed.
