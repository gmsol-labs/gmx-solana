(* C28 — property theorems only.  [bytes p]: every entry of the payload is in 0..255;
   [len p < 2^63]: Rust slices are at most isize::MAX long; [report_range]: U192 magnitudes, u32 / u64 stamps. *)
From GV Require Import lib.Base C26.Model C28.Model C28.Proofs.
Open Scope Z_scope.

(* the whole function as one equation (off_of / len_of = low 8 bytes, big endian, of the offset / length word) *)
Theorem c28_decode_full_report_spec : forall p, bytes p -> len p < 2 ^ 63 ->
  decode_full_report p =
    if len p <? 128 then Some (Err 1)
    else let off := off_of p in
         if (off <? 128) || (len p <? off + 32) then Some (Err 2)
         else let n := len_of p off in
              if len p <? off + 32 + n then Some (Err 2)
              else Some (Ok (firstn 96 p, off + 32, n, firstn (Z.to_nat n) (skipn (Z.to_nat (off + 32)) p))).
Proof. exact decode_full_report_spec. Qed.

(* every slice index is in range: decode_full_report never panics, on any byte string *)
Theorem c28_full_report_total : forall p, bytes p -> len p < 2 ^ 63 -> decode_full_report p <> None.
Proof. exact full_report_total. Qed.

Theorem c28_blob_is_slice : forall p ctx st n blob, bytes p -> len p < 2 ^ 63 ->
  decode_full_report p = Some (Ok (ctx, st, n, blob)) ->
  let off := off_of p in
  128 <= len p /\ ctx = firstn 96 p /\ 128 <= off /\ st = off + 32 /\ n = len_of p off /\ 0 <= n /\
  st + n <= len p /\ blob = firstn (Z.to_nat n) (skipn (Z.to_nat st) p) /\ len blob = n.
Proof. exact blob_is_slice. Qed.

(* for ABI-conformant words (high 24 bytes zero) the blob is exactly the ABI-described slice;
   complement statement of known class 1 *)
Theorem c28_blob_is_abi_slice_partial : forall p ctx st n blob, bytes p -> len p < 2 ^ 63 ->
  decode_full_report p = Some (Ok (ctx, st, n, blob)) ->
  high_zero p 96 -> high_zero p (st - 32) ->
  st = word p 96 + 32 /\ n = word p (word p 96) /\ blob = firstn (Z.to_nat n) (skipn (Z.to_nat st) p).
Proof. exact blob_is_abi_slice. Qed.

Theorem c28_high_bytes_ignored_refuted :
  let p := repeat 7 96 ++ (1 :: repeat 0 30 ++ [128]) ++ (repeat 0 31 ++ [4]) ++ [1; 2; 3; 4] in
  decode_full_report p = Some (Ok (repeat 7 96, 160, 4, [1; 2; 3; 4])) /\ word p 96 = 2 ^ 248 + 128.
Proof. exact high_bytes_ignored_witness. Qed.

Theorem c28_full_report_errors : forall p e, bytes p -> len p < 2 ^ 63 ->
  decode_full_report p = Some (Err e) <->
  (e = 1 /\ len p < 128) \/
  (e = 2 /\ 128 <= len p /\
     (off_of p < 128 \/ len p < off_of p + 32 \/ len p < off_of p + 32 + len_of p (off_of p))).
Proof. exact full_report_errors. Qed.

Theorem c28_conversion_total : forall r, report_range r -> from_report r <> None.
Proof. exact conversion_total. Qed.

Theorem c28_rejects_negative_or_misordered : forall r, report_range r ->
  (fst (r_price r) = false \/ fst (r_bid r) = false \/ fst (r_ask r) = false \/
   snd (r_ask r) < snd (r_price r) \/ snd (r_price r) < snd (r_bid r)) ->
  exists e, from_report r = Some (Err e) /\ 1 <= e <= 5.
Proof. exact rejects_negative_or_misordered. Qed.

(* success: order preserved, one power of ten (decimals = 18 - k), quotients fit u128, stamps and flags *)
Theorem c28_conversion_ok : forall r o, report_range r -> from_report r = Some (Ok o) ->
  let price := snd (r_price r) in let bid := snd (r_bid r) in let ask := snd (r_ask r) in
  let k := find_divisor_decimals ask in
  fst (r_price r) = true /\ fst (r_bid r) = true /\ fst (r_ask r) = true /\
  bid <= price <= ask /\
  p_dec o = 18 - k /\ 0 <= k <= 18 /\
  p_price o = price / 10 ^ k /\ p_min o = bid / 10 ^ k /\ p_max o = ask / 10 ^ k /\
  0 <= p_min o <= p_price o /\ p_price o <= p_max o /\ p_max o < 2 ^ 128 /\
  p_ts o = r_obs r /\ p_status o = canonical_status (r_ext r) /\
  Z.odd (p_flags o) = true /\
  (r_last r = None -> p_flags o = 1 /\ p_lud o = 0) /\
  (forall l, r_last r = Some l -> p_flags o = 7 /\ l < r_obs r * NANOS + NANOS /\
      0 <= p_lud o < 2 ^ 32 /\
      (l <= r_obs r * NANOS -> (p_lud o - 1) * NANOS < r_obs r * NANOS - l <= p_lud o * NANOS) /\
      (r_obs r * NANOS < l -> p_lud o = 0)).
Proof. exact conversion_ok. Qed.

Theorem c28_from_report_spec : forall r, report_range r ->
  from_report r =
    if negb (fst (r_price r)) then Some (Err 1)
    else if negb (fst (r_bid r)) then Some (Err 2)
    else if negb (fst (r_ask r)) then Some (Err 3)
    else let price := snd (r_price r) in let bid := snd (r_bid r) in let ask := snd (r_ask r) in
      if ask <? price then Some (Err 4)
      else if price <? bid then Some (Err 5)
      else let k := find_divisor_decimals ask in
        if 18 <? k then Some (Err 6)
        else match lud_spec r with
             | Err x => Some (Err x)
             | Ok lud =>
                 Some (Ok (mkPfp (18 - k) (1 + match lud with Some _ => 6 | None => 0 end) (canonical_status (r_ext r))
                                 (match lud with Some s => s | None => 0 end) (r_obs r)
                                 (price / 10 ^ k) (bid / 10 ^ k) (ask / 10 ^ k)))
             end.
Proof. exact from_report_spec. Qed.

Theorem c28_report_of_single : forall f r, (f_version f = 2 \/ f_version f = 7 \/ f_version f = 8) -> report_of f = Ok r ->
  r_bid r = r_price r /\ r_ask r = r_price r /\ snd (r_price r) = Z.abs (f_price f) /\ fst (r_price r) = negb (f_price f <? 0).
Proof. exact report_of_single. Qed.

(* non-vacuity: the XAU v11 values of the repository's own test *)
Example c28_ex1 :
  fields_to_pfp (mkFields 11 1775903228 4749304997500000000000 4749300000000000000000 4749310000000000000000 1775903227584000000 5)
  = Some (Ok (mkPfp 18 7 6 1 1775903228 4749304997500000000000 4749300000000000000000 4749310000000000000000)).
Proof. vm_compute. reflexivity. Qed.
Example c28_ex2 : fields_to_pfp (mkFields 3 100 5 (-1) 6 0 0) = Some (Err 2)
               /\ fields_to_pfp (mkFields 3 100 7 5 6 0 0) = Some (Err 4)
               /\ fields_to_pfp (mkFields 3 100 (2 ^ 130) 5 (2 ^ 131) 0 0) = Some (Ok (mkPfp 17 1 0 0 100 136112946768375385385349842972707284582 0 272225893536750770770699685945414569164)).
Proof. vm_compute. repeat split; reflexivity. Qed.
