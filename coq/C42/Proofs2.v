(* C42 — Bellman-Ford as implemented: distance-level facts (monotonicity, optimality within r
   rounds, feasibility when no edge can be relaxed, realisation by walks). *)
From GV Require Import lib.Base lib.Checked C42.Model C42.Proofs1.
Open Scope Z_scope.

Lemma relaxable_some d e nd : relaxable d e = Some nd ->
  exists w di, e_cost e = Some w /\ getd d (e_src e) = Some di /\ nd = di + w /\
               (forall cur, getd d (e_dst e) = Some cur -> nd < cur).
Proof.
  unfold relaxable. destruct (e_cost e) as [w|]; [|discriminate].
  destruct (getd d (e_src e)) as [di|]; [|discriminate].
  destruct (getd d (e_dst e)) as [cur|] eqn:Ec.
  - destruct (di + w <? cur) eqn:El; [|discriminate]. apply Z.ltb_lt in El.
    intros H; inversion H; subst. exists w, di. repeat split; auto. intros c Hc. inversion Hc; subst. exact El.
  - intros H; inversion H; subst. exists w, di. repeat split; auto. discriminate.
Qed.

Lemma relaxable_none d e w di : relaxable d e = None -> e_cost e = Some w -> getd d (e_src e) = Some di ->
  exists cur, getd d (e_dst e) = Some cur /\ cur <= di + w.
Proof.
  unfold relaxable. intros H Hw Hd. rewrite Hw, Hd in H.
  destruct (getd d (e_dst e)) as [cur|]; [|discriminate].
  destruct (di + w <? cur) eqn:El; [discriminate|]. apply Z.ltb_ge in El. exists cur. auto.
Qed.

(* the effect of [relax] on the distance vector *)
Definition relax_d (d : list (option Z)) (e : edge) : list (option Z) :=
  match relaxable d e with Some nd => setd d (e_dst e) (Some nd) | None => d end.

Lemma relax_dist k steps st u e : dist (fst (relax k steps (st, u) e)) = relax_d (dist st) e.
Proof. unfold relax, relax_d. destruct (relaxable (dist st) e); reflexivity. Qed.

Lemma fold_relax_dist k steps l : forall st u,
  dist (fst (fold_left (relax k steps) l (st, u))) = fold_left relax_d l (dist st).
Proof.
  induction l as [|e l IH]; intros st u; [reflexivity|]. cbn [fold_left].
  destruct (relax k steps (st, u) e) as [st' u'] eqn:E.
  rewrite IH. f_equal. pose proof (relax_dist k steps st u e) as H. rewrite E in H. exact H.
Qed.

(* d' is pointwise at least as good as d *)
Definition dle (d d' : list (option Z)) : Prop :=
  forall j a, getd d j = Some a -> exists b, getd d' j = Some b /\ b <= a.

Lemma dle_refl d : dle d d.
Proof. intros j a H. exists a. split; [exact H | lia]. Qed.
Lemma dle_trans d1 d2 d3 : dle d1 d2 -> dle d2 d3 -> dle d1 d3.
Proof.
  intros H1 H2 j a H. destruct (H1 _ _ H) as [b [Hb Hab]]. destruct (H2 _ _ Hb) as [c [Hc Hbc]].
  exists c. split; [exact Hc | lia].
Qed.

Lemma dle_setd d j v : 0 <= j < Z.of_nat (length d) -> (forall b, getd d j = Some b -> v <= b) ->
  dle d (setd d j (Some v)).
Proof.
  intros Hj Hv i a Hi. rewrite getd_setd by exact Hj. destruct (Z.eqb_spec i j) as [->|_].
  - exists v. split; [reflexivity | apply Hv; exact Hi].
  - exists a. split; [exact Hi | lia].
Qed.

Section BF.
  Variable g : graph.
  Variable s : Z.
  Let n := Z.of_nat (length (g_toks g)).
  Hypothesis Hs : 0 <= s < n.
  Hypothesis Hwf : forall e, In e (g_edges g) -> 0 <= e_src e < n /\ 0 <= e_dst e < n.

  Definition lend (d : list (option Z)) : Prop := Z.of_nat (length d) = n.

  Lemma in_edge_order e : In e (edge_order g) <-> In e (g_edges g).
  Proof.
    clear Hs.   (* else lia puts it into the proof term and every user has to supply it *)
    unfold edge_order, out_edges, nodes. rewrite in_flat_map. split.
    - intros [i [_ H]]. apply in_rev in H. apply filter_In in H. tauto.
    - intros H. exists (e_src e). split.
      + apply in_map_iff. exists (Z.to_nat (e_src e)). destruct (Hwf e H) as [H1 _]. split; [lia|].
        apply in_seq. unfold n in H1. lia.
      + apply -> in_rev. apply filter_In. split; [exact H | apply Z.eqb_refl].
  Qed.

  Lemma edge_order_incl : incl (edge_order g) (g_edges g).
  Proof. intros e. apply in_edge_order. Qed.

  Lemma relax_d_len d e : lend d -> lend (relax_d d e).
  Proof. unfold relax_d, lend. destruct (relaxable d e); [rewrite setd_length|]; auto. Qed.

  Lemma relax_d_mono d e : lend d -> In e (g_edges g) -> dle d (relax_d d e).
  Proof.
    intros Hl Hin. unfold relax_d. destruct (relaxable d e) as [nd|] eqn:E; [|apply dle_refl].
    destruct (relaxable_some _ _ _ E) as [w [di [_ [_ [_ Hlt]]]]].
    apply dle_setd; [rewrite Hl; apply Hwf; exact Hin | intros b Hb; specialize (Hlt _ Hb); lia].
  Qed.

  Lemma relax_d_after d e w a : lend d -> In e (g_edges g) -> e_cost e = Some w ->
    getd d (e_src e) = Some a ->
    exists b, getd (relax_d d e) (e_dst e) = Some b /\ b <= a + w.
  Proof.
    intros Hl Hin Hw Ha. unfold relax_d.
    destruct (relaxable d e) as [nd|] eqn:E; [|eapply relaxable_none; eassumption].
    destruct (relaxable_some _ _ _ E) as [w' [di [Hw' [Hd [-> _]]]]].
    rewrite getd_setd, Z.eqb_refl by (rewrite Hl; apply Hwf; exact Hin).
    exists (di + w'). split; [reflexivity|]. assert (w' = w) by congruence. assert (di = a) by congruence. lia.
  Qed.

  (* every distance is the cost of a walk from the source *)
  Definition real (d : list (option Z)) : Prop :=
    forall j a, getd d j = Some a -> exists es, gwalk g s j es /\ ecost es = a.

  Lemma relax_d_real d e : lend d -> In e (g_edges g) -> real d -> real (relax_d d e).
  Proof.
    intros Hl Hin Hr j a Hj. unfold relax_d in Hj. destruct (relaxable d e) as [nd|] eqn:E; [|auto].
    destruct (relaxable_some _ _ _ E) as [w [di [Hw [Hd [-> _]]]]].
    rewrite getd_setd in Hj by (rewrite Hl; apply Hwf; exact Hin).
    destruct (Z.eqb_spec j (e_dst e)) as [->|_]; [|auto].
    inversion Hj; subst a. destruct (Hr _ _ Hd) as [es [Hwk <-]].
    exists (es ++ [e]). split; [eapply gwalk_snoc; eassumption | apply ecost_snoc; exact Hw].
  Qed.

  Lemma fold_relax_d l d : incl l (g_edges g) -> lend d ->
    lend (fold_left relax_d l d) /\ dle d (fold_left relax_d l d) /\ (real d -> real (fold_left relax_d l d)).
  Proof.
    intros Hin Hl.
    apply (fold_left_inv relax_d (fun d' => lend d' /\ dle d d' /\ (real d -> real d'))).
    - intros d' e He [Hl' [Hd' Hr']]. split; [apply relax_d_len; exact Hl'|]. split.
      + eapply dle_trans; [exact Hd' | apply relax_d_mono; auto].
      + intros Hr. apply relax_d_real; auto.
    - split; [exact Hl|]. split; [apply dle_refl | auto].
  Qed.

  (* no walk of at most r edges from the source is cheaper than the entry of its end *)
  Definition opt (r : Z) (d : list (option Z)) : Prop :=
    forall j es, gwalk g s j es -> Z.of_nat (length es) <= r ->
      exists b, getd d j = Some b /\ b <= ecost es.

  Lemma opt_le r r' d : opt r d -> r' <= r -> opt r' d.
  Proof. intros Ho Hr j es Hw Hl. apply Ho; [exact Hw | lia]. Qed.

  Lemma opt_mono r d d' : opt r d -> dle d d' -> opt r d'.
  Proof.
    intros Ho Hd j es Hw Hl. destruct (Ho _ _ Hw Hl) as [b [Hb Hle]].
    destruct (Hd _ _ Hb) as [c [Hc Hcb]]. exists c. split; [exact Hc | lia].
  Qed.

  (* The in-place sweep does at least what a synchronous round does: when the last edge e of a walk
     comes up, the tail's entry is no worse than before the sweep; right after e the head is within
     tail + cost, and the rest of the sweep only improves it. *)
  Lemma round_opt r d : 0 <= r -> lend d -> opt r d -> opt (r + 1) (fold_left relax_d (edge_order g) d).
  Proof.
    intros Hr0 Hl Ho j es Hw Hlen. pose proof edge_order_incl as Hall.
    inversion Hw as [u | u i es' e Hw' Hin Hsrc Hcost]; subst.
    - eapply opt_mono; [exact Ho | apply fold_relax_d; assumption | exact Hw | cbn in *; lia].
    - rewrite app_length in Hlen. cbn in Hlen.
      destruct (Ho _ _ Hw' ltac:(lia)) as [a [Ha Hale]].
      destruct (e_cost e) as [w|] eqn:Ew; [|congruence].
      destruct (in_split _ _ (proj2 (in_edge_order e) Hin)) as [l1 [l2 El]]. rewrite El in *.
      apply incl_app_inv in Hall. destruct Hall as [Hi1 Hi2]. apply incl_cons_inv in Hi2. destruct Hi2 as [_ Hi2].
      rewrite fold_left_app. cbn [fold_left].
      destruct (fold_relax_d l1 d Hi1 Hl) as [Hl1 [Hm1 _]].
      destruct (Hm1 _ _ Ha) as [a1 [Ha1 Ha1le]].
      destruct (relax_d_after _ e w a1 Hl1 Hin Ew Ha1) as [b [Hb Hble]].
      destruct (fold_relax_d l2 _ Hi2 (relax_d_len _ e Hl1)) as [_ [Hm2 _]].
      destruct (Hm2 _ _ Hb) as [c [Hc Hcb]].
      exists c. split; [exact Hc|]. rewrite (ecost_snoc _ _ _ Ew). lia.
  Qed.

  (* no edge can be relaxed *)
  Definition feasible (d : list (option Z)) : Prop :=
    forall e w a, In e (g_edges g) -> e_cost e = Some w -> getd d (e_src e) = Some a ->
      exists b, getd d (e_dst e) = Some b /\ b <= a + w.

  Lemma no_negative_cycle_feasible d : has_negative_cycle g d = false -> feasible d.
  Proof.
    intros H e w a Hin Hw Ha. apply relaxable_none; [|exact Hw | exact Ha].
    destruct (relaxable d e) eqn:E; [exfalso | reflexivity].
    unfold has_negative_cycle in H. rewrite <- not_true_iff_false, existsb_exists in H.
    apply H. exists e. rewrite in_edge_order, E. auto.
  Qed.

  Lemma feasible_walk d : feasible d -> forall u j es, gwalk g u j es ->
    forall a, getd d u = Some a -> exists b, getd d j = Some b /\ b <= a + ecost es.
  Proof.
    intros Hf u j es Hw. induction Hw as [u | u i es e Hw IH Hin Hsrc Hcost]; intros a Ha.
    - exists a. split; [exact Ha | cbn; lia].
    - destruct (IH _ Ha) as [b [Hb Hle]]. destruct (e_cost e) as [w|] eqn:Ew; [|congruence].
      subst i. destruct (Hf e w b Hin Ew Hb) as [c [Hc Hcle]].
      exists c. split; [exact Hc|]. rewrite (ecost_snoc _ _ _ Ew). lia.
  Qed.

  Definition d0 : list (option Z) := setd (repeat None (length (g_toks g))) s (Some 0).

  Lemma d0_len : lend d0.
  Proof using Hs Hwf. unfold d0, lend. rewrite setd_length, repeat_length. reflexivity. Qed.

  Lemma d0_get j : getd d0 j = if j =? s then Some 0 else None.
  Proof.
    unfold d0. rewrite getd_setd by (rewrite repeat_length; exact Hs).
    rewrite getd_repeat_none. reflexivity.
  Qed.

  Lemma d0_real : real d0.
  Proof.
    intros j a H. rewrite d0_get in H. destruct (Z.eqb_spec j s) as [->|_]; [|discriminate].
    inversion H; subst a. exists []. split; [constructor | reflexivity].
  Qed.

  Lemma d0_opt0 : opt 0 d0.
  Proof.
    intros j es Hw Hl. destruct es; [|cbn in Hl; lia]. apply gwalk_nil in Hw. subst j.
    exists 0. rewrite d0_get, Z.eqb_refl. split; [reflexivity | cbn; lia].
  Qed.

  (* Between d0 and a feasible, realised vector every vector has distance exactly 0 at the source:
     the final entry is the cost of a closed walk, and feasibility along that walk bounds it from
     below by itself plus that cost. *)
  Lemma source_zero c d : dle d0 c -> dle c d -> real d -> feasible d -> getd c s = Some 0.
  Proof.
    intros Hc Hcd Hr Hf. destruct (Hc s 0) as [a [Ha Hle]]; [rewrite d0_get, Z.eqb_refl; reflexivity|].
    destruct (Hcd _ _ Ha) as [b [Hb Hba]]. destruct (Hr _ _ Hb) as [es [Hw Hcost]].
    destruct (feasible_walk d Hf _ _ _ Hw _ Hb) as [b' [Hb' Hble]].
    assert (b' = b) by congruence. assert (E0 : a = 0) by lia. rewrite E0 in Ha. exact Ha.
  Qed.

  Lemma feasible_opt d r : dle d0 d -> real d -> feasible d -> opt r d.
  Proof.
    intros Hd Hr Hf j es Hw _. pose proof (source_zero d d Hd (dle_refl d) Hr Hf) as H0.
    destruct (feasible_walk d Hf _ _ _ Hw _ H0) as [b [Hb Hle]]. exists b. split; [exact Hb | lia].
  Qed.
End BF.
