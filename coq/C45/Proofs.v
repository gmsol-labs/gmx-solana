(* C45 — GLV composition (member markets share the GLV's tokens over all histories), balance limits after a
   deposit, and pricing: deposit then withdrawal of the minted GLV tokens returns no more than was put in. *)
From GV Require Import lib.Base lib.DivLemmas C01.Model C01.Proofs C45.Model.
Open Scope Z_scope.

Lemma W_pos : 1 <= W.
Proof. unfold W. lia. Qed.

Definition grun (g : glv) (ops : list gop) : glv :=
  fold_left (fun g o => match gstep g o with Ok g' => g' | Err _ => g end) ops g.

(* all accounts ever shown for one market token agree on its tokens (Market.meta is immutable and the
   market address is derived from the market token) *)
Definition consistent (accts : list macct) : Prop :=
  forall a b, In a accts -> In b accts -> ma_mt a = ma_mt b -> ma_long a = ma_long b /\ ma_short a = ma_short b.

Definition inserted (ops : list gop) : list macct :=
  flat_map (fun o => match o with GInsert m => [m] | _ => [] end) ops.

Definition ginv (accts : list macct) (g : glv) : Prop :=
  (forall c, In c (g_markets g) ->
     exists a, In a accts /\ ma_mt a = c_mt c /\ ma_long a = g_long g /\ ma_short a = g_short g) /\
  NoDup (map c_mt (g_markets g)).

Definition pm_ok (m : pm) : Prop :=
  0 < pm_supply m /\ 0 <= pm_balance m /\ 0 <= pm_pv_min m <= pm_pv_max m.

Lemma lookup_In l mt c : lookup l mt = Some c -> In c l /\ c_mt c = mt.
Proof.
  induction l; cbn; [discriminate|]. destruct (c_mt a =? mt) eqn:E.
  - intros [= <-]. apply Z.eqb_eq in E. auto.
  - intros [? ?]%IHl. auto.
Qed.

Lemma lookup_None l mt : lookup l mt = None -> ~ In mt (map c_mt l).
Proof.
  induction l; cbn; auto. destruct (c_mt a =? mt) eqn:E; [discriminate|].
  apply Z.eqb_neq in E. intros H [H1|H1]; auto. apply IHl; auto.
Qed.

Lemma replace_mts l c' : map c_mt (replace l c') = map c_mt l.
Proof.
  induction l; cbn; auto. destruct (c_mt a =? c_mt c') eqn:E; cbn; [|congruence].
  apply Z.eqb_eq in E. congruence.
Qed.

Lemma replace_In l c' x : In x (replace l c') -> x = c' \/ In x l.
Proof.
  induction l; cbn; auto. destruct (c_mt a =? c_mt c'); cbn; intros [H|H]; auto.
  destruct (IHl H); auto.
Qed.

Lemma remove_In l mt x : In x (remove l mt) -> In x l.
Proof.
  induction l; cbn; auto. destruct (c_mt a =? mt); cbn; auto. intros [H|H]; auto.
Qed.

Lemma remove_NoDup l mt : NoDup (map c_mt l) -> NoDup (map c_mt (remove l mt)).
Proof.
  induction l; cbn; auto. intros [H2 H3]%NoDup_cons_iff. destruct (c_mt a =? mt); auto. cbn.
  constructor; auto. intro Hin. apply H2. apply in_map_iff in Hin as (x & Hx & Hi).
  apply in_map_iff. exists x. split; auto. eapply remove_In; eauto.
Qed.

Lemma ginv_mono accts accts' g : incl accts accts' -> ginv accts g -> ginv accts' g.
Proof.
  intros Hi [H1 H2]. split; auto. intros c Hc. destruct (H1 c Hc) as (a & Ha & E). exists a. auto.
Qed.

Lemma process_markets_spec : forall ms toks seen toks' seen',
  process_markets toks seen ms = Ok (toks', seen') ->
  (forall l s, toks = Some (l, s) -> toks' = Some (l, s)) /\
  (forall m, In m ms -> toks' = Some (ma_long m, ma_short m)) /\
  (forall x, In x seen' <-> In x seen \/ In x (map ma_mt ms)) /\
  (NoDup seen -> NoDup seen').
Proof.
  induction ms as [|m r IH]; intros toks seen toks' seen' H; cbn [process_markets] in H.
  - injection H as <- <-. split; [auto|]. split; [intros m []|]. split; [intro x; cbn; tauto|auto].
  - destruct (ma_store_ok m); cbn [negb] in H; [|discriminate].
    destruct (ma_enabled m); cbn [negb] in H; [|discriminate].
    apply rbind_ok in H as ([tl ts] & Et & H).
    destruct (existsb (Z.eqb (ma_mt m)) seen) eqn:Es; [discriminate|].
    apply IH in H as (A & C & D & E). specialize (A _ _ eq_refl).
    (* the tokens carried on are those of [m], and those fixed before, if any *)
    assert (Ht : (tl, ts) = (ma_long m, ma_short m) /\ (forall l s, toks = Some (l, s) -> (tl, ts) = (l, s))).
    { destruct toks as [[l s]|]; [|injection Et as <- <-; split; [reflexivity|discriminate]].
      destruct (Z.eqb_spec l (ma_long m)) as [<-|]; [|discriminate].
      destruct (Z.eqb_spec s (ma_short m)) as [<-|]; [|discriminate].
      injection Et as <- <-. split; [reflexivity|]. now intros l' s' [= <- <-]. }
    destruct Ht as [Ht1 Ht2]. split; [|split; [|split]].
    + intros l s Hl. now rewrite <- (Ht2 _ _ Hl).
    + intros x [<-|Hx]; auto. now rewrite <- Ht1.
    + intro x. rewrite D. cbn. clear. tauto.
    + intro Hn. apply E. constructor; auto. intro Hin.
      assert (existsb (Z.eqb (ma_mt m)) seen = true); [|congruence].
      apply existsb_exists. exists (ma_mt m). split; [exact Hin|apply Z.eqb_refl].
Qed.

Lemma glv_init_inv ms g : glv_init ms = Ok g -> ginv ms g.
Proof.
  intro H. apply rbind_ok in H as ([toks seen] & (_ & C & D & N)%process_markets_spec & H).
  destruct toks as [[l s]|]; [|discriminate].
  destruct (MAX_MARKETS <? Z.of_nat (length seen)); [discriminate|]. injection H as <-.
  split; cbn [g_markets g_long g_short].
  - intros c (mt & <- & Hmt%in_rev)%in_map_iff.
    apply D in Hmt as [[]|(a & Ha & Hin)%in_map_iff]. exists a. cbn. specialize (C a Hin). now injection C as <- <-.
  - rewrite map_map. cbn. rewrite map_id. apply NoDup_rev, N. constructor.
Qed.

(* update_market_config / update_market_token_balance: an entry is replaced by one for the same market token *)
Lemma ginv_replace accts g mt c c' :
  ginv accts g -> lookup (g_markets g) mt = Some c -> c_mt c' = mt ->
  ginv accts (mkG (g_long g) (g_short g) (replace (g_markets g) c')).
Proof.
  intros [H1 H2] [Hin Hmt]%lookup_In Hc. split; cbn [g_markets g_long g_short].
  - intros x [->|Hx]%replace_In; auto. destruct (H1 c Hin) as (a & Ha & E1 & E2). exists a. split; auto. split; auto. congruence.
  - now rewrite replace_mts.
Qed.

Lemma gstep_inv accts g o g' :
  ginv accts g -> gstep g o = Ok g' ->
  ginv (match o with GInsert m => m :: accts | _ => accts end) g' /\
  g_long g' = g_long g /\ g_short g' = g_short g.
Proof.
  intros [H1 H2] H. destruct o; cbn [gstep] in H.
  - unfold glv_insert in H.
    destruct (ma_store_ok m); cbn [negb] in H; [|discriminate].
    destruct (ma_enabled m); cbn [negb] in H; [|discriminate].
    destruct (ma_long m =? g_long g) eqn:El; cbn [negb] in H; [|discriminate].
    destruct (ma_short m =? g_short g) eqn:Es; cbn [negb] in H; [|discriminate].
    destruct (lookup (g_markets g) (ma_mt m)) eqn:Ek; [discriminate|].
    destruct (MAX_MARKETS <=? Z.of_nat (length (g_markets g))); [discriminate|]. injection H as <-.
    apply Z.eqb_eq in El, Es. unfold ginv. cbn [g_markets g_long g_short]. split; auto. split.
    + intros c Hc. apply in_app_or in Hc as [Hc|[<-|[]]].
      * destruct (H1 c Hc) as (a & Ha & E). exists a. split; [right; auto|auto].
      * exists m. cbn. split; [left; auto|auto].
    + rewrite map_app. cbn. apply NoDup_snoc. split; [assumption|]. eapply lookup_None; eauto.
  - unfold glv_remove in H. destruct (lookup (g_markets g) mt) eqn:Ek; [|discriminate].
    destruct (c_deposit_allowed g0); [discriminate|]. injection H as <-. unfold ginv. cbn [g_markets g_long g_short]. split; auto. split.
    + intros c Hc. apply H1. eapply remove_In; eauto.
    + apply remove_NoDup. auto.
  - unfold glv_update_config in H. destruct (lookup (g_markets g) mt) eqn:Ek; [|discriminate]. injection H as <-.
    split; [|auto]. eapply ginv_replace; [split; eauto|exact Ek|reflexivity].
  - unfold glv_update_balance in H. destruct (lookup (g_markets g) mt) eqn:Ek; [|discriminate]. injection H as <-.
    split; [|auto]. eapply ginv_replace; [split; eauto|exact Ek|reflexivity].
Qed.

Lemma grun_cons g o r : grun g (o :: r) = grun (match gstep g o with Ok g' => g' | Err _ => g end) r.
Proof. reflexivity. Qed.

Lemma inserted_cons o r : inserted (o :: r) = (match o with GInsert m => [m] | _ => [] end) ++ inserted r.
Proof. reflexivity. Qed.

Lemma grun_inv ops : forall accts g,
  ginv accts g -> ginv (rev (inserted ops) ++ accts) (grun g ops) /\
                  g_long (grun g ops) = g_long g /\ g_short (grun g ops) = g_short g.
Proof.
  induction ops as [|o r IH]; intros accts g I.
  - cbn. auto.
  - rewrite grun_cons, inserted_cons. destruct (gstep g o) as [g'|] eqn:E.
    + apply (gstep_inv accts) in E as (I' & L & S); auto.
      destruct (IH _ _ I') as (I2 & L2 & S2). split; [|split; congruence].
      destruct o; cbn [app rev]; try exact I2.
      rewrite <- app_assoc. cbn [app]. exact I2.
    + destruct (IH accts g I) as (I2 & L2 & S2). split; auto.
      eapply ginv_mono; [|exact I2]. intros x Hx.
      apply in_app_or in Hx as [Hx|Hx]; apply in_or_app; auto. left.
      rewrite rev_app_distr. apply in_or_app. auto.
Qed.

Lemma mt_to_usd_val amount pool supply r :
  0 <= amount -> 0 <= pool -> 0 <= supply ->
  mt_to_usd W amount pool supply = Some r -> supply <> 0 /\ r = pool * amount / supply.
Proof.
  intros Ha Hp Hs H. apply (mul_div_exact W W_pos) in H as (H1 & H2 & _); auto.
Qed.

Lemma validate_balance_ok c nb pv supply :
  0 <= c_max_amount c -> 0 <= c_max_value c -> 0 <= nb -> 0 <= supply ->
  validate_balance c nb pv supply = Ok tt ->
  (c_max_amount c = 0 \/ nb <= c_max_amount c) /\
  (c_max_value c = 0 \/ (0 <= pv /\ supply <> 0 /\ pv * nb / supply <= c_max_value c)).
Proof.
  intros Ha Hv Hn Hs H. unfold validate_balance in H.
  destruct ((c_max_amount c =? 0) && (c_max_value c =? 0)) eqn:E0.
  { apply Bool.andb_true_iff in E0 as [E1 E2]. apply Z.eqb_eq in E1, E2. auto. }
  destruct ((0 <? c_max_amount c) && (c_max_amount c <? nb)) eqn:E1; [discriminate|].
  split.
  - destruct (Z.eq_dec (c_max_amount c) 0); auto. right.
    apply Bool.andb_false_iff in E1 as [E1|E1]; [apply Z.ltb_ge in E1; lia|apply Z.ltb_ge in E1; lia].
  - destruct (0 <? c_max_value c) eqn:E2; [|apply Z.ltb_ge in E2; left; lia].
    destruct (pv <? 0) eqn:E3; [discriminate|]. apply Z.ltb_ge in E3.
    destruct (mt_to_usd W nb (Z.abs pv) supply) eqn:E4; [|discriminate].
    destruct (c_max_value c <? z) eqn:E5; [discriminate|]. apply Z.ltb_ge in E5.
    rewrite Z.abs_eq in E4 by lia. apply mt_to_usd_val in E4 as [X ->]; auto.
Qed.

Definition share_val (p s b : Z) : Z := p * b / s.

Lemma glv_value_for_market_val p s b v :
  0 <= p -> 0 < s -> 0 <= b -> glv_value_for_market p s b = Ok v -> v = share_val p s b.
Proof.
  intros Hp Hs Hb H. unfold glv_value_for_market in H.
  destruct (Z.eqb_spec b 0) as [->|_].
  - injection H as <-. unfold share_val. now rewrite Z.mul_0_r.
  - destruct (Z.ltb_spec p 0); [lia|]. apply of_opt_ok in H.
    rewrite Z.abs_eq in H by lia. apply mt_to_usd_val in H as [_ ->]; auto; lia.
Qed.

Fixpoint sum_val (mx : bool) (ms : list pm) : Z :=
  match ms with
  | [] => 0
  | m :: r => share_val (if mx then pm_pv_max m else pm_pv_min m) (pm_supply m) (pm_balance m) + sum_val mx r
  end.

Lemma glv_value_acc_val mx : forall ms acc r,
  Forall pm_ok ms -> glv_value_acc mx acc ms = Ok r -> r = acc + sum_val mx ms.
Proof.
  induction ms as [|m rest IH]; intros acc r Hok H; cbn [glv_value_acc sum_val] in H |- *.
  - injection H as <-. lia.
  - apply Forall_cons_iff in Hok as [(Hs & Hb & Hp) Hok]. apply rbind_ok in H as (z & E & H).
    destruct (2 ^ W <=? acc + z); [discriminate|].
    apply glv_value_for_market_val in E; auto; [|destruct mx; lia].
    apply IH in H; auto. lia.
Qed.

Lemma find_pm_ok ms mt m : Forall pm_ok ms -> find_pm ms mt = Some m -> pm_ok m.
Proof.
  induction 1 as [|x l Hx _ IH]; cbn; [discriminate|]. destruct (pm_mt x =? mt); [now intros [= <-]|exact IH].
Qed.

Lemma val_mono p1 p2 s b : 0 < s -> 0 <= b -> p1 <= p2 -> share_val p1 s b <= share_val p2 s b.
Proof. intros. unfold share_val. apply div_mono_num; auto. apply Z.mul_le_mono_nonneg_r; auto. Qed.

Lemma sum_val_min_le_max ms : Forall pm_ok ms -> sum_val false ms <= sum_val true ms.
Proof.
  induction 1; cbn; [lia|]. destruct H as (Hs & Hb & Hp).
  pose proof (val_mono (pm_pv_min x) (pm_pv_max x) (pm_supply x) (pm_balance x) Hs Hb ltac:(lia)). lia.
Qed.

Lemma sum_val_nonneg mx ms : Forall pm_ok ms -> 0 <= sum_val mx ms.
Proof.
  induction 1; cbn; [lia|]. destruct H as (Hs & Hb & Hp).
  pose proof (mul_div_nonneg (if mx then pm_pv_max x else pm_pv_min x) (pm_balance x) (pm_supply x)) as V.
  unfold share_val. destruct mx; lia.
Qed.

Lemma sum_val_add_balance ms : forall mt d m,
  Forall pm_ok ms -> 0 <= d -> find_pm ms mt = Some m ->
  sum_val false (add_balance ms mt d) <= sum_val false ms + share_val (pm_pv_min m) (pm_supply m) d + 1 /\
  Forall pm_ok (add_balance ms mt d) /\
  find_pm (add_balance ms mt d) mt = Some (mkPM mt (pm_balance m + d) (pm_supply m) (pm_pv_min m) (pm_pv_max m)).
Proof.
  induction ms as [|x rest IH]; intros mt d m Hok Hd Hf; cbn in Hf; [discriminate|].
  apply Forall_cons_iff in Hok as [H1 H2]. cbn [add_balance]. destruct (pm_mt x =? mt) eqn:E.
  - injection Hf as ->. destruct H1 as (Hs & Hb & Hp). cbn [sum_val find_pm pm_mt pm_balance pm_supply pm_pv_min pm_pv_max].
    rewrite Z.eqb_refl. split; [|split; auto].
    + unfold share_val.
      replace (pm_pv_min m * (pm_balance m + d)) with (pm_pv_min m * pm_balance m + pm_pv_min m * d) by lia.
      pose proof (div_add_sub (pm_pv_min m * pm_balance m) (pm_pv_min m * d) (pm_supply m) Hs) as Y.
      lia.
    + constructor; auto. unfold pm_ok. cbn. repeat split; try lia.
  - cbn [sum_val find_pm]. rewrite E. destruct (IH mt d m H2 Hd Hf) as (A & B & C).
    split; [lia|]. split; auto.
Qed.

(* G' * g <= (Gmax + V + 1) * g <= S * V + (V + 1) * g < (S + g) * (V + 1) *)
Lemma round_trip_core S g Gmin Gmax G' V :
  0 < S -> 0 <= g -> 0 <= Gmin <= Gmax -> 0 <= V ->
  Gmax * g <= S * V -> G' <= Gmin + V + 1 -> 0 <= G' ->
  G' * g / (S + g) <= V.
Proof.
  intros HS Hg HG HV H1 H2 H3.
  apply Z.lt_succ_r. apply Z.div_lt_upper_bound; [lia|]. nia.
Qed.

(* the withdrawal side: the market tokens handed back are worth, at the withdrawal price, no more than the value
   given up, which is no more than the deposit was worth at the lower deposit price *)
Lemma round_trip_back pw pmin s value V amount back :
  0 < pw -> 0 < s -> 0 <= amount -> pmin <= pw -> value <= V ->
  pw * back <= s * value -> s * V <= pmin * amount -> back <= amount.
Proof.
  intros Hpw Hs Ha Hp Hv H1 H2. apply (Z.mul_le_mono_pos_l _ _ pw Hpw).
  pose proof (Z.mul_le_mono_nonneg_l value V s). pose proof (Z.mul_le_mono_nonneg_r pmin pw amount). lia.
Qed.

Lemma glv_deposit_price_ok c ms mt amount S d g nb m :
  find_pm ms mt = Some m -> glv_deposit_price c ms mt amount S d = Ok (g, nb) ->
  nb = c_balance c + amount /\ nb <= U64_MAX /\
  validate_balance c nb (pm_pv_max m) (pm_supply m) = Ok tt /\
  exists gv recv, glv_value true ms = Ok gv /\
    glv_value_for_market (pm_pv_min m) (pm_supply m) amount = Ok recv /\ usd_to_mt W recv gv S d = Some g.
Proof.
  intros Hf H. unfold glv_deposit_price in H. rewrite Hf in H.
  destruct (U64_MAX <? c_balance c + amount) eqn:E; [discriminate|]. apply Z.ltb_ge in E.
  apply rbind_ok in H as (gv & Egv & H). apply rbind_ok in H as (recv & Er & H). apply rbind_ok in H as (_ & _ & H).
  apply rbind_ok in H as ([] & Ev & H). apply rbind_ok in H as (minted & Em%of_opt_ok & H).
  destruct (U64_MAX <? minted); [discriminate|]. injection H as <- <-. eauto 8.
Qed.

Lemma glv_withdraw_price_ok c ms mt g S pv d back m :
  find_pm ms mt = Some m -> glv_withdraw_price c ms mt g S pv d = Ok back ->
  0 <= pv /\ exists gv value, glv_value false ms = Ok gv /\ mt_to_usd W g gv S = Some value /\
    usd_to_mt W value pv (pm_supply m) d = Some back.
Proof.
  intros Hf H. unfold glv_withdraw_price in H. rewrite Hf in H.
  apply rbind_ok in H as (gv & Egv & H). apply rbind_ok in H as (value & Ev%of_opt_ok & H).
  apply rbind_ok in H as (amt & Eb & H).
  destruct (U64_MAX <? amt); [discriminate|]. destruct (c_balance c <? amt); [discriminate|]. injection H as <-.
  unfold market_token_amount_for_glv_value in Eb. destruct (Z.ltb_spec pv 0); [discriminate|].
  apply of_opt_ok in Eb. rewrite Z.abs_eq in Eb by lia. eauto 6.
Qed.

Theorem round_trip_no_gain c c' ms mt amount S pv_wd_max d g nb back m :
  Forall pm_ok ms -> find_pm ms mt = Some m -> pm_pv_min m <= pv_wd_max ->
  0 < S -> 0 < d -> 0 <= amount ->
  glv_deposit_price c ms mt amount S d = Ok (g, nb) ->
  glv_withdraw_price c' (add_balance ms mt amount) mt g (S + g) pv_wd_max d = Ok back ->
  back <= amount.
Proof.
  intros Hok Hf Hcross HS Hd Ha Hdep Hwd.
  destruct (find_pm_ok _ _ _ Hok Hf) as (Hs & Hb & Hp).
  pose proof (sum_val_nonneg true ms Hok). pose proof (sum_val_nonneg false ms Hok).
  pose proof (sum_val_min_le_max ms Hok).
  set (V := share_val (pm_pv_min m) (pm_supply m) amount).
  assert (HV0 : 0 <= V) by (apply mul_div_nonneg; lia).
  (* deposit: g GLV tokens for the value V of the amount at the minimised price, against the maximised GLV value *)
  apply (glv_deposit_price_ok _ _ _ _ _ _ _ _ m Hf) in Hdep as (_ & _ & _ & gv & recv & Egv & Er & Em).
  apply glv_value_for_market_val in Er; auto; [|lia]. subst recv. fold V in Em.
  apply glv_value_acc_val in Egv; auto. cbn in Egv.
  apply (usd_to_mt_floor W W_pos) in Em as (_ & Hg0 & Hfl & _); try lia.
  (* withdrawal: the value of g GLV tokens at the minimised GLV value, turned into market tokens at pv_wd_max *)
  destruct (sum_val_add_balance ms mt amount m Hok Ha Hf) as (Hadd & Hok' & Hf').
  apply (glv_withdraw_price_ok _ _ _ _ _ _ _ _ _ Hf') in Hwd as (Hpv & gv' & value & Egv' & Ev & Eb).
  cbn [pm_supply] in Eb. apply glv_value_acc_val in Egv'; auto. cbn in Egv'.
  pose proof (sum_val_nonneg false _ Hok').
  apply mt_to_usd_val in Ev as [_ Ev]; try lia.
  assert (Hval : value <= V).
  { rewrite Ev, Egv'. apply round_trip_core with (Gmin := sum_val false ms) (Gmax := sum_val true ms); lia. }
  assert (Hv0 : 0 <= value) by (rewrite Ev; apply mul_div_nonneg; lia).
  apply (usd_to_mt_floor W W_pos) in Eb as (Hpw & _ & Hfl2 & _); try lia.
  apply (round_trip_back pv_wd_max (pm_pv_min m) (pm_supply m) value V); try lia. apply Z.mul_div_le. lia.
Qed.
