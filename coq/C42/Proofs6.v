(* C42 — what BestSwapPaths::to returns for a good pair, and the pair best_swap_paths hands it
   on any well-formed graph. *)
From GV Require Import lib.Base lib.Checked C42.Model C42.Proofs1 C42.Proofs2 C42.Proofs3 C42.Proofs4 C42.Proofs5.
Open Scope Z_scope.

Section PathTo.
  Variable g : graph.
  Variable s k : Z.
  Hypothesis Hk : 0 <= k.
  Hypothesis Hmp : mkt_pair g.

  Theorem path_to_valid st source target d path :
    good g s st \/ no_pred st ->
    index_of source (g_toks g) = Some s ->
    getd (dist st) s = Some 0 ->
    path_to g k source st target = (d, path) -> path <> [] ->
    exists t es dv,
      index_of target (g_toks g) = Some t /\ source <> target /\
      gwalk g s t es /\ map e_mkt es = path /\ Z.of_nat (length path) <= k /\
      NoDup (walk_nodes s es) /\ NoDup path /\
      d = Some dv /\ getd (dist st) t = Some dv /\ ecost es <= dv.
  Proof.
    intros Hg Hix H0 H Hne. unfold path_to in H.
    destruct (index_of target (g_toks g)) as [t|] eqn:Et; [|inversion H; subst; congruence].
    destruct (source =? target) eqn:Est; [inversion H; subst; congruence|]. apply Z.eqb_neq in Est.
    destruct (walk (Z.to_nat (k + 1)) k (pred st) (getd (pred st) t) 0 []) as [p|] eqn:Ew;
      [|inversion H; subst; congruence].
    inversion H; subst path. clear H.
    (* the path is not empty, so t has a predecessor entry: the pair is good and t is reached *)
    pose proof Hne as Hpt. rewrite (walk_nil_iff _ _ _ _ _ _ Ew) in Hpt.
    destruct Hg as [[Hpe Hrp] | Hnp]; [|contradiction (Hpt (Hnp t))].
    destruct (getd (pred st) t) as [[i m]|] eqn:Ept; [clear Hpt | congruence].
    destruct (Hpe _ _ _ Ept) as [_ [_ [_ [dv [_ [_ [_ [_ [_ [_ [Hdv _]]]]]]]]]]].
    rewrite <- Ept in Ew. destruct (walk_chain _ _ _ _ _ _ _ Ew) as [l [r [Hc [Hp Hl]]]]. rewrite app_nil_r in Hp.
    destruct (chain_walk g st t l r Hpe Hc) as [es [Hw [Hm [Hn Hd]]]].
    destruct (Hd _ Hdv) as [a [Ha Hle]].
    (* the root of the chain is reached and has no predecessor: it is the source *)
    assert (r = s) by (destruct (Hrp _ _ Ha) as [E | E]; [exact E | contradiction (E (chain_root _ _ _ _ Hc))]).
    subst r. rewrite H0 in Ha. inversion Ha; subst a.
    assert (Hnd : NoDup (walk_nodes s es)) by (rewrite Hn; apply NoDup_rev, (chain_nodup _ _ _ _ Hc)).
    exists t, es, dv. split; [reflexivity|]. split; [exact Est|]. split; [exact Hw|].
    split; [rewrite Hm, Hp; reflexivity|].
    split; [rewrite Hp, rev_length, map_length; lia|].
    split; [exact Hnd|].
    split; [rewrite Hp, <- Hm; apply (gwalk_nodup_markets g s t es Hmp Hw Hnd)|].
    split; [|split; [exact Hdv | lia]].
    destruct p; [congruence | exact Hdv].
  Qed.
End PathTo.

(* the node-index list of [build ms]; equal to [tokens_of ms] by computation *)
Definition toks_of (ms : list market) := g_toks (build ms).

Lemma bsp_cases g k source skip p : best_swap_paths g k source skip = Ok p ->
  exists s, index_of source (g_toks g) = Some s /\
    ((p_arb p = Some false /\ bellman_ford g k source = Ok (p_state p)) \/
     (p_arb p <> Some false /\ dfs g k source = Ok (p_state p))).
Proof.
  (* both searches answer Err 1 for an unknown source, and Err 1 is passed on *)
  destruct (index_of source (g_toks g)) as [s|] eqn:Hs;
    [|unfold best_swap_paths, bellman_ford, dfs; rewrite Hs; destruct skip; discriminate].
  intros Hb. exists s. split; [reflexivity|]. revert Hb.
  assert (Hdfs : forall arb, (st <-- dfs g k source ;; Ok (mkPaths st arb)) = Ok p -> arb <> Some false ->
            p_arb p <> Some false /\ dfs g k source = Ok (p_state p)).
  { intros arb H Harb. apply rbind_ok in H. destruct H as [st [Hd H]]. inversion H; subst. auto. }
  unfold best_swap_paths. destruct skip; [intros H; right; apply (Hdfs None); [exact H | discriminate]|].
  destruct (bellman_ford g k source) as [st|e].
  - intros H; inversion H; subst. left. auto.
  - (* only Err 2 falls back to DFS *)
    destruct e as [|[e|[e|e|]|]|e]; try discriminate.
    intros H. right. apply (Hdfs (Some true)); [exact H | discriminate].
Qed.

Lemma bsp_result g k source skip p :
  (forall e, In e (g_edges g) -> 0 <= e_src e < Z.of_nat (length (g_toks g)) /\ 0 <= e_dst e < Z.of_nat (length (g_toks g))) ->
  0 <= k -> best_swap_paths g k source skip = Ok p ->
  exists s, index_of source (g_toks g) = Some s /\
    (good g s (p_state p) \/ (k < 1 /\ no_pred (p_state p))) /\
    getd (dist (p_state p)) s = Some 0 /\
    (p_arb p = Some false -> opt g s k (dist (p_state p))).
Proof.
  intros Hwf Hk Hb. destruct (bsp_cases _ _ _ _ _ Hb) as [s [Hs Hcase]].
  pose proof (index_of_range _ _ _ Hs) as Hr. exists s. split; [exact Hs|].
  destruct Hcase as [[Harb Hbf] | [Harb Hdfs]].
  - destruct (bellman_ford_result g s k Hr Hwf source _ Hs Hbf) as [Hg [H0 Hopt]]. auto.
  - destruct (dfs_result g s k Hr Hwf source _ Hk Hs Hdfs) as [Hg H0].
    split; [left; exact Hg|]. split; [exact H0 | contradiction].
Qed.

Lemma opt_exact g s k d t es dv : opt g s k d -> getd d t = Some dv ->
  gwalk g s t es -> Z.of_nat (length es) <= k -> ecost es <= dv ->
  dv = ecost es /\ forall es', gwalk g s t es' -> Z.of_nat (length es') <= k -> dv <= ecost es'.
Proof.
  intros Ho Hd Hw Hl Hc.
  assert (Hbest : forall es', gwalk g s t es' -> Z.of_nat (length es') <= k -> dv <= ecost es').
  { intros es' Hw' Hl'. destruct (Ho _ _ Hw' Hl') as [b [Hb Hle]]. assert (b = dv) by congruence. lia. }
  split; [specialize (Hbest es Hw Hl); lia | exact Hbest].
Qed.

Lemma reached_has_entry g s k st t es dv : good g s st \/ (k < 1 /\ no_pred st) ->
  getd (dist st) t = Some dv -> t <> s -> gwalk g s t es -> Z.of_nat (length es) <= k ->
  getd (pred st) t <> None.
Proof.
  intros [[_ Hrp] | [Hk1 _]] Hdv Hts Hw Hl.
  - destruct (Hrp _ _ Hdv); [contradiction | assumption].
  - (* max_steps = 0, no entry is ever written: the only walk is the empty one *)
    destruct es; [|cbn [length] in Hl; lia]. apply gwalk_nil in Hw. contradiction.
Qed.
