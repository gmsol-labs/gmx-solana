(* C22 — what an accepted balance validation guarantees, and solvency of the bank layer: every market stays
   covered and the markets' recorded balances stay within the vaults, over all histories. *)
From GV Require Import lib.Base lib.Checked C22.Model.
Open Scope Z_scope.

Definition pool_nonneg (p : pool) : Prop := 0 <= p_l p /\ 0 <= p_s p.
Definition pools_nonneg (m : market) : Prop :=
  pool_nonneg (m_liq m) /\ pool_nonneg (m_imp m) /\ pool_nonneg (m_fee m) /\
  pool_nonneg (m_cl m) /\ pool_nonneg (m_cs m).

(* the recorded balance of one pool-token side, minus [ex] still to be paid out, covers liquidity + swap impact +
   claimable fees, and separately covers the collateral of all positions; raw stored amounts *)
Definition covers_side (m : market) (is_long : bool) (ex : Z) : Prop :=
  if pure m then
    p_l (m_liq m) + p_l (m_imp m) + p_l (m_fee m) <= m_bl m - ex /\ p_l (m_cl m) + p_l (m_cs m) <= m_bl m - ex
  else if is_long then
    p_l (m_liq m) + p_l (m_imp m) + p_l (m_fee m) <= m_bl m - ex /\ p_l (m_cl m) + p_l (m_cs m) <= m_bl m - ex
  else
    p_s (m_liq m) + p_s (m_imp m) + p_s (m_fee m) <= m_bs m - ex /\ p_s (m_cl m) + p_s (m_cs m) <= m_bs m - ex.

Definition covers (m : market) : Prop := covers_side m true 0 /\ covers_side m false 0.

Definition bal_of (m : market) (tok : Z) : Z :=
  if tok =? m_long m then m_bl m else if tok =? m_short m then m_bs m else 0.
Fixpoint total (ms : list market) (tok : Z) : Z :=
  match ms with [] => 0 | m :: r => bal_of m tok + total r tok end.

Definition same_shape (m m' : market) : Prop :=
  m_id m' = m_id m /\ m_long m' = m_long m /\ m_short m' = m_short m /\
  m_liq m' = m_liq m /\ m_imp m' = m_imp m /\ m_fee m' = m_fee m /\ m_cl m' = m_cl m /\ m_cs m' = m_cs m.

Definition mok (m : market) : Prop := pools_nonneg m /\ covers m /\ 0 <= m_bl m /\ 0 <= m_bs m.

Definition winv (w : world) : Prop :=
  (forall m, In m (w_markets w) -> mok m) /\
  (forall T, total (w_markets w) T <= vault (w_vaults w) T).

(* pool amounts are unsigned in the program *)
Definition op_wf (o : op) : Prop :=
  match o with
  | Operate _ liq imp fee cl cs _ _ => pool_nonneg liq /\ pool_nonneg imp /\ pool_nonneg fee /\ pool_nonneg cl /\ pool_nonneg cs
  | _ => True
  end.

Definition w_empty : world := mkWorld [] [].

(* an initial world: markets created with empty pools and no recorded balance, empty vaults *)
Definition fresh (id long short : Z) : market :=
  mkMarket id long short 0 0 (mkPool 0 0) (mkPool 0 0) (mkPool 0 0) (mkPool 0 0) (mkPool 0 0).

Lemma halves_sum x : (x + 1) / 2 + x / 2 = x.
Proof. Z.div_mod_to_equations. lia. Qed.

Lemma halves x : 0 <= x -> (x + 1) / 2 + x / 2 = x.
Proof. intros _. apply halves_sum. Qed.

(* the two sides a pure pool reports (ceil half, floor half) make up its one stored amount *)
Lemma amt_pure_sides p sd : amt true p sd + amt true p (negb sd) = p_l p.
Proof. pose proof (halves_sum (p_l p)). destruct sd; cbn; lia. Qed.

Lemma amt_nonneg pu p sd : pool_nonneg p -> 0 <= amt pu p sd.
Proof. intros [? ?]. unfold amt. destruct pu, sd; try lia; apply Z.div_pos; lia. Qed.

Lemma chk128_ok z r : chk128 z = Ok r -> r = z.
Proof. unfold chk128. destruct (U128_MAX <? z); congruence. Qed.

Lemma min_balance_side_val m sd r :
  min_balance_side m sd = Ok r ->
  r = amt (pure m) (m_liq m) sd + amt (pure m) (m_imp m) sd + amt (pure m) (m_fee m) sd.
Proof. intro H. apply rbind_ok in H as (a & ->%chk128_ok & ->%chk128_ok). reflexivity. Qed.

Lemma collateral_side_val m sd r :
  collateral_side m sd = Ok r -> r = amt (pure m) (m_cl m) sd + amt (pure m) (m_cs m) sd.
Proof. apply chk128_ok. Qed.

Lemma token_side_spec m tok sd :
  token_side m tok = Some sd -> (sd = true /\ tok = m_long m) \/ (sd = false /\ tok = m_short m /\ tok <> m_long m).
Proof.
  unfold token_side. destruct (Z.eqb_spec tok (m_long m)); [intros [= <-]; auto|].
  destruct (Z.eqb_spec tok (m_short m)); [intros [= <-]; auto|discriminate].
Qed.

Lemma token_side_long m : token_side m (m_long m) = Some true.
Proof. unfold token_side. now rewrite Z.eqb_refl. Qed.

Lemma token_side_short m : token_side m (m_short m) = Some (pure m).
Proof.
  unfold token_side, pure. rewrite (Z.eqb_sym (m_short m)). destruct (m_long m =? m_short m); [reflexivity|].
  now rewrite Z.eqb_refl.
Qed.

(* a pure market compares its single balance with both halves of what a side needs *)
Lemma both_halves_if_pure (pu : bool) (f : bool -> res Z) sd x r :
  (if pu then o <-- f (negb sd) ;; chk128 (x + o) else Ok x) = Ok r ->
  if pu then exists o, f (negb sd) = Ok o /\ r = x + o else r = x.
Proof.
  destruct pu; [|now intros [= <-]]. intros (o & Eo & ->%chk128_ok)%rbind_ok. eauto.
Qed.

Lemma validate_token_sound m tok ex :
  validate_token m tok ex = Ok tt -> exists sd, token_side m tok = Some sd /\ covers_side m sd ex.
Proof.
  intros H. unfold validate_token in H.
  destruct (token_side m tok) as [sd|]; [|discriminate]. exists sd. split; [reflexivity|].
  apply rbind_ok in H as (b & Hb & H).
  assert (b = balance_for m sd - ex) as ->.
  { destruct (Z.eqb_spec ex 0) as [->|_]; [injection Hb; lia|].
    destruct (balance_for m sd - ex <? 0); [discriminate|]. now injection Hb. }
  apply rbind_ok in H as (mn & ->%min_balance_side_val & H).
  apply rbind_ok in H as (mn' & Emn%both_halves_if_pure & H).
  destruct (_ <? mn') eqn:E1 in H; [discriminate|]. apply Z.ltb_ge in E1.
  apply rbind_ok in H as (c & ->%collateral_side_val & H).
  apply rbind_ok in H as (c' & Ec%both_halves_if_pure & H).
  destruct (_ <? c') eqn:E2 in H; [discriminate|]. apply Z.ltb_ge in E2.
  unfold covers_side, balance_for in *. destruct (pure m) eqn:Ep.
  - destruct Emn as (o & ->%min_balance_side_val & ->), Ec as (oc & ->%collateral_side_val & ->). rewrite Ep in *.
    pose proof (amt_pure_sides (m_liq m) sd). pose proof (amt_pure_sides (m_imp m) sd).
    pose proof (amt_pure_sides (m_fee m) sd). pose proof (amt_pure_sides (m_cl m) sd).
    pose proof (amt_pure_sides (m_cs m) sd). rewrite Bool.orb_true_r in *. lia.
  - subst mn' c'. rewrite Bool.orb_false_r in *. destruct sd; exact (conj E1 E2).
Qed.

Lemma validate_sound m ex_l ex_s :
  validate m ex_l ex_s = Ok tt ->
  if pure m then covers_side m true (ex_l + ex_s)
  else covers_side m true ex_l /\ covers_side m false ex_s.
Proof.
  intros H. apply rbind_ok in H as ([l s] & He & ([] & V1 & V2)%rbind_ok).
  pose proof (token_side_long m) as Tl. destruct (pure m) eqn:Ep.
  - destruct (U64_MAX <? ex_l + ex_s); [discriminate|]. injection He as <- <-.
    apply validate_token_sound in V1 as (sd & _ & Hc).
    unfold covers_side in *. now rewrite Ep in *.
  - injection He as <- <-. pose proof (token_side_short m) as Ts. rewrite Ep in Ts.
    apply validate_token_sound in V1 as (sd1 & T1 & C1). apply validate_token_sound in V2 as (sd2 & T2 & C2).
    rewrite Tl in T1. rewrite Ts in T2. injection T1 as <-. injection T2 as <-. auto.
Qed.

Lemma validate_excluding_sound m t1 t2 a1 a2 :
  0 <= a1 -> 0 <= a2 -> validate_excluding m t1 t2 a1 a2 = Ok tt ->
  exists l s, validate m l s = Ok tt /\ 0 <= l /\ 0 <= s /\ l + s = a1 + a2 /\
    (a1 <> 0 -> token_side m t1 <> None) /\ (a2 <> 0 -> token_side m t2 <> None).
Proof.
  assert (A : forall acc tok a l s, 0 <= a -> excl_add m acc tok a = Ok (l, s) ->
            exists l0 s0, acc = Ok (l0, s0) /\ (l = l0 + a /\ s = s0 \/ l = l0 /\ s = s0 + a) /\
                          (a <> 0 -> token_side m tok <> None)).
  { intros acc tok a l s Ha H. apply rbind_ok in H as ([l0 s0] & -> & H). exists l0, s0. split; [reflexivity|].
    destruct (Z.eqb_spec a 0) as [->|Ne]; [injection H as <- <-; split; [lia|congruence]|].
    destruct (token_side m tok) as [[]|]; [| |discriminate];
      (destruct (U64_MAX <? _); [discriminate|]); injection H as <- <-; split; auto; discriminate. }
  intros H1 H2 H. apply rbind_ok in H as ([l s] & E & V). exists l, s. split; [exact V|].
  apply A in E as (l1 & s1 & E & D2 & N2); [|exact H2].
  apply A in E as (l0 & s0 & [= <- <-] & D1 & N1); [|exact H1].
  repeat split; auto; lia.
Qed.

Lemma pure_shape m m' : same_shape m m' -> pure m' = pure m.
Proof. intros (_ & L & S & _). unfold pure. now rewrite L, S. Qed.

Lemma pools_same_shape m m' : same_shape m m' -> pools_nonneg m -> pools_nonneg m'.
Proof. intros (_ & _ & _ & A & B & C & D & E). unfold pools_nonneg. now rewrite A, B, C, D, E. Qed.

Lemma same_shape_trans a b c : same_shape a b -> same_shape b c -> same_shape a c.
Proof. unfold same_shape. intuition congruence. Qed.

Lemma same_shape_sym a b : same_shape a b -> same_shape b a.
Proof. unfold same_shape. intuition congruence. Qed.

Lemma token_side_shape m m' tok : same_shape m m' -> token_side m' tok = token_side m tok.
Proof. intros (_ & L & S & _). unfold token_side. now rewrite L, S. Qed.

(* record_transferred_in / out move the recorded balance of the token's side by [d] and nothing else *)
Definition shift_bal (m : market) (sd : bool) (d : Z) : market :=
  if pure m || sd then with_bal m (m_bl m + d) (m_bs m) else with_bal m (m_bl m) (m_bs m + d).

Lemma rec_in_eq m tok a m' :
  rec_in m tok a = Ok m' -> exists sd, token_side m tok = Some sd /\ m' = shift_bal m sd a.
Proof.
  unfold rec_in, shift_bal. destruct (token_side m tok) as [sd|]; [|discriminate]. intro H.
  exists sd. split; [reflexivity|]. destruct (pure m || sd); destruct (_ <? _); congruence.
Qed.

Lemma rec_out_eq m tok a m' :
  rec_out m tok a = Ok m' ->
  exists sd, token_side m tok = Some sd /\ m' = shift_bal m sd (- a) /\ 0 <= balance_for m sd - a.
Proof.
  unfold rec_out, shift_bal, balance_for. destruct (token_side m tok) as [sd|]; [|discriminate]. intro H.
  exists sd. split; [reflexivity|]. rewrite (Bool.orb_comm sd).
  destruct (pure m || sd); destruct (_ <? 0) eqn:E; try discriminate; apply Z.ltb_ge in E;
    injection H as <-; split; auto.
Qed.

Lemma shift_bal_shape m sd d : same_shape m (shift_bal m sd d).
Proof. unfold shift_bal, same_shape. destruct (pure m || sd); cbn; tauto. Qed.

Lemma shift_bal_of m tok sd d T :
  token_side m tok = Some sd -> bal_of (shift_bal m sd d) T = bal_of m T + (if T =? tok then d else 0).
Proof.
  intro H. unfold shift_bal, bal_of, pure. apply token_side_spec in H as [[-> ->]|(-> & -> & Hne)].
  - rewrite Bool.orb_true_r. cbn. destruct (T =? m_long m); [lia|]. destruct (T =? m_short m); lia.
  - rewrite Bool.orb_false_r. destruct (Z.eqb_spec (m_long m) (m_short m)); [congruence|]. cbn.
    destruct (Z.eqb_spec T (m_long m)), (Z.eqb_spec T (m_short m)); lia.
Qed.

Lemma shift_bal_bals m sd d :
  m_bl (shift_bal m sd d) = m_bl m + (if pure m || sd then d else 0) /\
  m_bs (shift_bal m sd d) = m_bs m + (if pure m || sd then 0 else d).
Proof. unfold shift_bal. destruct (pure m || sd); cbn; lia. Qed.

Lemma balance_for_shift m sd d : balance_for (shift_bal m sd d) sd = balance_for m sd + d.
Proof.
  unfold balance_for. rewrite (pure_shape _ _ (shift_bal_shape m sd d)), (Bool.orb_comm sd).
  destruct (shift_bal_bals m sd d) as [-> ->]. destruct (pure m || sd); lia.
Qed.

(* a failed execution's round trip restores the market exactly *)
Lemma shift_bal_back m sd d : shift_bal (shift_bal m sd d) sd (- d) = m.
Proof.
  unfold shift_bal at 2. destruct (pure m || sd) eqn:E; unfold shift_bal, pure in *; cbn; rewrite E;
    destruct m; unfold with_bal; cbn; f_equal; lia.
Qed.

Lemma find_In ms id m : find ms id = Some m -> In m ms /\ m_id m = id.
Proof.
  induction ms as [|x ms IH]; cbn; [discriminate|]. destruct (Z.eqb_spec (m_id x) id).
  - intros [= <-]. auto.
  - intros [? ?]%IH. auto.
Qed.

Lemma upd_In ms m' x : In x (upd ms m') -> x = m' \/ In x ms.
Proof.
  induction ms as [|y ms IH]; cbn; auto. destruct (m_id y =? m_id m'); cbn; intros [H|H]; auto.
  destruct (IH H); auto.
Qed.

Lemma total_upd ms m m' T :
  find ms (m_id m') = Some m -> total (upd ms m') T = total ms T - bal_of m T + bal_of m' T.
Proof.
  induction ms as [|x ms IH]; cbn; [discriminate|]. destruct (m_id x =? m_id m').
  - intros [= ->]. cbn. lia.
  - intro H. cbn. rewrite (IH H). lia.
Qed.

Lemma find_upd_other ms m' id : id <> m_id m' -> find (upd ms m') id = find ms id.
Proof.
  intro Hne. induction ms as [|x ms IH]; cbn; auto. destruct (Z.eqb_spec (m_id x) (m_id m')) as [E|_]; cbn.
  - destruct (Z.eqb_spec (m_id m') id), (Z.eqb_spec (m_id x) id); congruence.
  - now rewrite IH.
Qed.

Lemma vault_set vs t b t' : vault (set_vault vs t b) t' = if t' =? t then b else vault vs t'.
Proof.
  induction vs as [|[x y] r IH]; cbn.
  - now rewrite (Z.eqb_sym t).
  - destruct (Z.eqb_spec x t) as [->|Hx]; cbn.
    + rewrite (Z.eqb_sym t). now destruct (t' =? t).
    + rewrite IH. destruct (Z.eqb_spec x t'), (Z.eqb_spec t' t); congruence.
Qed.

Lemma vault_shift vs tok d T :
  vault (set_vault vs tok (vault vs tok + d)) T = vault vs T + (if T =? tok then d else 0).
Proof. rewrite vault_set. destruct (Z.eqb_spec T tok); [subst|]; lia. Qed.

Lemma total_pay ms vs tok a T :
  total ms T - (if T =? tok then a else 0) <= vault vs T - (if T =? tok then a else 0) ->
  total ms T - (if T =? tok then a else 0) <= vault (set_vault vs tok (vault vs tok - a)) T.
Proof. intro H. rewrite (vault_shift vs tok (- a)). destruct (T =? tok); lia. Qed.

Lemma pay_out_eq w ms' tok a w' :
  pay_out w ms' tok a = Ok w' -> w' = mkWorld ms' (set_vault (w_vaults w) tok (vault (w_vaults w) tok + - a)).
Proof. unfold pay_out. destruct (_ <? 0); [discriminate|]. now intros [= <-]. Qed.

Lemma covers_side_shape m m' sd ex ex' :
  same_shape m m' -> balance_for m sd - ex <= balance_for m' sd - ex' -> covers_side m sd ex -> covers_side m' sd ex'.
Proof.
  intros S. unfold covers_side, balance_for. rewrite (pure_shape _ _ S).
  destruct S as (_ & _ & _ & -> & -> & -> & -> & ->). destruct (pure m), sd; cbn; lia.
Qed.

Lemma covers_side_mono m sd ex ex' : ex' <= ex -> covers_side m sd ex -> covers_side m sd ex'.
Proof. unfold covers_side. destruct (pure m), sd; lia. Qed.

Lemma mok_same_shape m m' : same_shape m m' -> m_bl m <= m_bl m' -> m_bs m <= m_bs m' -> mok m -> mok m'.
Proof.
  intros S Hl Hs (P & [C1 C2] & Bl & Bs). split; [eapply pools_same_shape; eauto|]. split; [|lia].
  split; eapply covers_side_shape; eauto; unfold balance_for; rewrite (pure_shape _ _ S); destruct (pure m); cbn; lia.
Qed.

Lemma mok_shift_up m sd d : mok m -> 0 <= d -> mok (shift_bal m sd d).
Proof.
  intros M Hd. destruct (shift_bal_bals m sd d) as [Bl Bs].
  apply (mok_same_shape m); [apply shift_bal_shape| | |exact M]; destruct (pure m || sd); lia.
Qed.

Lemma mok_paid m sd a :
  pools_nonneg m -> 0 <= m_bl m -> 0 <= m_bs m -> 0 <= a -> 0 <= balance_for m sd - a ->
  covers_side m sd a -> (pure m = false -> covers_side m (negb sd) 0) -> mok (shift_bal m sd (- a)).
Proof.
  intros P Bl Bs Ha Hb C1 C2. split; [exact (pools_same_shape _ _ (shift_bal_shape m sd (- a)) P)|].
  unfold covers, covers_side, balance_for, shift_bal, pure in *.
  destruct (m_long m =? m_short m) eqn:Ep; [|specialize (C2 eq_refl)]; destruct sd; cbn in *; rewrite Ep; lia.
Qed.

Lemma validated_then_paid m ol os m2 m3 :
  pools_nonneg m -> 0 <= ol -> 0 <= os -> 0 <= m_bl m -> 0 <= m_bs m ->
  validate m ol os = Ok tt ->
  rec_out m (m_long m) ol = Ok m2 -> rec_out m2 (m_short m2) os = Ok m3 ->
  mok m3 /\ same_shape m m3.
Proof.
  intros P Hl Hs Bl Bs V R1 R2. apply validate_sound in V.
  apply rec_out_eq in R1 as (sd1 & T1 & -> & B1). rewrite token_side_long in T1. injection T1 as <-.
  pose proof (shift_bal_shape m true (- ol)) as S1. pose proof (pure_shape _ _ S1) as Pu.
  apply rec_out_eq in R2 as (sd2 & T2 & -> & B2). rewrite token_side_short, Pu in T2. injection T2 as <-.
  split; [|exact (same_shape_trans _ _ _ S1 (shift_bal_shape _ _ _))].
  (* with the long output paid, the market is covered and still covers the short output *)
  assert (M2 : mok (shift_bal m true (- ol)) /\ covers_side (shift_bal m true (- ol)) (pure m) os).
  { destruct (shift_bal_bals m true (- ol)) as [El Es]. rewrite Bool.orb_true_r in El, Es.
    destruct (pure m) eqn:Ep.
    - split; [apply mok_paid; auto; [apply (covers_side_mono _ _ (ol + os)); [lia|exact V]|congruence]|].
      apply (covers_side_shape m _ true (ol + os)); [exact S1| |exact V]. unfold balance_for. rewrite Pu. cbn. lia.
    - destruct V as [V1 V2]. split; [apply mok_paid; auto; intros _; apply (covers_side_mono _ _ os); auto|].
      apply (covers_side_shape m _ false os); [exact S1| |exact V2]. unfold balance_for. rewrite Pu, Ep. cbn. lia. }
  destruct M2 as [(P2 & [C2 _] & Bl2 & Bs2) C2'].
  apply mok_paid; auto. rewrite Pu. intros E. rewrite E. exact C2.
Qed.

Lemma mok_moved_out m tok sd a (full : bool) :
  mok m -> token_side m tok = Some sd -> 0 <= a -> 0 <= balance_for m sd - a ->
  (if full then validate (shift_bal m sd (- a)) 0 0 else validate_token (shift_bal m sd (- a)) tok 0) = Ok tt ->
  mok (shift_bal m sd (- a)).
Proof.
  intros (P & [C1 C2] & Bl & Bs) T Ha B V. pose proof (shift_bal_shape m sd (- a)) as S.
  assert (Cv : covers_side (shift_bal m sd (- a)) sd 0).
  { destruct full.
    - apply validate_sound in V. change (0 + 0) with 0 in V.
      unfold covers_side in *. destruct (pure (shift_bal m sd (- a))), sd; tauto.
    - apply validate_token_sound in V as (sd' & T' & Cv).
      rewrite (token_side_shape _ _ _ S), T in T'. now injection T' as <-. }
  apply mok_paid; auto; [|intros _; destruct sd; assumption].
  apply (covers_side_shape _ m sd 0 a (same_shape_sym _ _ S)); [|exact Cv]. rewrite balance_for_shift. lia.
Qed.

(* what claim_fees_from_market takes ([a1] for the token's side, [a2] for the other half of a pure pool) is within
   the fee pool of that side *)
Lemma claimed_within_fees (pu sd : bool) (fee : pool) :
  pool_nonneg fee ->
  let a1 := Z.min (amt pu fee sd) U64_MAX in
  let a2 := if pu then Z.min (amt pu fee (negb sd)) U64_MAX else 0 in
  let fee' := if pu then mkPool (p_l fee - a1 - a2) (p_s fee)
              else if sd then mkPool (p_l fee - a1) (p_s fee) else mkPool (p_l fee) (p_s fee - a1) in
  0 <= a1 + a2 /\ pool_nonneg fee' /\ p_l fee' <= p_l fee /\ p_s fee' <= p_s fee.
Proof.
  intros Pf. pose proof (amt_nonneg pu _ sd Pf). pose proof (amt_nonneg pu _ (negb sd) Pf).
  pose proof (amt_pure_sides fee sd). destruct Pf. unfold pool_nonneg, U64_MAX in *.
  destruct pu; [|destruct sd; unfold amt in *]; cbn [p_l p_s]; lia.
Qed.

Lemma mok_claimed m tok sd fee' ex :
  mok m -> token_side m tok = Some sd -> 0 <= ex ->
  pool_nonneg fee' -> p_l fee' <= p_l (m_fee m) -> p_s fee' <= p_s (m_fee m) ->
  let m1 := with_pools m (m_liq m) (m_imp m) fee' (m_cl m) (m_cs m) in
  validate_token m1 tok ex = Ok tt -> 0 <= balance_for m1 sd - ex -> mok (shift_bal m1 sd (- ex)).
Proof.
  intros (P & [C1 C2] & Bl & Bs) T Hex Pf Fl Fs m1 V B.
  assert (P1 : pools_nonneg m1) by (unfold pools_nonneg in *; cbn; tauto).
  apply validate_token_sound in V as (sd' & T' & Cv).
  change (token_side m1 tok) with (token_side m tok) in T'. rewrite T in T'. injection T' as <-.
  apply mok_paid; auto. intros _. unfold covers_side in *. change (pure m1) with (pure m). cbn.
  destruct (pure m), sd; cbn; lia.
Qed.

Lemma winv_upd w id m m' vs :
  winv w -> find (w_markets w) id = Some m -> m_id m' = m_id m -> mok m' ->
  (forall T, total (w_markets w) T + bal_of m' T - bal_of m T <= vault vs T) ->
  winv (mkWorld (upd (w_markets w) m') vs).
Proof.
  intros [Hm _] Ef I M Hd. destruct (find_In _ _ _ Ef) as [_ <-]. rewrite <- I in Ef. split; cbn.
  - intros x [->|Hx]%upd_In; auto.
  - intro T. rewrite (total_upd _ _ _ _ Ef). specialize (Hd T). lia.
Qed.

Lemma step_winv w o w' : winv w -> op_wf o -> step w o = Ok w' -> winv w'.
Proof.
  intros W Hwf H. pose proof W as [Hm Hv]. destruct o; cbn [step] in H.
  - (* TransferIn *)
    destruct (find (w_markets w) id) as [m|] eqn:Ef; [|discriminate]. destruct (find_In _ _ _ Ef) as [Hin _].
    destruct (a <? 0) eqn:Ea; [discriminate|]. apply Z.ltb_ge in Ea.
    apply rbind_ok in H as (m' & (sd & T & ->)%rec_in_eq & [= <-]).
    apply (winv_upd w id m); auto; [apply shift_bal_shape|apply mok_shift_up; auto|].
    intro T0. rewrite (shift_bal_of m tok sd a T0 T), vault_shift. specialize (Hv T0). lia.
  - (* InThenOut: the market is as before *)
    destruct (find (w_markets w) id) as [m|] eqn:Ef; [|discriminate]. destruct (find_In _ _ _ Ef) as [Hin _].
    destruct (a <? 0); [discriminate|].
    apply rbind_ok in H as (m' & (sd & T & ->)%rec_in_eq & H).
    apply rbind_ok in H as (m'' & (sd' & T' & -> & _)%rec_out_eq & [= <-]).
    rewrite (token_side_shape _ _ _ (shift_bal_shape m sd a)), T in T'. injection T' as <-.
    rewrite shift_bal_back. apply (winv_upd w id m); auto. intro T0. specialize (Hv T0). lia.
  - (* Move: first the giving market, then the receiving one *)
    destruct (find (w_markets w) from) as [mf|] eqn:Ef; [|discriminate].
    destruct (find (w_markets w) to) as [mt|] eqn:Et; [|discriminate].
    destruct (find_In _ _ _ Ef) as [Hinf Hidf]. destruct (find_In _ _ _ Et) as [Hint _].
    destruct ((a <? 0) || (from =? to)) eqn:Ea; [discriminate|].
    apply Bool.orb_false_iff in Ea as [Ea%Z.ltb_ge Ene%Z.eqb_neq].
    apply rbind_ok in H as (mf' & (sd & T & -> & B)%rec_out_eq & H). apply rbind_ok in H as ([] & V & H).
    apply rbind_ok in H as (mt' & (sd' & T' & ->)%rec_in_eq & [= <-]).
    pose proof (proj1 (shift_bal_shape mf sd (- a))) as If.
    assert (Ef' : find (w_markets w) (m_id (shift_bal mf sd (- a))) = Some mf) by now rewrite If, Hidf.
    apply (winv_upd (mkWorld (upd (w_markets w) (shift_bal mf sd (- a))) (w_vaults w)) to mt); cbn [w_markets w_vaults].
    + apply (winv_upd w from mf); auto; [eapply mok_moved_out; eauto|].
      intro T0. rewrite (shift_bal_of mf tok sd _ T0 T). specialize (Hv T0). destruct (T0 =? tok); lia.
    + rewrite find_upd_other; [exact Et|congruence].
    + apply shift_bal_shape.
    + apply mok_shift_up; auto.
    + intro T0. rewrite (total_upd _ _ _ _ Ef'), (shift_bal_of mf tok sd _ T0 T), (shift_bal_of mt tok sd' _ T0 T').
      specialize (Hv T0). destruct (T0 =? tok); lia.
  - (* Donate *)
    destruct (a <? 0) eqn:Ea; [discriminate|]. apply Z.ltb_ge in Ea. injection H as <-.
    split; [exact Hm|]. intro T. cbn. rewrite vault_shift. specialize (Hv T). destruct (T =? tok); lia.
  - (* Operate *)
    destruct (find (w_markets w) id) as [m|] eqn:Ef; [|discriminate]. destruct (find_In _ _ _ Ef) as [Hin _].
    destruct ((out_l <? 0) || (out_s <? 0)) eqn:Eo; [discriminate|].
    apply Bool.orb_false_iff in Eo as [Eo1%Z.ltb_ge Eo2%Z.ltb_ge].
    set (m1 := with_pools m liq imp fee cl cs) in *.
    apply rbind_ok in H as ([] & V & H). apply rbind_ok in H as (m2 & R1 & H). apply rbind_ok in H as (m3 & R2 & H).
    apply rbind_ok in H as (w1 & ->%pay_out_eq & ->%pay_out_eq). cbn [w_markets w_vaults].
    destruct (Hm m Hin) as (_ & _ & Bl & Bs).
    destruct (validated_then_paid m1 out_l out_s m2 m3) as (M3 & S13); auto.
    apply rec_out_eq in R1 as (s1 & T1 & -> & _). apply rec_out_eq in R2 as (s2 & T2 & -> & _).
    apply (winv_upd w id m); auto; [exact (proj1 S13)|].
    intro T. rewrite (shift_bal_of _ _ _ _ T T2), (shift_bal_of _ _ _ _ T T1), !vault_shift.
    destruct (shift_bal_shape m1 s1 (- out_l)) as (_ & _ & -> & _).
    change (bal_of m1 T) with (bal_of m T). cbn [m1 m_long m_short with_pools]. specialize (Hv T). lia.
  - (* ClaimFees *)
    destruct (find (w_markets w) id) as [m|] eqn:Ef; [|discriminate]. destruct (find_In _ _ _ Ef) as [Hin _].
    destruct (token_side m tok) as [sd|] eqn:Et; [|discriminate].
    set (a1 := Z.min (amt (pure m) (m_fee m) sd) U64_MAX) in *.
    set (a2 := if pure m then Z.min (amt (pure m) (m_fee m) (negb sd)) U64_MAX else 0) in *.
    destruct (U64_MAX <? a1 + a2); [discriminate|].
    set (fee' := if pure m then mkPool _ _ else _) in *. set (m1 := with_pools _ _ _ _ _ _) in *.
    apply rbind_ok in H as ([] & V & H). apply rbind_ok in H as (m2 & (sd' & T' & -> & B)%rec_out_eq & ->%pay_out_eq).
    change (token_side m tok = Some sd') in T'. rewrite Et in T'. injection T' as <-.
    pose proof (Hm m Hin) as M. pose proof M as ((_ & _ & Pf & _) & _).
    destruct (claimed_within_fees (pure m) sd (m_fee m) Pf) as (Ha & Pf' & Fl & Fs). fold a1 a2 fee' in Ha, Pf', Fl, Fs.
    apply (winv_upd w id m); auto; [exact (proj1 (shift_bal_shape _ sd _))|apply (mok_claimed m tok); auto|].
    intro T. rewrite (shift_bal_of m1 tok sd _ T Et), vault_shift. change (bal_of m1 T) with (bal_of m T).
    specialize (Hv T). cbn [w_vaults]. lia.
Qed.

Lemma run_winv ops w : winv w -> Forall op_wf ops -> winv (run ops w).
Proof.
  intros W Hf. unfold run. apply fold_left_inv; [|exact W]. intros w1 o Hin W1. unfold apply.
  destruct (step w1 o) eqn:E; [|exact W1]. eapply step_winv; eauto. exact (proj1 (Forall_forall _ _) Hf o Hin).
Qed.

Lemma winv_fresh (l : list (Z * Z * Z)) :
  winv (mkWorld (map (fun x => fresh (fst (fst x)) (snd (fst x)) (snd x)) l) []).
Proof.
  split; cbn [w_markets w_vaults].
  - intros m Hin. apply in_map_iff in Hin as (x & <- & _).
    unfold mok, pools_nonneg, pool_nonneg, covers, covers_side, fresh. cbn.
    destruct (pure _); repeat split; lia.
  - intro T. cbn. induction l; cbn; [lia|]. unfold bal_of at 1. cbn.
    destruct (T =? _); [lia|]. destruct (T =? _); lia.
Qed.
