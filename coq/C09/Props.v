(* C09 — Positions are left healthy, and only unhealthy ones can be liquidated.  Statements only.
   check_liquidatable p m pr validate_min_collateral for_liquidation : None = not liquidatable.
   Hypotheses: [1 <= w], [0 < unit]; positions handed to decrease / liquidate are open with non-negative
   collateral (C07's invariant); [0 <= min_collateral_factor] (unsigned) and
   [liq_factor_le] = the liquidation factor, when configured, does not exceed the validation factor. *)
From GV Require Import lib.Base C01.Model PS.Model PS.Actions PS.Hist C07.Inv C07.Props C09.Proofs C09.World C09.Corr.
Open Scope Z_scope.

(* 1. a successful increase never leaves the position liquidatable at the execution prices *)
Theorem c09_increase_not_liquidatable : forall w, 1 <= w -> forall unit, 0 < unit ->
  forall p m pr ci sd acc p1 m' rep,
  0 <= pp_min_cf (c_pos (m_cfg m)) -> liq_factor_le (c_pos (m_cfg m)) ->
  increase w unit p m pr ci sd acc = Ok (p1, m', rep) ->
  check_liquidatable w unit p1 m' pr true false = Ok None /\
  check_liquidatable w unit p1 m' pr true true = Ok None.
Proof. intros w Hw unit Hu. exact (increase_not_liquidatable w Hw unit Hu). Qed.

(* 2. a decrease that leaves the position open leaves it validated (factor-based reasons excluded);
      under the liquidation thresholds the only reason that can remain is MinCollateral — the known
      class MinCollateralAfterPartialDecrease *)
Theorem c09_decrease_open_health : forall w, 1 <= w -> forall unit, 0 < unit ->
  forall p m pr sd0 acc cw fl p1 m' rep,
  0 < size_usd p -> 0 < size_tok p -> 0 <= coll p ->
  0 <= pp_min_cf (c_pos (m_cfg m)) -> liq_factor_le (c_pos (m_cfg m)) ->
  decrease w unit p m pr sd0 acc cw fl = Ok (p1, m', rep) -> dr_remove rep = false ->
  check_liquidatable w unit p1 m' pr false false = Ok None /\
  (check_liquidatable w unit p1 m' pr true true = Ok None \/
   check_liquidatable w unit p1 m' pr true true = Ok (Some R_MIN_COLLATERAL)).
Proof. intros w Hw unit Hu. exact (decrease_open_health w Hw unit Hu). Qed.

(* 3. a liquidation order succeeds only on a position that is liquidatable under the liquidation
      thresholds, and always closes the whole position *)
Theorem c09_liquidation_gate : forall w, 1 <= w -> forall unit p m pr sd acc cw p1 m' rep,
  0 < size_usd p -> 0 < size_tok p -> 0 <= coll p ->
  liquidate w unit p m pr sd acc cw = Ok (p1, m', rep) ->
  (exists reason, check_liquidatable w unit p m pr true true = Ok (Some reason)) /\
  dr_remove rep = true /\ dr_size_delta rep = size_usd p /\ sd = size_usd p /\
  size_usd p1 = 0 /\ size_tok p1 = 0 /\ coll p1 = 0.
Proof. intros w Hw unit. exact (liquidation_gate w Hw unit). Qed.

(* 4. an ADL order succeeds only if the pnl factor exceeded the ADL limit, strictly lowers it and
      does not push it below the configured minimum *)
Theorem c09_adl_gate : forall w unit p m pr sd acc cw p1 m' rep before after,
  auto_deleverage w unit p m pr sd acc cw = Ok (p1, m', rep, before, after) ->
  pnl_factor_exceeded_adl w unit m pr (is_long p) = Ok (Some before) /\
  0 < before /\ c_max_pnl_adl (m_cfg m) < before /\
  decrease w unit p m pr sd acc cw (MkFlags true false false) = Ok (p1, m', rep) /\
  pnl_factor w unit m' pr (is_long p) = Ok after /\
  after < before /\ c_min_pnl_after_adl (m_cfg m') <= after.
Proof. intros w unit. exact (adl_gate w unit). Qed.

(* 5. monotonicity behind 1 and 2: a weaker factor / no minimum can only make the check pass *)
Theorem c09_check_collateral_weaker : forall w, 1 <= w -> forall unit, 0 < unit -> forall size cf1 cf2 mcv cv,
  0 <= size -> 0 <= cf2 <= cf1 ->
  check_collateral w unit size cf1 mcv false cv = Ok 0 -> check_collateral w unit size cf2 mcv false cv = Ok 0.
Proof. intros w Hw unit Hu. exact (check_collateral_weaker w Hw unit Hu). Qed.

(* 6. the same at the level of histories: from any world satisfying C07's invariant (in particular the empty
      market, c07_init), every operation of every history obeys its gate (World.gate_holds: increase => not
      liquidatable; decrease / ADL leaving the position open => validated, at worst MinCollateral under the
      liquidation thresholds; liquidation => was liquidatable and closes everything; ADL => pnl factor was above
      the limit, strictly decreases, stays above the configured minimum).  The invariant replaces the
      hypotheses "open position, collateral >= 0" of theorems 2 and 3.  In c09_gate_history the equation
      [ops = pre ++ o :: post] only says where [o] stands in the history; the proof does not use it. *)
Theorem c09_gate_step : forall w, 1 <= w -> forall unit, 0 < unit -> forall cfg,
  0 <= pp_min_cf (c_pos cfg) -> liq_factor_le (c_pos cfg) ->
  forall wd o, world_inv wd -> gate_holds w unit cfg wd o.
Proof. intros w Hw unit Hu cfg Hcf Hle. exact (gate_step w Hw unit Hu cfg Hcf Hle). Qed.

Theorem c09_gate_history : forall w, 1 <= w -> forall unit, 0 < unit -> forall cfg,
  0 <= pp_min_cf (c_pos cfg) -> liq_factor_le (c_pos cfg) ->
  forall ops wd, world_inv wd -> forall pre o post, ops = pre ++ o :: post ->
  gate_holds w unit cfg (run w unit cfg wd pre) o.
Proof. intros w Hw unit Hu cfg Hcf Hle ops wd Inv pre o post _. exact (gate_history w Hw unit Hu cfg Hcf Hle wd pre o Inv). Qed.

(* Known finding MinCollateralAfterPartialDecrease: the literal "a decrease that leaves the position open never
   leaves it liquidatable" is false.  Witness = the crate's own test scenario (u64/9, test configuration):
   long 80000000000 usd opened with collateral 100000000 at price 123, then decrease by 40000000000 with a
   collateral withdrawal of 91100000 at the same price: the position stays open with collateral 8282101 and
   check_liquidatable(.., true, true) = Some MinCollateral.  Replayed on the real code by the driver. *)
Definition decrease_open_never_liquidatable (w unit : Z) (p : position) (m : market) (pr : prices) (sd : Z) (acc : option Z) (cw : Z) (fl : dec_flags) : Prop :=
  forall p1 m' rep, decrease w unit p m pr sd acc cw fl = Ok (p1, m', rep) -> dr_remove rep = false ->
    check_liquidatable w unit p1 m' pr true true = Ok None.

Definition wit_world := step 64 (10 ^ 9) ex_cfg (ex_s0, ex_ps0) (OpInc 0 pr123 100000000 80000000000 None).
Definition wit_p := get_pos (snd wit_world) 0.
Definition wit_m := mk_market ex_cfg (fst wit_world).

(* the witness state as a value: the proofs below compute on it, not through [step] *)
Definition wit_val := Eval vm_compute in (wit_p, wit_m).
Lemma wit_val_eq : (wit_p, wit_m) = wit_val.
Proof. vm_compute. reflexivity. Qed.
(* for variables: with [wit_p] for [a], checking [a = fst (a, b)] would evaluate [wit_p] again *)
Lemma pair_eq_proj {A B} (a : A) (b : B) v : (a, b) = v -> a = fst v /\ b = snd v.
Proof. intros <-. split; reflexivity. Qed.
Lemma wit_p_eq : wit_p = fst wit_val. Proof. exact (proj1 (pair_eq_proj _ _ _ wit_val_eq)). Qed.
Lemma wit_m_eq : wit_m = snd wit_val. Proof. exact (proj2 (pair_eq_proj _ _ _ wit_val_eq)). Qed.

Definition wit_out := Eval vm_compute in
  (decrease 64 (10 ^ 9) wit_p wit_m pr123 40000000000 None 91100000 (MkFlags false false false)).
Lemma wit_out_eq :
  decrease 64 (10 ^ 9) wit_p wit_m pr123 40000000000 None 91100000 (MkFlags false false false) = wit_out.
Proof. rewrite wit_p_eq, wit_m_eq. vm_compute. reflexivity. Qed.

Theorem c09_min_collateral_after_partial_decrease_refuted :
  0 < size_usd wit_p /\ 0 < size_tok wit_p /\ 0 <= coll wit_p /\
  0 <= pp_min_cf (c_pos (m_cfg wit_m)) /\ liq_factor_le (c_pos (m_cfg wit_m)) /\
  ~ decrease_open_never_liquidatable 64 (10 ^ 9) wit_p wit_m pr123 40000000000 None 91100000 (MkFlags false false false).
Proof.
  split; [rewrite wit_p_eq; reflexivity|]. split; [rewrite wit_p_eq; reflexivity|]. split; [rewrite wit_p_eq; discriminate|].
  split; [discriminate|]. split; [exact I|].
  intros H. unfold decrease_open_never_liquidatable in H. rewrite wit_out_eq in H. unfold wit_out in H.
  specialize (H _ _ _ eq_refl eq_refl). vm_compute in H. discriminate.
Qed.

(* non-vacuity *)
Example c09_ex_position : size_usd wit_p = 80000000000 /\ coll wit_p = 99544716.
Proof. rewrite wit_p_eq. split; reflexivity. Qed.
Example c09_ex_healthy_after_increase : check_liquidatable 64 (10 ^ 9) wit_p wit_m pr123 true true = Ok None.
Proof. rewrite wit_p_eq, wit_m_eq. vm_compute. reflexivity. Qed.
Example c09_ex_not_liquidatable_rejected :
  liquidate 64 (10 ^ 9) wit_p wit_m pr123 80000000000 None 0 = Err E_NOTLIQ.
Proof. rewrite wit_p_eq, wit_m_eq. vm_compute. reflexivity. Qed.
Example c09_ex_liquidation :
  let pr := MkPrices (MkPrice 106 106) (MkPrice 106 106) (MkPrice 1 1) in
  match liquidate 64 (10 ^ 9) wit_p wit_m pr 80000000000 None 0 with
  | Ok (p1, _, rep) => size_usd p1 = 0 /\ dr_remove rep = true
  | Err _ => False end.
Proof. rewrite wit_p_eq, wit_m_eq. vm_compute. split; reflexivity. Qed.
