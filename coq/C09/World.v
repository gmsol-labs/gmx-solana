(* C09 — the gates at the level of worlds (market + list of positions): in any world satisfying C07's
   invariant, every operation of a history that succeeds obeys the health / liquidation / ADL gate.
   The invariant supplies what the action-level theorems assume about the position (open, collateral >= 0). *)
From GV Require Import C07.Proofs C07.Corr C07.Inv C09.Proofs.
Open Scope Z_scope.

Section P.
  Variable w : Z.
  Hypothesis Hw : 1 <= w.
  Variable unit : Z.
  Hypothesis Hunit : 0 < unit.
  Variable cfg : config.
  Hypothesis Hcf : 0 <= pp_min_cf (c_pos cfg).
  Hypothesis Hle : liq_factor_le (c_pos cfg).

  (* what the gates promise for one operation executed by the model in world [wd] *)
  Definition gate_holds (wd : world) (o : op) : Prop :=
    let m := mk_market cfg (fst wd) in
    let ps := snd wd in
    match o with
    | OpFees _ => True
    | OpInc i pr ci sd acc => forall p1 m' rep,
        increase w unit (get_pos ps i) m pr ci sd acc = Ok (p1, m', rep) ->
        check_liquidatable w unit p1 m' pr true true = Ok None
    | OpDec i pr sd acc wd' fl => forall p1 m' rep,
        decrease w unit (get_pos ps i) m pr sd acc wd' fl = Ok (p1, m', rep) ->
        dr_remove rep = true \/
        (check_liquidatable w unit p1 m' pr false false = Ok None /\
         (check_liquidatable w unit p1 m' pr true true = Ok None \/
          check_liquidatable w unit p1 m' pr true true = Ok (Some R_MIN_COLLATERAL)))
    | OpLiq i pr sd acc wd' => forall p1 m' rep,
        liquidate w unit (get_pos ps i) m pr sd acc wd' = Ok (p1, m', rep) ->
        (exists reason, check_liquidatable w unit (get_pos ps i) m pr true true = Ok (Some reason)) /\
        dr_remove rep = true /\ dr_size_delta rep = size_usd (get_pos ps i) /\
        size_usd p1 = 0 /\ size_tok p1 = 0 /\ coll p1 = 0
    | OpAdl i pr sd acc wd' => forall p1 m' rep before after,
        auto_deleverage w unit (get_pos ps i) m pr sd acc wd' = Ok (p1, m', rep, before, after) ->
        pnl_factor_exceeded_adl w unit m pr (is_long (get_pos ps i)) = Ok (Some before) /\
        0 < before /\ c_max_pnl_adl cfg < before /\
        pnl_factor w unit m' pr (is_long (get_pos ps i)) = Ok after /\
        after < before /\ c_min_pnl_after_adl cfg <= after /\
        (dr_remove rep = true \/
         (check_liquidatable w unit p1 m' pr false false = Ok None /\
          (check_liquidatable w unit p1 m' pr true true = Ok None \/
           check_liquidatable w unit p1 m' pr true true = Ok (Some R_MIN_COLLATERAL))))
    end.

  Lemma decrease_gate p m pr sd acc cw fl p1 m' rep :
    m_cfg m = cfg -> pos_shape p ->
    decrease w unit p m pr sd acc cw fl = Ok (p1, m', rep) ->
    dr_remove rep = true \/
    (check_liquidatable w unit p1 m' pr false false = Ok None /\
     (check_liquidatable w unit p1 m' pr true true = Ok None \/
      check_liquidatable w unit p1 m' pr true true = Ok (Some R_MIN_COLLATERAL))).
  Proof.
    intros Ec Sh H. destruct (open_of_decrease w Hw unit _ _ _ _ _ _ _ _ Sh H) as (HS & HT & HC).
    destruct (dr_remove rep) eqn:Er; [left; reflexivity|right].
    assert (A : 0 <= pp_min_cf (c_pos (m_cfg m))) by (rewrite Ec; exact Hcf).
    assert (B : liq_factor_le (c_pos (m_cfg m))) by (rewrite Ec; exact Hle).
    exact (decrease_open_health w Hw unit Hunit _ _ _ _ _ _ _ _ _ _ HS HT HC A B H Er).
  Qed.

  Theorem gate_step wd o : world_inv wd -> gate_holds wd o.
  Proof.
    destruct wd as [s ps]. intros Inv. pose proof (fun i => get_pos_shape ps i (proj2 Inv)) as Sh.
    assert (Ec : m_cfg (mk_market cfg s) = cfg) by reflexivity.
    destruct o as [s'|i pr ci sd acc|i pr sd acc wd' fl|i pr sd acc wd'|i pr sd acc wd']; cbn [gate_holds fst snd].
    - exact I.
    - intros p1 m' rep H.
      exact (proj2 (increase_not_liquidatable w Hw unit Hunit _ (mk_market cfg s) _ _ _ _ _ _ _ Hcf Hle H)).
    - intros p1 m' rep H. exact (decrease_gate _ _ _ _ _ _ _ _ _ _ Ec (Sh i) H).
    - intros p1 m' rep H.
      destruct (open_of_decrease w Hw unit _ _ _ _ _ _ _ _ (Sh i) (proj2 (liquidate_decrease w unit _ _ _ _ _ _ _ H))) as (HS & HT & HC).
      destruct (liquidation_gate w Hw unit _ _ _ _ _ _ _ _ _ HS HT HC H) as (A & B & C & _ & D).
      exact (conj A (conj B (conj C D))).
    - intros p1 m' rep before after H.
      destruct (adl_gate w unit _ _ _ _ _ _ _ _ _ _ _ H) as (A & B & C & D & E & F & G).
      pose proof (decrease_gate _ _ _ _ _ _ _ _ _ _ Ec (Sh i) D) as Hg.
      destruct (open_of_decrease w Hw unit _ _ _ _ _ _ _ _ (Sh i) D) as (HS & HT & HC).
      destruct (decrease_spec w Hw unit _ _ _ _ _ _ _ _ _ _ HS HT HC D) as (_ & _ & _ & _ & _ & _ & _ & _ & Cfg & _).
      rewrite Cfg in G. cbn [m_cfg mk_market] in C, G.
      repeat split; assumption.
  Qed.

  (* along every history from a world satisfying the invariant, every operation obeys its gate *)
  Theorem gate_history wd pre o : world_inv wd -> gate_holds (run w unit cfg wd pre) o.
  Proof. intros Inv. apply gate_step. exact (history_inv w Hw unit cfg wd pre Inv). Qed.
End P.
