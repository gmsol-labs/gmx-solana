(* C45 — GLV.  Member markets share the GLV's tokens over every management history; a deposit leaves the market's
   balance within the configured limits; depositing and at once withdrawing the minted GLV tokens gains nothing. *)
From GV Require Import lib.Base C45.Model C45.Proofs.
Open Scope Z_scope.

(* Every market in a GLV has the GLV's long and short tokens.
   For any initial market list accepted by initialize_glv and any history of insert / remove / config / balance
   operations: market tokens are listed once, the GLV's tokens never change, and every account that can be shown
   for a member market token carries the GLV's long and short token (accounts shown for one market token agree on
   its tokens: Market.meta is immutable). *)
Theorem c45_markets_share_glv_tokens : forall init ops g0,
  glv_init init = Ok g0 -> consistent (rev (inserted ops) ++ init) ->
  let g := grun g0 ops in
  NoDup (map c_mt (g_markets g)) /\
  forall c a, In c (g_markets g) -> In a (rev (inserted ops) ++ init) -> ma_mt a = c_mt c ->
              ma_long a = g_long g /\ ma_short a = g_short g.
Proof.
  intros init ops g0 I%glv_init_inv Hc g.
  destruct (grun_inv ops init g0 I) as ((H1 & H2) & L & S). split; auto.
  intros c a Hin Ha Hmt. destruct (H1 c Hin) as (b & Hb & E1 & E2 & E3).
  destruct (Hc a b Ha Hb) as [X Y]; [congruence|]. fold g in E2, E3. split; congruence.
Qed.

Theorem c45_glv_tokens_fixed : forall ops accts g,
  ginv accts g -> g_long (grun g ops) = g_long g /\ g_short (grun g ops) = g_short g.
Proof. intros. destruct (grun_inv ops accts g H) as (_ & L & S). auto. Qed.

Theorem c45_validate_balance_sound : forall c nb pv supply,
  0 <= c_max_amount c -> 0 <= c_max_value c -> 0 <= nb -> 0 <= supply ->
  validate_balance c nb pv supply = Ok tt ->
  (c_max_amount c = 0 \/ nb <= c_max_amount c) /\
  (c_max_value c = 0 \/ (0 <= pv /\ supply <> 0 /\ pv * nb / supply <= c_max_value c)).
Proof. exact validate_balance_ok. Qed.

(* after a successful GLV deposit the market's balance in the GLV is the old balance plus the deposit, and it is
   within the configured maximum amount and (at the maximised pool value) the configured maximum value;
   0 means "not configured" *)
Theorem c45_deposit_respects_limits : forall c ms mt amount S d g nb m,
  0 <= c_max_amount c -> 0 <= c_max_value c -> 0 <= c_balance c -> 0 <= amount -> 0 <= pm_supply m ->
  find_pm ms mt = Some m ->
  glv_deposit_price c ms mt amount S d = Ok (g, nb) ->
  nb = c_balance c + amount /\ nb <= U64_MAX /\
  (c_max_amount c = 0 \/ nb <= c_max_amount c) /\
  (c_max_value c = 0 \/ (0 <= pm_pv_max m /\ pm_supply m <> 0 /\ pm_pv_max m * nb / pm_supply m <= c_max_value c)).
Proof.
  intros c ms mt amount S d g nb m Ha Hv Hb Hamt Hs Hf (-> & Hn & Ev & _)%(glv_deposit_price_ok _ _ _ _ _ _ _ _ m Hf).
  split; [reflexivity|]. split; [exact Hn|]. apply validate_balance_ok in Ev; auto; lia.
Qed.

(* Deposit at the maximised value, withdrawal at the minimised value: no round-trip gain.
   For every GLV composition, balances, supplies and pool values with min <= max per market, a positive GLV supply,
   and a target market whose deposit-side minimised pool value does not exceed its withdrawal-side maximised pool
   value: depositing [amount] market tokens and immediately withdrawing the GLV tokens just minted returns at most
   [amount] market tokens. *)
Theorem c45_round_trip_no_gain : forall c c' ms mt amount S pv_wd_max d g nb back m,
  Forall pm_ok ms -> find_pm ms mt = Some m -> pm_pv_min m <= pv_wd_max ->
  0 < S -> 0 < d -> 0 <= amount ->
  glv_deposit_price c ms mt amount S d = Ok (g, nb) ->
  glv_withdraw_price c' (add_balance ms mt amount) mt g (S + g) pv_wd_max d = Ok back ->
  back <= amount.
Proof. exact round_trip_no_gain. Qed.

(* the minimised GLV value never exceeds the maximised one *)
Theorem c45_min_value_le_max_value : forall ms vmin vmax,
  Forall pm_ok ms -> glv_value false ms = Ok vmin -> glv_value true ms = Ok vmax -> vmin <= vmax.
Proof.
  intros ms vmin vmax Hok H1 H2. unfold glv_value in *.
  apply glv_value_acc_val in H1, H2; auto. pose proof (sum_val_min_le_max ms Hok). lia.
Qed.

(* known finding, class 1: the hypothesis pm_pv_min m <= pv_wd_max is necessary *)
Lemma c45_class1_refuted :
  exists c ms mt amount S pv_wd_max d m g nb back,
    Forall pm_ok ms /\ find_pm ms mt = Some m /\ pv_wd_max < pm_pv_min m /\ 0 < S /\ 0 < d /\
    glv_deposit_price c ms mt amount S d = Ok (g, nb) /\
    glv_withdraw_price (mkC mt 0 0 nb false) (add_balance ms mt amount) mt g (S + g) pv_wd_max d = Ok back /\
    amount < back.
Proof.
  exists (mkC 0 0 0 1000 false), [mkPM 0 1000 10000 700 700], 0, 100, 1000, 500, 1,
         (mkPM 0 1000 10000 700 700), 100, 1100, 140.
  split; [repeat constructor; cbn; lia|]. vm_compute. repeat split; auto.
Qed.

(* non-vacuity *)
Example c45_round_trip_demo :
  let ms := [mkPM 0 5000 100000 70000 70500; mkPM 1 2500 40000 91000 92000] in
  glv_deposit_price (mkC 1 4000 0 2500 false) ms 1 1000 7000 1 = Ok (1716, 3500) /\
  glv_withdraw_price (mkC 1 4000 0 3500 false) (add_balance ms 1 1000) 1 1716 (7000 + 1716) 92000 1 = Ok 980.
Proof. vm_compute. split; reflexivity. Qed.

Example c45_composition_demo :
  match glv_init [mkM 0 10 11 true true; mkM 1 10 11 true true] with
  | Ok g0 =>
      let g := grun g0 [GInsert (mkM 2 10 11 true true); GInsert (mkM 3 11 10 true true);
                        GInsert (mkM 4 10 12 true true); GRemove 0; GConfig 1 (Some 5) None] in
      map c_mt (g_markets g) = [1; 2] /\ g_long g = 10 /\ g_short g = 11
  | Err _ => False
  end.
Proof. vm_compute. repeat split. Qed.
