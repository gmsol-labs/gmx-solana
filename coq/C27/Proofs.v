(* C27 — proofs: the saturating-arithmetic implementation equals the unbounded-Z specification. *)
From GV Require Import lib.Base lib.DivLemmas C27.Model.
Open Scope Z_scope.

Lemma fresh_core now ts timeout secs :
  - 2 ^ 63 <= now < 2 ^ 63 -> - 2 ^ 63 <= ts < 2 ^ 63 -> 0 <= timeout < 2 ^ 32 -> 0 <= secs < 2 ^ 32 ->
  (if timeout <? sat_sub64 now ts then false else secs <=? sat_sub64 timeout (sat_sub64 now ts))
  = (now - ts + secs <=? timeout).
Proof.
  intros Hn Ht Hto Hs. unfold sat_sub64.
  destruct (timeout <? _) eqn:E1.
  - symmetry. apply Z.leb_gt. lia.
  - destruct (secs <=? _) eqn:E2; symmetry; [apply Z.leb_le|apply Z.leb_gt]; lia.
Qed.

(* the saturating cases really occur and are decided as the comments in the code claim *)
Lemma sat_overflow_closed now ts timeout secs :
  - 2 ^ 63 <= now < 2 ^ 63 -> - 2 ^ 63 <= ts < 2 ^ 63 -> 0 <= timeout < 2 ^ 32 -> 0 <= secs < 2 ^ 32 ->
  2 ^ 63 <= now - ts -> (now - ts + secs <=? timeout) = false.
Proof. intros. apply Z.leb_gt. lia. Qed.
Lemma sat_underflow_open now ts timeout secs :
  - 2 ^ 63 <= now < 2 ^ 63 -> - 2 ^ 63 <= ts < 2 ^ 63 -> 0 <= timeout < 2 ^ 32 -> 0 <= secs < 2 ^ 32 ->
  now - ts < - 2 ^ 63 -> (now - ts + secs <=? timeout) = true.
Proof. intros. apply Z.leb_le. lia. Qed.

Lemma u32_div_ceil_spec a : 0 <= a ->
  let s := u32_div_ceil a NANOS in 0 <= s /\ (s - 1) * NANOS < a <= s * NANOS.
Proof. intros Ha. unfold u32_div_ceil, NANOS. cbv zeta. destruct (0 <? _) eqn:E; lia. Qed.

Lemma u32_div_ceil_le5 a : 0 <= a < 2 ^ 32 -> 0 <= u32_div_ceil a NANOS <= 5.
Proof. intros Ha. unfold u32_div_ceil, NANOS. destruct (0 <? _) eqn:E; lia. Qed.

(* seconds by which the underlying last update precedes the report (rounded up in nanosecond mode) *)
Definition lud_secs_spec (pflags lud : Z) : Z :=
  if flag pflags 2 then lud else u32_div_ceil lud NANOS.

Lemma lud_secs_spec_range pflags lud : 0 <= lud < 2 ^ 32 -> 0 <= lud_secs_spec pflags lud < 2 ^ 32.
Proof. intros H. unfold lud_secs_spec. destruct (flag pflags 2); [lia|]. pose proof (u32_div_ceil_le5 lud H). lia. Qed.

Lemma last_update_diff_secs_eq pflags lud :
  last_update_diff_secs pflags lud = if flag pflags 1 then Some (lud_secs_spec pflags lud) else None.
Proof. unfold last_update_diff_secs, lud_secs_spec. destruct (flag pflags 1), (flag pflags 2); reflexivity. Qed.

Definition closed_spec (raw policy : Z) : Prop :=
  (raw = 1 /\ flag policy 0 = false) \/ (raw = 2 /\ flag policy 1 = false) \/
  (raw = 3 /\ flag policy 2 = true) \/ (raw = 4 /\ flag policy 3 = false) \/
  (raw = 5 /\ flag policy 4 = false) \/ (raw = 6 /\ flag policy 5 = false).

(* a raw byte outside 0..6 is Disabled; each status in 1..6 consults exactly one policy flag *)
Lemma market_status_cases raw :
  (market_status raw = 0 /\ ~ (1 <= raw <= 6)) \/
  (market_status raw = raw /\ (raw = 1 \/ raw = 2 \/ raw = 3 \/ raw = 4 \/ raw = 5 \/ raw = 6)).
Proof.
  unfold market_status. destruct ((0 <=? raw) && (raw <=? 6)) eqn:R; [|left; lia].
  destruct (Z.eq_dec raw 0) as [->|]; [left; lia|right; lia].
Qed.

Lemma openness_closed raw policy :
  openness (market_status raw) policy = 1 <-> closed_spec raw policy.
Proof.
  unfold closed_spec. destruct (market_status_cases raw) as [[-> N]|[-> C]]; [cbn; lia|].
  destruct C as [->|[->|[->|[->|[->| ->]]]]]; unfold openness, open_if; cbn [Z.eqb Pos.eqb];
    match goal with |- context [flag policy ?i] => destruct (flag policy i) end; cbn [negb]; lia.
Qed.

Lemma openness_skip raw policy :
  openness (market_status raw) policy = 2 <-> ~ (1 <= raw <= 6).
Proof.
  destruct (market_status_cases raw) as [[-> N]|[-> C]]; [cbn; lia|].
  destruct C as [->|[->|[->|[->|[->| ->]]]]]; unfold openness, open_if; cbn [Z.eqb Pos.eqb];
    match goal with |- context [flag policy ?i] => destruct (flag policy i) end; cbn [negb]; lia.
Qed.

Lemma openness_range raw policy : 0 <= openness (market_status raw) policy <= 2.
Proof.
  unfold openness, open_if.
  repeat match goal with |- context [if ?c then _ else _] => destruct c end; lia.
Qed.

(* specification on unbounded integers: no saturation anywhere *)
Definition open_spec (raw pflags lud ts now timeout policy : Z) : bool :=
  negb (openness (market_status raw) policy =? 1) && flag pflags 0 &&
  (negb (flag pflags 1) || (now - (ts - lud_secs_spec pflags lud) <=? timeout)).

Theorem is_market_open_eq raw pflags lud ts now timeout policy :
  - 2 ^ 63 <= now < 2 ^ 63 -> - 2 ^ 63 <= ts < 2 ^ 63 -> 0 <= timeout < 2 ^ 32 -> 0 <= lud < 2 ^ 32 ->
  is_market_open raw pflags lud ts now timeout policy = open_spec raw pflags lud ts now timeout policy.
Proof.
  intros Hn Ht Hto Hl. unfold is_market_open, open_spec.
  destruct (openness (market_status raw) policy =? 1); [reflexivity|]. cbn [negb andb].
  destruct (flag pflags 0); [|reflexivity]. cbn [negb andb].
  rewrite last_update_diff_secs_eq. destruct (flag pflags 1); [|reflexivity]. cbn [negb orb].
  pose proof (lud_secs_spec_range pflags lud Hl).
  cbv zeta. rewrite (fresh_core now ts timeout (lud_secs_spec pflags lud)) by assumption.
  f_equal. lia.
Qed.

Theorem is_market_open_iff raw pflags lud ts now timeout policy :
  - 2 ^ 63 <= now < 2 ^ 63 -> - 2 ^ 63 <= ts < 2 ^ 63 -> 0 <= timeout < 2 ^ 32 -> 0 <= lud < 2 ^ 32 ->
  is_market_open raw pflags lud ts now timeout policy = true <->
  ~ closed_spec raw policy /\ flag pflags 0 = true /\
  (flag pflags 1 = true ->
     now - ts <= timeout /\ now - (ts - lud_secs_spec pflags lud) <= timeout).
Proof.
  intros Hn Ht Hto Hl. rewrite is_market_open_eq by assumption. unfold open_spec.
  pose proof (lud_secs_spec_range pflags lud Hl).
  rewrite <- openness_closed.
  destruct (openness (market_status raw) policy =? 1) eqn:C.
  - cbn. split; [discriminate|]. intros [HH _]. exfalso. apply HH. lia.
  - cbn [negb andb]. destruct (flag pflags 0); cbn [andb]; [|split; [discriminate|intros (_ & ? & _); discriminate]].
    destruct (flag pflags 1); cbn [negb orb].
    + rewrite Z.leb_le. split.
      * intros H1. split; [lia|]. split; [reflexivity|]. intros _. lia.
      * intros (_ & _ & H1). specialize (H1 eq_refl). lia.
    + split; [|reflexivity]. intros _. split; [lia|]. split; [reflexivity|discriminate].
Qed.
