(* C35 — stored names read back exactly as they were accepted (fixed_str_to_bytes rejects
   bytes.len() >= MAX_LEN and names containing NUL).
   A Rust `&str` is a byte list with [utf8_valid s = true]; [m] is the field width MAX_LEN. *)
From stdpp Require Import gmap.
From GV Require lib.Base C35.Model C35.Proofs C18.Model C18.Proofs.
Import GV.lib.Base(res, Ok, Err, rbind, of_opt).
Import GV.C35.Model GV.C35.Proofs GV.C18.Model GV.C18.Proofs.
Open Scope Z_scope.

(* THE PROPERTY: every accepted name reads back unchanged — all widths, all UTF-8 strings *)
Theorem c35_accepted_roundtrip : forall m s b, utf8_valid s = true ->
  str_to_bytes m s = Ok b -> bytes_to_str b = Ok s.
Proof. exact accepted_roundtrip. Qed.

(* creation accepts exactly the readable names (strictly shorter than the field, no NUL) *)
Theorem c35_accepted_iff_readable : forall m s, (exists b, str_to_bytes m s = Ok b) <-> readable m s = true.
Proof.
  intros m s. unfold readable. split.
  - intros [b (L & N & _)%str_to_bytes_ok]. apply andb_true_intro. split; [by apply Z.ltb_lt|by rewrite N].
  - intros [L%Z.ltb_lt N%negb_true_iff]%andb_prop. eexists. by apply str_to_bytes_ok.
Qed.
Theorem c35_roundtrip_iff : forall m s, utf8_valid s = true ->
  (exists b, str_to_bytes m s = Ok b /\ bytes_to_str b = Ok s) <-> (blen s < m /\ has_nul s = false).
Proof. exact roundtrip_iff. Qed.

Theorem c35_accepts : forall m s b,
  str_to_bytes m s = Ok b <-> (blen s < m /\ has_nul s = false /\ b = s ++ repeat 0 (Z.to_nat (m - blen s))).
Proof. exact str_to_bytes_ok. Qed.
Theorem c35_refuses : forall m s e,
  str_to_bytes m s = Err e <->
  ((m <= blen s /\ e = E_LEN) \/ (blen s < m /\ has_nul s = true /\ e = E_FORMAT)).
Proof. exact str_to_bytes_err. Qed.

(* NAMES THAT CANNOT BE READ BACK ARE REJECTED AT CREATION: names that fill the field, names
   containing NUL *)
Theorem c35_exact_fill_rejected : forall m s, blen s = m -> str_to_bytes m s = Err E_LEN.
Proof. intros m s L. apply str_to_bytes_err. left. split; [lia|reflexivity]. Qed.
Theorem c35_nul_rejected : forall m s, has_nul s = true -> exists e, str_to_bytes m s = Err e.
Proof.
  intros m s N. destruct (Z_le_gt_dec m (blen s)).
  - exists E_LEN. apply str_to_bytes_err. by left.
  - exists E_FORMAT. apply str_to_bytes_err. right. split; [lia|done].
Qed.
Theorem c35_former_witnesses_rejected :
  str_to_bytes 32 name_a32 = Err E_LEN /\ str_to_bytes 32 name_nul = Err E_FORMAT.
Proof. split; reflexivity. Qed.
(* why they are rejected: a completely filled field has no terminator *)
Theorem c35_reader_needs_terminator : forall s, has_nul s = false -> bytes_to_str s = Err E_FORMAT.
Proof. intros s N. unfold bytes_to_str. by rewrite (position_nul_none s N). Qed.

Theorem c35_utf8_prefix_nul : forall p q, utf8_valid (p ++ 0 :: q) = true -> utf8_valid p = true.
Proof. intros p q H. rewrite (utf8_app_nul (length p) p q (le_n _)) in H. now apply andb_prop in H. Qed.

(* the name stored by RoleMetadata::new passes RoleStore's `metadata.name()? == role` check *)
Theorem c35_accepted_role_usable : forall n nb, utf8_valid n = true ->
  str_to_bytes NAME_LEN n = Ok nb -> name_ok nb n = true.
Proof.
  intros n nb U E. unfold name_ok. rewrite (accepted_roundtrip NAME_LEN n nb U E). apply list_eqb_refl.
Qed.

(* hence (abstract machine of C18, to which the real RoleStore is proved and observed equivalent)
   a freshly created role can be granted, is held, and can be disabled and re-enabled *)
Theorem c35_created_role_works : forall A k n nb a, utf8_valid n = true ->
  ar A !! k = None -> str_to_bytes NAME_LEN n = Ok nb ->
  Z.of_nat (size (ar A)) < MAX_ROLES -> (a, k) ∉ ag A ->
  (a ∈ amembers A \/ Z.of_nat (size (amembers A)) < MAX_MEMBERS) ->
  let r := mkrole k n in
  let A1 := fst (a_enable A r) in
  let A2 := fst (a_grant A1 a r) in
  snd (a_enable A r) = Ok tt /\ snd (a_grant A1 a r) = Ok tt /\ a_has A2 a r = Ok true /\
  snd (a_disable A2 r) = Ok tt.
Proof.
  intros A k n nb a U E N F G M r A1 A2.
  pose proof (c35_accepted_role_usable n nb U N) as NO.
  assert (E1 : a_enable A r = okA (mkA (<[k := (nb, true)]> (ar A)) (ag A))).
  { unfold a_enable. cbn [r_key r_name r]. rewrite E, N. by rewrite decide_False by lia. }
  assert (HA1 : A1 = mkA (<[k := (nb, true)]> (ar A)) (ag A)) by (unfold A1; by rewrite E1).
  assert (S1 : a_status A1 r = Ok (Some true)).
  { unfold a_status. rewrite HA1. cbn [ar r_key r_name r]. rewrite lookup_insert. by rewrite NO. }
  assert (E2 : a_grant A1 a r = okA (mkA (ar A1) ({[(a, k)]} ∪ ag A1))).
  { unfold a_grant. rewrite S1. cbn [r_key r].
    assert (G1 : (a, k) ∉ ag A1) by (rewrite HA1; done).
    rewrite decide_False by done.
    assert (AM : amembers A1 = amembers A) by (rewrite HA1; done).
    case_decide as D; [done|]. rewrite AM in *.
    destruct M as [M|M]; [done|]. by rewrite decide_False by lia. }
  assert (HA2 : A2 = mkA (ar A1) ({[(a, k)]} ∪ ag A1)) by (unfold A2; by rewrite E2).
  assert (S2 : a_status A2 r = Ok (Some true)).
  { unfold a_status in *. rewrite HA2. cbn [ar]. exact S1. }
  assert (G2 : (a, k) ∈ ag A2) by (rewrite HA2; cbn [ag]; set_solver).
  split; [by rewrite E1|]. split; [by rewrite E2|]. split.
  - unfold a_has. rewrite decide_True by (by apply (grant_is_member A2 a k)). rewrite S2.
    cbn [r_key r]. f_equal. by apply bool_decide_eq_true.
  - unfold a_disable. unfold a_status in S2. cbn [r_key r_name r] in *.
    destruct (ar A2 !! k) as [[nm en]|]; [|done].
    destruct (name_ok nm n); [|done]. destruct en; [done|]. by inversion S2.
Qed.
