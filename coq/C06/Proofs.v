(* C06 — lemmas: minting is fair and rounded down, withdrawals pay at most the fair share,
   round trips cannot profit beyond funded positive impact (given the pool value grows by at most
   the value added), no dilution; the three results for markets whose pool value follows the liquidity. *)
From GV Require Import lib.Base MK.Market MK.Liquidity MK.MarketProofs MK.SwapProofs MK.LiquidityProofs
  C06.PoolValue.
Open Scope Z_scope.

(* USD value credited to the depositor: own tokens at the minimum price, funded positive impact
   at the maximum price of the (opposite) token it is paid in *)
Definition funded_value (ps : prices) (t : deposit_trace) : Z :=
  lg_pos_amount (dt_long t) * pr_max (px_short ps) + lg_pos_amount (dt_short t) * pr_max (px_long ps).
Definition credit_value (ps : prices) (t : deposit_trace) : Z :=
  lg_amount (dt_long t) * pr_min (px_long ps) + lg_amount (dt_short t) * pr_min (px_short ps) + funded_value ps t.
Definition in_value (l sh : Z) (ps : prices) : Z := l * pr_min (px_long ps) + sh * pr_min (px_short ps).
(* tokens added to the liquidity pool *)
Definition added_long (r : deposit_report) (t : deposit_trace) : Z :=
  lg_amount (dt_long t) + f_pool (dr_fees_long r) + lg_pos_amount (dt_short t).
Definition added_short (r : deposit_report) (t : deposit_trace) : Z :=
  lg_amount (dt_short t) + f_pool (dr_fees_short r) + lg_pos_amount (dt_long t).

(* value paid out by a withdrawal at maximum prices: to the user, and including fees *)
Definition out_value (ps : prices) (r : withdraw_report) : Z :=
  wr_long_out r * pr_max (px_long ps) + wr_short_out r * pr_max (px_short ps).
Definition gross_value (ps : prices) (t : withdraw_trace) : Z :=
  wt_long_gross t * pr_max (px_long ps) + wt_short_gross t * pr_max (px_short ps).

Definition ordered (p : price) : Prop := pr_min p <= pr_max p.
Definition ordered_prices (ps : prices) : Prop :=
  ordered (px_index ps) /\ ordered (px_long ps) /\ ordered (px_short ps).

(* The round trip in letters: supply [S], minted [m], pool value seen by the deposit [P0] and by the
   withdrawal [P1], value added to the pool [A], credited value [V], the bound [X], value withdrawn [mtv].
   The withdrawer's share is (S+m)*mtv <= P1*m, the pool value grew by at most A, minting was fair: P0*m <= S*V. *)
Lemma rt_arith S m P0 P1 A V X mtv : 0 <= S -> 0 < m -> 0 <= mtv ->
  (S + m) * mtv <= P1 * m -> P1 <= P0 + A -> P0 * m <= S * V -> V <= X -> A <= X -> mtv <= X.
Proof.
  intros HS Hm Hmtv H1 H2 H3 H4 H5.
  assert (P1 * m <= (P0 + A) * m) by nia.
  assert (S * V <= S * X) by nia. assert (A * m <= X * m) by nia.
  assert ((S + m) * mtv <= (S + m) * X) by nia. nia.
Qed.

Lemma value_le a b a' b' p q P Q : 0 <= a <= a' -> 0 <= b <= b' -> 0 <= p <= P -> 0 <= q <= Q ->
  a * p + b * q <= a' * P + b' * Q.
Proof. intros. nia. Qed.

Lemma added_le_arith a b a' b' x y p q P Q : a <= a' -> b <= b' -> 0 <= x -> 0 <= y -> 0 <= p <= P -> 0 <= q <= Q ->
  (a + x) * p + (b + y) * q <= a' * p + b' * q + (y * Q + x * P).
Proof. intros. nia. Qed.

Lemma credit_le_added_arith a b f g x y p q P Q :
  0 <= a -> 0 <= b -> 0 <= f -> 0 <= g -> 0 <= x -> 0 <= y -> 0 <= p <= P -> 0 <= q <= Q ->
  a * p + b * q + (y * Q + x * P) <= (a + f + x) * P + (b + g + y) * Q.
Proof. intros. nia. Qed.

Lemma dilution_arith S m P0 P1 V : 0 <= S -> 0 <= m -> P0 * m <= S * V -> P0 + V <= P1 -> P0 * (S + m) <= P1 * S.
Proof. intros. nia. Qed.

Lemma wd_dilution_arith S a P1 P2 G : 0 < S -> 0 <= a -> G * S <= P1 * a -> P1 - G <= P2 -> P1 * (S - a) <= P2 * S.
Proof. intros. nia. Qed.

Section P.
  Variable w : Z.
  Hypothesis Hw : 1 <= w.
  Variable unit : Z.
  Hypothesis Hunit : 0 < unit.
  Variable cfg : config.

  Notation in_range := (in_range w).
  Notation wf_state := (wf_state w).
  Notation wf_prices := (wf_prices w).

  Record deposit_sum (s s' : mstate) (l sh : Z) (ps : prices) (r : deposit_report) (t : deposit_trace) : Prop := {
    ds_prim_long : p_long (primary s') = p_long (primary s) + added_long r t;
    ds_prim_short : p_short (primary s') = p_short (primary s) + added_short r t;
    ds_supply : total_supply s' = total_supply s + dr_minted r;
    ds_rest : same_rest s s';
    ds_wf : wf_state s';
    ds_pv : pool_value w unit cfg s ps MaxAfterDeposit true = Ok (dt_pool_value t) /\ 0 <= dt_pool_value t;
    ds_split_long : lg_amount (dt_long t) + lg_neg_amount (dt_long t) + f_receiver (dr_fees_long r) + f_pool (dr_fees_long r) = l;
    ds_split_short : lg_amount (dt_short t) + lg_neg_amount (dt_short t) + f_receiver (dr_fees_short r) + f_pool (dr_fees_short r) = sh;
    ds_nonneg : 0 <= lg_amount (dt_long t) /\ 0 <= lg_amount (dt_short t) /\
                0 <= lg_pos_amount (dt_long t) /\ 0 <= lg_pos_amount (dt_short t) /\
                0 <= lg_neg_amount (dt_long t) /\ 0 <= lg_neg_amount (dt_short t) /\
                0 <= f_pool (dr_fees_long r) /\ 0 <= f_pool (dr_fees_short r) /\
                0 <= f_receiver (dr_fees_long r) /\ 0 <= f_receiver (dr_fees_short r) /\ 0 <= dr_minted r;
    ds_funded_long : lg_pos_amount (dt_long t) <= p_short (swap_impact s);
    ds_funded_short : lg_pos_amount (dt_short t) <= p_long (swap_impact s);
    ds_imp_long : p_long (swap_impact s') = p_long (swap_impact s) + lg_neg_amount (dt_long t) - lg_pos_amount (dt_short t);
    ds_imp_short : p_short (swap_impact s') = p_short (swap_impact s) + lg_neg_amount (dt_short t) - lg_pos_amount (dt_long t);
    (* non-empty supply: minted = credited value priced at pool value / supply, rounded down by less than 4 tokens *)
    ds_fair : 0 < total_supply s -> 0 < dt_pool_value t /\
       dt_pool_value t * dr_minted r <= total_supply s * credit_value ps t /\
       total_supply s * credit_value ps t < dt_pool_value t * (dr_minted r + 4);
    ds_first_no_funded : total_supply s = 0 -> funded_value ps t = 0;
    ds_first : total_supply s = 0 -> dt_pool_value t = 0 ->
       dr_minted r = lg_amount (dt_long t) * pr_min (px_long ps) / value_to_amount_divisor s
                   + lg_amount (dt_short t) * pr_min (px_short ps) / value_to_amount_divisor s
  }.

  Lemma deposit_summary s l sh ps s' r t :
    wf_state s -> wf_prices ps -> in_range l -> in_range sh -> 0 <= value_to_amount_divisor s ->
    deposit_exec_trace w unit cfg s l sh ps = Ok (s', r, t) ->
    deposit_sum s s' l sh ps r t.
  Proof.
    intros Hs Hps Hl Hsh Hdv H.
    assert (Hne : l <> 0 \/ sh <> 0).
    { unfold deposit_exec_trace in H. destruct (l =? 0) eqn:A, (sh =? 0) eqn:B; cbn in H; try discriminate; lia. }
    app deposit_exec_trace_ok H. destruct H as [_ _ Hsup Hmn Hrest _ Hwf [HPV Hpv] (s1 & s2 & m1 & m2 & L1 & L2 & Hm & ->)].
    destruct L1 as [_ _ Lsupply Lrest _ _ Lprim_in Lprim_out Limp_out Limp_in Lsplit Lnonneg Lmint Lmint_nonneg Lpos_first Lpos_pool Lfair Lfirst Lpos_sign Lneg_sign].
    destruct L2 as [_ _ Ssupply _ _ _ Sprim_in Sprim_out Simp_out Simp_in Ssplit Snonneg Smint Smint_nonneg Spos_first Spos_pool Sfair Sfirst Spos_sign Sneg_sign].
    cbn [pamount negb side_price] in *. rewrite Lsupply in *. rewrite <- (same_rest_divisor _ _ Lrest) in *.
    destruct Hs as ([S0 _] & _ & [[Hil _] [His _]] & _).
    constructor; unfold added_long, added_short, credit_value, funded_value; cbn [primary swap_impact set_supply].
    all: try solve [clear Lfair Sfair Lfirst Sfirst Lpos_first Spos_first Lpos_sign Lneg_sign Spos_sign Sneg_sign; lia].
    - assumption.
    - assumption.
    - split; assumption.
    - (* what the long leg put into the long impact pool cannot be what pays the short leg: the two
         impacts have the sign of the whole deposit's *)
      clear Lfair Sfair Lfirst Sfirst Lpos_first Spos_first. lia.
    - intros Spos. destruct (Lfair Spos) as (F1 & F2 & Fp & F3). destruct (Sfair Spos) as (G1 & G2 & Gp & G3).
      assert (Hp : 0 < dt_pool_value t) by (destruct Hne; auto).
      (* each of the four floors loses less than one token *)
      destruct (F3 Hp) as [T1 T2]. destruct (G3 Hp) as [T3 T4]. rewrite Hm, Lmint, Smint.
      clear - Hp F1 F2 G1 G2 T1 T2 T3 T4. lia.
    - intros Z0. destruct (Lpos_first Z0) as [-> _]. destruct (Spos_first Z0) as [-> _]. lia.
    - intros Z0 P0. rewrite Hm, Lmint, Smint, <- (Lfirst Z0 P0), <- (Sfirst Z0 P0).
      destruct (Lpos_first Z0) as [_ ->]. destruct (Spos_first Z0) as [_ ->]. lia.
  Qed.

  Lemma withdraw_fair s a ps s' r t :
    wf_state s -> wf_prices ps -> in_range a ->
    withdraw_exec_trace w unit cfg s a ps = Ok (s', r, t) ->
    out_value ps r <= gross_value ps t /\ gross_value ps t <= wt_mtv t /\
    gross_value ps t * total_supply s <= wt_pool_value t * a /\
    0 < total_supply s /\ 0 < a <= total_supply s /\ 0 < wt_pool_value t /\ 0 <= wt_mtv t /\
    total_supply s * wt_mtv t <= wt_pool_value t * a.
  Proof.
    intros Hs Hps Ha H. app withdraw_exec_trace_ok H. destruct H.
    pose proof Hps as (_ & [[PL0 _] [PL1 _]] & [[PS0 _] [PS1 _]]).
    destruct wd_nonneg as (N1 & N2 & N3 & N4 & N5 & N6). destruct wd_pv as [_ Hpv].
    assert (out_value ps r <= gross_value ps t).
    { unfold out_value, gross_value. rewrite <- wd_long_split, <- wd_short_split. apply value_le; lia. }
    unfold gross_value in *. repeat split; try lia. nia.
  Qed.

  Lemma credit_le_in s s' l sh ps r t : wf_prices ps -> deposit_sum s s' l sh ps r t ->
    credit_value ps t <= in_value l sh ps + funded_value ps t.
  Proof.
    intros (_ & [[PL _] _] & [[PS _] _]) D.
    destruct (ds_nonneg _ _ _ _ _ _ _ D) as (? & ? & _ & _ & ? & ? & ? & ? & ? & ? & _).
    pose proof (ds_split_long _ _ _ _ _ _ _ D). pose proof (ds_split_short _ _ _ _ _ _ _ D).
    unfold credit_value, in_value. apply Z.add_le_mono_r, value_le; lia.
  Qed.

  Lemma added_le_in s s' l sh ps r t : wf_prices ps -> ordered (px_long ps) -> ordered (px_short ps) ->
    deposit_sum s s' l sh ps r t ->
    added_long r t * pr_min (px_long ps) + added_short r t * pr_min (px_short ps) <= in_value l sh ps + funded_value ps t.
  Proof.
    intros (_ & [[PL _] _] & [[PS _] _]) Ol Os D.
    destruct (ds_nonneg _ _ _ _ _ _ _ D) as (_ & _ & ? & ? & ? & ? & _ & _ & ? & ? & _).
    pose proof (ds_split_long _ _ _ _ _ _ _ D). pose proof (ds_split_short _ _ _ _ _ _ _ D).
    unfold added_long, added_short, in_value, funded_value. apply added_le_arith; unfold ordered in *; lia.
  Qed.

  Lemma credit_le_added s s' l sh ps r t : wf_prices ps -> ordered (px_long ps) -> ordered (px_short ps) ->
    deposit_sum s s' l sh ps r t ->
    credit_value ps t <= added_long r t * pr_max (px_long ps) + added_short r t * pr_max (px_short ps).
  Proof.
    intros (_ & [[PL _] _] & [[PS _] _]) Ol Os D.
    destruct (ds_nonneg _ _ _ _ _ _ _ D) as (? & ? & ? & ? & _ & _ & ? & ? & _).
    unfold credit_value, added_long, added_short, funded_value. apply credit_le_added_arith; unfold ordered in *; lia.
  Qed.

  Lemma minted_in_range s s' l sh ps r t : wf_state s -> deposit_sum s s' l sh ps r t -> in_range (dr_minted r).
  Proof.
    intros ([S0 _] & _) D. destruct (ds_wf _ _ _ _ _ _ _ D) as ([_ S1] & _).
    destruct (ds_nonneg _ _ _ _ _ _ _ D) as (_ & _ & _ & _ & _ & _ & _ & _ & _ & _ & ?).
    rewrite (ds_supply _ _ _ _ _ _ _ D) in S1. split; lia.
  Qed.

  (* the last hypothesis says that the pool value grows by at most the value added; [round_trip_uncapped]
     discharges it *)
  Theorem round_trip_bound s l sh ps s1 rd td s2 rw tw :
    wf_state s -> wf_prices ps -> in_range l -> in_range sh -> 0 <= value_to_amount_divisor s ->
    ordered (px_long ps) -> ordered (px_short ps) ->
    deposit_exec_trace w unit cfg s l sh ps = Ok (s1, rd, td) ->
    withdraw_exec_trace w unit cfg s1 (dr_minted rd) ps = Ok (s2, rw, tw) ->
    wt_pool_value tw <= dt_pool_value td + added_long rd td * pr_min (px_long ps) + added_short rd td * pr_min (px_short ps) ->
    (0 < total_supply s -> out_value ps rw <= in_value l sh ps + funded_value ps td) /\
    (total_supply s = 0 -> out_value ps rw <= in_value l sh ps + dt_pool_value td).
  Proof.
    intros Hs Hps Hl Hsh Hdv Ol Os HD HW G.
    app deposit_summary HD.
    pose proof (credit_le_in _ _ _ _ _ _ _ Hps HD) as HV.
    pose proof (added_le_in _ _ _ _ _ _ _ Hps Ol Os HD) as HA.
    pose proof (minted_in_range _ _ _ _ _ _ _ Hs HD) as Hm. pose proof (ds_wf _ _ _ _ _ _ _ HD) as Hs1.
    app withdraw_fair HW. destruct HW as (W1 & W2 & _ & _ & W5 & _ & Hmtv & W7).
    rewrite (ds_supply _ _ _ _ _ _ _ HD) in W7. destruct Hs as ([S0 _] & _).
    split.
    - intros Spos. destruct (ds_fair _ _ _ _ _ _ _ HD Spos) as (_ & F1 & _).
      enough (wt_mtv tw <= in_value l sh ps + funded_value ps td) by lia.
      apply (rt_arith (total_supply s) (dr_minted rd) (dt_pool_value td) (wt_pool_value tw)
               (added_long rd td * pr_min (px_long ps) + added_short rd td * pr_min (px_short ps)) (credit_value ps td));
        assumption || lia.
    - intros Z0. rewrite Z0, Z.add_0_l in W7. rewrite (ds_first_no_funded _ _ _ _ _ _ _ HD Z0) in HA.
      (* the depositor holds the whole supply and takes the whole pool value *)
      assert (wt_mtv tw <= wt_pool_value tw) by (clear - W7 W5; nia). lia.
  Qed.

  Lemma deposit_frame s l sh ps s1 rd td :
    wf_state s -> wf_prices ps -> in_range l -> in_range sh -> 0 <= value_to_amount_divisor s ->
    deposit_exec_trace w unit cfg s l sh ps = Ok (s1, rd, td) ->
    same_rest s s1 /\ pool_value w unit cfg s ps MaxAfterDeposit true = Ok (dt_pool_value td) /\
    p_long (primary s1) = p_long (primary s) + added_long rd td /\
    p_short (primary s1) = p_short (primary s) + added_short rd td /\
    0 <= added_long rd td /\ 0 <= added_short rd td.
  Proof.
    intros Hs Hps Hl Hsh Hdv HD. app deposit_summary HD.
    destruct (ds_nonneg _ _ _ _ _ _ _ HD) as (? & ? & ? & ? & _ & _ & ? & ? & _).
    split; [exact (ds_rest _ _ _ _ _ _ _ HD)|]. split; [apply (ds_pv _ _ _ _ _ _ _ HD)|].
    split; [exact (ds_prim_long _ _ _ _ _ _ _ HD)|]. split; [exact (ds_prim_short _ _ _ _ _ _ _ HD)|].
    unfold added_long, added_short. lia.
  Qed.

  Lemma round_trip_pool_values s l sh ps s1 rd td s2 rw tw :
    wf_state s -> wf_prices ps -> in_range l -> in_range sh -> 0 <= value_to_amount_divisor s ->
    deposit_exec_trace w unit cfg s l sh ps = Ok (s1, rd, td) ->
    withdraw_exec_trace w unit cfg s1 (dr_minted rd) ps = Ok (s2, rw, tw) ->
    pool_value w unit cfg s1 ps MaxAfterWithdrawal false = Ok (wt_pool_value tw).
  Proof.
    intros Hs Hps Hl Hsh Hdv HD HW. app deposit_summary HD.
    pose proof (minted_in_range _ _ _ _ _ _ _ Hs HD) as Hm. pose proof (ds_wf _ _ _ _ _ _ _ HD) as Hs1.
    app withdraw_exec_trace_ok HW. apply (wd_pv _ _ _ _ _ _ _ _ _ HW).
  Qed.

  (* deposit, any market: if the (deposit-mode) pool value grows by at least the credited value,
     the value of one market token does not fall *)
  Theorem deposit_no_dilution s l sh ps s1 rd td P1 :
    wf_state s -> wf_prices ps -> in_range l -> in_range sh -> 0 <= value_to_amount_divisor s ->
    deposit_exec_trace w unit cfg s l sh ps = Ok (s1, rd, td) -> 0 < total_supply s ->
    dt_pool_value td + credit_value ps td <= P1 ->
    dt_pool_value td * total_supply s1 <= P1 * total_supply s.
  Proof.
    intros Hs Hps Hl Hsh Hdv HD Spos G. app deposit_summary HD.
    destruct (ds_fair _ _ _ _ _ _ _ HD Spos) as (_ & F1 & _). rewrite (ds_supply _ _ _ _ _ _ _ HD).
    destruct (ds_nonneg _ _ _ _ _ _ _ HD) as (_ & _ & _ & _ & _ & _ & _ & _ & _ & _ & Mn).
    destruct Hs as ([S0 _] & _). eapply dilution_arith; eassumption.
  Qed.

  Theorem deposit_no_dilution_shift s l sh ps s1 rd td P1 :
    wf_state s -> wf_prices ps -> in_range l -> in_range sh -> 0 <= value_to_amount_divisor s ->
    ordered (px_long ps) -> ordered (px_short ps) ->
    deposit_exec_trace w unit cfg s l sh ps = Ok (s1, rd, td) -> 0 < total_supply s ->
    P1 = dt_pool_value td + (p_long (primary s1) - p_long (primary s)) * pr_max (px_long ps)
                          + (p_short (primary s1) - p_short (primary s)) * pr_max (px_short ps) ->
    dt_pool_value td * total_supply s1 <= P1 * total_supply s.
  Proof.
    intros Hs Hps Hl Hsh Hdv Ol Os HD Spos X. apply (deposit_no_dilution s l sh ps s1 rd td P1 Hs Hps Hl Hsh Hdv HD Spos).
    app deposit_summary HD. pose proof (credit_le_added _ _ _ _ _ _ _ Hps Ol Os HD).
    rewrite (ds_prim_long _ _ _ _ _ _ _ HD), (ds_prim_short _ _ _ _ _ _ _ HD) in X. lia.
  Qed.

  (* withdrawal, any market: if the pool value falls by at most the gross value paid *)
  Theorem withdraw_no_dilution s a ps s2 rw tw P2 :
    wf_state s -> wf_prices ps -> in_range a ->
    withdraw_exec_trace w unit cfg s a ps = Ok (s2, rw, tw) ->
    wt_pool_value tw - gross_value ps tw <= P2 ->
    wt_pool_value tw * total_supply s2 <= P2 * total_supply s.
  Proof.
    intros Hs Hps Ha HW G. pose proof HW as HW'. app withdraw_fair HW'. destruct HW' as (_ & _ & W3 & W4 & W5 & _).
    app withdraw_exec_trace_ok HW. rewrite (wd_supply _ _ _ _ _ _ _ _ _ HW).
    eapply wd_dilution_arith; try eassumption; lia.
  Qed.

  Theorem withdraw_no_dilution_shift s a ps s2 rw tw P2 :
    wf_state s -> wf_prices ps -> in_range a -> ordered (px_long ps) -> ordered (px_short ps) ->
    withdraw_exec_trace w unit cfg s a ps = Ok (s2, rw, tw) ->
    P2 = wt_pool_value tw + (p_long (primary s2) - p_long (primary s)) * pr_min (px_long ps)
                          + (p_short (primary s2) - p_short (primary s)) * pr_min (px_short ps) ->
    wt_pool_value tw * total_supply s2 <= P2 * total_supply s.
  Proof.
    intros Hs Hps Ha Ol Os HW X. apply (withdraw_no_dilution s a ps s2 rw tw P2 Hs Hps Ha HW).
    app withdraw_exec_trace_ok HW. destruct HW. destruct wd_nonneg as (? & ? & ? & ? & ? & ?).
    pose proof Hps as (_ & [[? _] _] & [[? _] _]).
    assert ((wr_long_out rw + f_receiver (wr_fees_long rw)) * pr_min (px_long ps)
            + (wr_short_out rw + f_receiver (wr_fees_short rw)) * pr_min (px_short ps) <= gross_value ps tw)
      by (unfold gross_value; apply value_le; unfold ordered in *; lia).
    lia.
  Qed.

  Lemma withdraw_frame s a ps s2 rw tw :
    wf_state s -> wf_prices ps -> in_range a ->
    withdraw_exec_trace w unit cfg s a ps = Ok (s2, rw, tw) ->
    same_rest s s2 /\ pool_value w unit cfg s ps MaxAfterWithdrawal false = Ok (wt_pool_value tw).
  Proof.
    intros Hs Hps Ha HW. app withdraw_exec_trace_ok HW. split; [exact (wd_rest _ _ _ _ _ _ _ _ _ HW)|apply (wd_pv _ _ _ _ _ _ _ _ _ HW)].
  Qed.

  (* Markets whose pool value follows the liquidity: no pnl cap binds before or after, and the
     pending borrowing fees do not depend on the liquidity.  C06/NoOI.v and C06/Calm.v give two kinds. *)
  Theorem round_trip_uncapped s l sh ps s1 rd td s2 rw tw :
    wf_state s -> wf_prices ps -> in_range l -> in_range sh -> 0 <= value_to_amount_divisor s -> ordered_prices ps ->
    follows_liquidity w unit cfg s s1 ps ->
    0 <= p_long (oit_long s) -> 0 <= p_short (oit_long s) -> 0 <= p_long (oit_short s) -> 0 <= p_short (oit_short s) ->
    0 <= p_long (position_impact s) ->
    deposit_exec_trace w unit cfg s l sh ps = Ok (s1, rd, td) ->
    withdraw_exec_trace w unit cfg s1 (dr_minted rd) ps = Ok (s2, rw, tw) ->
    (0 < total_supply s -> out_value ps rw <= in_value l sh ps + funded_value ps td) /\
    (total_supply s = 0 -> out_value ps rw <= in_value l sh ps + dt_pool_value td).
  Proof.
    intros Hs Hps Hl Hsh Hdv (Oi & Ol & Os) (U0 & F) T1 T2 T3 T4 Hpi HD HW.
    apply (round_trip_bound s l sh ps s1 rd td s2 rw tw); try assumption.
    pose proof (round_trip_pool_values _ _ _ _ _ _ _ _ _ _ Hs Hps Hl Hsh Hdv HD HW) as E1.
    app deposit_frame HD. destruct HD as (R & E0 & EL & ES & _). destruct Hs as (_ & [[L0 _] [S0 _]] & _).
    destruct (F R) as (U1 & SP). apply (U0 _ _ _ (or_introl eq_refl)) in E0. apply (U1 _ _ _ (or_intror eq_refl)) in E1.
    exact (uncapped_growth w Hw unit cfg s s1 ps _ _ _ _ R SP Oi Ol Os L0 S0 T1 T2 T3 T4 Hpi EL ES E0 E1).
  Qed.

  Theorem deposit_no_dilution_uncapped s l sh ps s1 rd td P1 :
    wf_state s -> wf_prices ps -> in_range l -> in_range sh -> 0 <= value_to_amount_divisor s -> ordered_prices ps ->
    follows_liquidity w unit cfg s s1 ps ->
    deposit_exec_trace w unit cfg s l sh ps = Ok (s1, rd, td) -> 0 < total_supply s ->
    pool_value w unit cfg s1 ps MaxAfterDeposit true = Ok P1 ->
    dt_pool_value td * total_supply s1 <= P1 * total_supply s.
  Proof.
    intros Hs Hps Hl Hsh Hdv (_ & Ol & Os) (U0 & F) HD Spos E1.
    apply (deposit_no_dilution_shift s l sh ps s1 rd td P1); try assumption.
    app deposit_frame HD. destruct HD as (R & E0 & _).
    destruct (F R) as (U1 & SP). apply (U0 _ _ _ (or_introl eq_refl)) in E0. apply (U1 _ _ _ (or_introl eq_refl)) in E1.
    exact (uncapped_shift w unit cfg s s1 ps true _ _ R SP E0 E1).
  Qed.

  Theorem withdraw_no_dilution_uncapped s a ps s2 rw tw P2 :
    wf_state s -> wf_prices ps -> in_range a -> ordered_prices ps ->
    follows_liquidity w unit cfg s s2 ps ->
    withdraw_exec_trace w unit cfg s a ps = Ok (s2, rw, tw) ->
    pool_value w unit cfg s2 ps MaxAfterWithdrawal false = Ok P2 ->
    wt_pool_value tw * total_supply s2 <= P2 * total_supply s.
  Proof.
    intros Hs Hps Ha (_ & Ol & Os) (U0 & F) HW E2.
    apply (withdraw_no_dilution_shift s a ps s2 rw tw P2); try assumption.
    app withdraw_frame HW. destruct HW as (R & E1).
    destruct (F R) as (U2 & SP). apply (U0 _ _ _ (or_intror eq_refl)) in E1. apply (U2 _ _ _ (or_intror eq_refl)) in E2.
    exact (uncapped_shift w unit cfg s s2 ps false _ _ R SP E1 E2).
  Qed.
End P.
