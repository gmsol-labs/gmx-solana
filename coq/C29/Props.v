(* C29 — property theorems only.
   [price_ok] / [ref_ok]: values are u32 and multipliers are <= 20 — exactly what
   Decimal::try_from_price produces (C26: c26_unit_price_never_rounds_up gives 0 <= m <= 20);
   the factor is any u128 (only its sign is used).  r = reference unit price (explicit, or mid), dev = r * factor / 10^20. *)
From GV Require Import lib.Base C26.Model C29.Model C29.Proofs.
Open Scope Z_scope.

(* The adjustment: multipliers kept; an in-band side is untouched, an out-of-band max becomes
   floor((r + dev) / step), an out-of-band min becomes ceil((r - dev) / step); so the adjusted max is
   never above r + dev and the adjusted min never below r - dev. *)
Theorem c29_adjust_some : forall factor p ref p',
  price_ok p -> ref_ok ref -> 0 <= factor < 2 ^ 128 ->
  adjust factor p ref = Some (Some p') ->
  let r := ref_unit p ref in let dev := dev_of factor p ref in
  snd (fst p') = snd (fst p) /\ snd (snd p') = snd (snd p) /\ price_ok p' /\
  (dev < abs_diff (umax_of p) r \/ dev < abs_diff (umin_of p) r) /\
  ((abs_diff (umax_of p) r <= dev /\ snd p' = snd p) \/
   (dev < abs_diff (umax_of p) r /\ fst (snd p') = (r + dev) / 10 ^ snd (snd p))) /\
  ((abs_diff (umin_of p) r <= dev /\ fst p' = fst p) \/
   (dev < abs_diff (umin_of p) r /\ dev <= r /\
    (fst (fst p') - 1) * 10 ^ snd (fst p) < r - dev <= fst (fst p') * 10 ^ snd (fst p))) /\
  r - dev <= umin_of p' /\ umax_of p' <= r + dev.
Proof. intros factor p ref p' Hp Hr [Hf _]. exact (adjust_some factor p ref p' Hp Hr Hf). Qed.

(* an adjusted price that also passes SmallPrices::from_price is completely inside the band, ordered, non-zero *)
Theorem c29_adjusted_stored_in_band : forall factor p ref p' m a b,
  price_ok p -> ref_ok ref -> 0 <= factor < 2 ^ 128 ->
  adjust factor p ref = Some (Some p') -> from_price p' = Ok (m, a, b) ->
  let r := ref_unit p ref in let dev := dev_of factor p ref in
  0 < a <= b /\ r - dev <= a * 10 ^ m <= b * 10 ^ m /\ b * 10 ^ m <= r + dev.
Proof. intros factor p ref p' m a b Hp Hr [Hf _]. exact (adjusted_stored_in_band factor p ref p' m a b Hp Hr Hf). Qed.

Theorem c29_adjust_no_trap : forall factor p ref,
  price_ok p -> ref_ok ref -> 0 <= factor < 2 ^ 128 -> adjust factor p ref <> None.
Proof. intros factor p ref Hp Hr [Hf _]. exact (adjust_no_trap factor p ref Hp Hr Hf). Qed.

Theorem c29_adjust_in_band_none : forall factor p ref,
  price_ok p -> ref_ok ref -> 0 <= factor < 2 ^ 128 ->
  let r := ref_unit p ref in let dev := dev_of factor p ref in
  dev < 2 ^ 128 -> abs_diff (umax_of p) r <= dev -> abs_diff (umin_of p) r <= dev ->
  adjust factor p ref = Some None.
Proof. intros factor p ref Hp Hr [Hf _]. exact (adjust_in_band_none factor p ref Hp Hr Hf). Qed.

(* from_price accepts exactly non-zero, ordered prices with one multiplier *)
Theorem c29_from_price_ok : forall p m a b,
  from_price p = Ok (m, a, b) <->
  snd (fst p) = m /\ snd (snd p) = m /\ fst (fst p) = a /\ fst (snd p) = b /\ a <> 0 /\ a <= b.
Proof. exact from_price_ok. Qed.

(* pipeline adjust -> validate -> from_price: whatever is accepted is non-zero, ordered, u32 *)
Theorem c29_pipeline_rejects_inverted : forall allow fo p ref adj m a b,
  price_ok p -> ref_ok ref -> (forall f, fo = Some f -> 0 <= f < 2 ^ 128) ->
  pipeline allow fo p ref = Ok (adj, (m, a, b)) -> 0 < a <= b /\ b < 2 ^ 32 /\ 0 <= m <= 20.
Proof. intros allow fo p ref adj m a b Hp Hr Hf. exact (pipeline_wellformed allow fo p ref adj m a b Hp Hr (fun f E => proj1 (Hf f E))). Qed.

(* main: with adjustment enabled, an accepted adjusted price lies in [r - dev, r + dev] *)
Theorem c29_pipeline_adjusted_in_band : forall f p ref m a b,
  price_ok p -> ref_ok ref -> 0 <= f < 2 ^ 128 ->
  pipeline true (Some f) p ref = Ok (true, (m, a, b)) ->
  let r := ref_unit p ref in let dev := dev_of f p ref in
  0 < a <= b /\ r - dev <= a * 10 ^ m <= b * 10 ^ m /\ b * 10 ^ m <= r + dev.
Proof. intros f p ref m a b Hp Hr [Hf _]. exact (pipeline_adjusted_in_band f p ref m a b Hp Hr Hf). Qed.

(* Accepted WITHOUT adjustment: the adjustment function returned None; the price is stored unchanged and
   each side is within the deviation rounded UP to the precision step (< dev + step), or dev = 0 and the
   check is skipped.  This is the complement statement for known class 1 (see c29_rounded_tolerance_refuted). *)
Theorem c29_pipeline_unadjusted_partial : forall allow f p ref m a b,
  price_ok p -> ref_ok ref -> 0 <= f < 2 ^ 128 ->
  pipeline allow (Some f) p ref = Ok (false, (m, a, b)) ->
  let r := ref_unit p ref in let dev := dev_of f p ref in
  (allow = true -> adjust f p ref = Some None) /\
  p = ((a, m), (b, m)) /\ 0 < a <= b /\
  (dev = 0 \/ (abs_diff (b * 10 ^ m) r <= rounded_dev dev m /\ abs_diff (a * 10 ^ m) r <= rounded_dev dev m
               /\ rounded_dev dev m < dev + 10 ^ m)).
Proof. intros allow f p ref m a b Hp Hr [Hf _]. exact (pipeline_unadjusted allow f p ref m a b Hp Hr Hf). Qed.

(* the literal property is refuted on that class: adjustment allowed, clamped value not representable,
   price accepted unchanged and strictly outside r +- dev *)
Theorem c29_rounded_tolerance_refuted :
  let p : price := ((4294924050, 8), (4294924050, 8)) in
  let ref := Some (4294967000, 8) in
  let f := 1000 * 10 ^ 12 in
  adjust f p ref = Some None /\
  pipeline true (Some f) p ref = Ok (false, (8, 4294924050, 4294924050)) /\
  dev_of f p ref < abs_diff (umax_of p) (ref_unit p ref).
Proof. exact pipeline_adjust_failed_witness. Qed.

(* The adjustment function ALONE can return an inverted price (reference off the precision grid, deviation
   below half a step, both sides clamped: max = floor, min = ceil); it is the rest of the pipeline
   (SmallPrices::from_price) that rejects it — see c29_pipeline_rejects_inverted for the general statement.
   Same inputs as the real replays in corpus/C29/witness.txt. *)
Theorem c29_adjust_can_invert_pipeline_rejects :
  adjust (10 ^ 15) ((99, 1), (102, 1)) None = Some (Some ((101, 1), (100, 1))) /\
  pipeline true (Some (10 ^ 15)) ((99, 1), (102, 1)) None = Err 1 /\
  adjust (10 ^ 15) ((9, 2), (12, 2)) (Some (1055, 0)) = Some (Some ((11, 2), (10, 2))) /\
  pipeline true (Some (10 ^ 15)) ((9, 2), (12, 2)) (Some (1055, 0)) = Err 1.
Proof. vm_compute. repeat split; reflexivity. Qed.

(* non-vacuity *)
Example c29_ex1 : adjust (10 ^ 18) ((9000, 8), (12000, 8)) (Some (10000, 8)) = Some (Some ((9900, 8), (10100, 8))).
Proof. vm_compute. reflexivity. Qed.
Example c29_ex2 : pipeline true (Some (10 ^ 18)) ((9000, 8), (12000, 8)) (Some (10000, 8)) = Ok (true, (8, 9900, 10100)).
Proof. vm_compute. reflexivity. Qed.
Example c29_ex3 : pipeline false (Some (10 ^ 18)) ((9000, 8), (12000, 8)) (Some (10000, 8)) = Err 2.
Proof. vm_compute. reflexivity. Qed.
(* a band narrower than one precision step around an off-grid mid: clamping inverts the price, from_price rejects *)
Example c29_ex4 : adjust (10 ^ 15) ((99, 1), (102, 1)) None = Some (Some ((101, 1), (100, 1)))
               /\ pipeline true (Some (10 ^ 15)) ((99, 1), (102, 1)) None = Err 1.
Proof. vm_compute. repeat split; reflexivity. Qed.
