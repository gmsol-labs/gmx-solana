(* PS — frame lemmas: which market pools each model function can change.
   [view] = the pools of the C07 invariant (open interest, open interest in tokens, collateral sums)
   plus the configuration.  The inversions of the actions themselves (increase_inv, decrease_inv, liquidate_decrease,
   auto_deleverage_spec) are in C07/Proofs.v. *)
From GV Require Import lib.Base C01.Proofs PS.Model PS.Lemmas PS.Actions.
Open Scope Z_scope.

Definition view (m : market) :=
  (m_cfg m, m_oi_long m, m_oi_short m, m_oit_long m, m_oit_short m, m_cs_long m, m_cs_short m).

(* [ok_all H]: decompose [H : ... = Ok r] through every bind, [if], [match] and [of_opt], also inside the
   equations of the bound computations; branches that are [Err] are closed *)
Ltac ok_all H :=
  lazymatch type of H with
  | rbind _ _ = Ok _ => let x := fresh "x" in let E := fresh "E" in
      bind_ok H as x E; ok_all E; ok_all H
  | (if ?c then _ else _) = Ok _ => let C := fresh "C" in destruct c eqn:C; ok_all H
  | (match ?x with _ => _ end) = Ok _ => let C := fresh "C" in destruct x eqn:C; ok_all H
  | Err _ = Ok _ => discriminate H
  | of_opt _ _ = Ok _ => apply of_opt_ok in H
  | _ => idtac
  end.

Lemma pool_apply_spec w p long d p' :
  pool_apply w p long d = Ok p' ->
  amount p' long = amount p long + d /\ amount p' (negb long) = amount p (negb long) /\ 0 <= amount p' long.
Proof.
  unfold pool_apply, amt_apply. intros H.
  destruct long; destruct (0 <? d) eqn:Ed; ok_all H; injection H as <-; cbn;
    first [apply uadd_some in E | apply usub_some in E]; lia.
Qed.

Lemma apply_delta_view w m long d m' : apply_delta w m long d = Ok m' -> view m' = view m.
Proof. unfold apply_delta. intros H. ok_all H; injection H as <-; reflexivity. Qed.
Lemma apply_fee_delta_view w m long d m' : apply_fee_delta w m long d = Ok m' -> view m' = view m.
Proof. unfold apply_fee_delta. intros H. ok_all H; injection H as <-; reflexivity. Qed.
Lemma apply_impact_delta_view w m d m' : apply_impact_delta w m d = Ok m' -> view m' = view m.
Proof. unfold apply_impact_delta. intros H. ok_all H; injection H as <-; reflexivity. Qed.
Lemma update_total_borrowing_view w unit p m ns nb m' :
  update_total_borrowing w unit p m ns nb = Ok m' -> view m' = view m.
Proof. unfold update_total_borrowing. intros H. ok_all H; injection H as <-; reflexivity. Qed.

(* turn every call of one of them in the context into an equation on views *)
Ltac frame_eqs :=
  repeat match goal with
  | E : apply_delta _ _ _ _ = Ok _ |- _ => apply apply_delta_view in E
  | E : apply_fee_delta _ _ _ _ = Ok _ |- _ => apply apply_fee_delta_view in E
  | E : apply_impact_delta _ _ _ = Ok _ |- _ => apply apply_impact_delta_view in E
  | E : update_total_borrowing _ _ _ _ _ _ = Ok _ |- _ => apply update_total_borrowing_view in E
  end.

(* [kept s s']: a step of the collateral processor that leaves the pools of [view] and the remaining collateral alone *)
Definition kept (s s' : pstate) : Prop := view (st_m s') = view (st_m s) /\ st_coll s' = st_coll s.

(* invariants of the processor state across a payment step, whether it continues or stops *)
Definition pres_inv (Q : pstate -> Prop) (r : pres) : Prop :=
  match r with PCont s => Q s | PStop _ s => Q s | PErr _ => True end.

(* [good m0 s]: the C07 pools are those of m0 and the remaining collateral is not negative *)
Definition good (m0 : market) (s : pstate) : Prop := view (st_m s) = view m0 /\ 0 <= st_coll s.

Lemma good_kept m0 s s' : good m0 s -> kept s s' -> good m0 s'.
Proof. intros [V C] [V' C']. split; congruence. Qed.

Lemma pbind_inv Q r f :
  pres_inv Q r -> (forall s, Q s -> pres_inv Q (f s)) -> pres_inv Q (pbind r f).
Proof. intros Hr Hf. destruct r; cbn in *; auto. Qed.

Lemma pay_from_spec avail rem p a r : pay_from avail rem = (p, a, r) -> 0 <= avail -> 0 <= rem ->
  0 <= a <= avail /\ 0 <= p /\ 0 <= r /\ p + a = avail /\ p + r = rem.
Proof.
  unfold pay_from. intros H Ha Hr. destruct (avail =? 0) eqn:E0; [injection H as <- <- <-; lia|].
  destruct (rem <? avail) eqn:E1; injection H as <- <- <-; lia.
Qed.

Lemma pay_from_left avail rem p a r : pay_from avail rem = (p, a, r) -> 0 <= avail -> 0 <= a.
Proof.
  unfold pay_from. intros H Ha. destruct (avail =? 0); [injection H as _ <- _; exact Ha|].
  destruct (rem <? avail) eqn:E1; injection H as _ <- _; lia.
Qed.

Section F.
  Variable w : Z.

  Lemma pay_to_primary_pool_kept pr p s pc psec s' : pay_to_primary_pool w pr p s pc psec = Ok s' -> kept s s'.
  Proof.
    unfold pay_to_primary_pool. intros H. ok_all H; injection H as <-; frame_eqs; split; cbn; congruence.
  Qed.

  Lemma add_pnl_token_amount_kept p s a s' : add_pnl_token_amount w p s a = Ok s' -> kept s s'.
  Proof. unfold add_pnl_token_amount. intros H. ok_all H; injection H as <-; split; reflexivity. Qed.

  Lemma step_add_pnl_kept pr p s pnl s' : step_add_pnl w pr p s pnl = Ok s' -> kept s s'.
  Proof.
    unfold step_add_pnl. intros H. ok_all H; [|injection H as <-; split; reflexivity].
    apply add_pnl_token_amount_kept in H. destruct H as [V K]. cbn in V, K. frame_eqs. split; congruence.
  Qed.
  Lemma step_add_impact_kept pr p s piv s' : step_add_impact w pr p s piv = Ok s' -> kept s s'.
  Proof.
    unfold step_add_impact. intros H. ok_all H; [|injection H as <-; split; reflexivity].
    apply add_pnl_token_amount_kept in H. destruct H as [V K]. cbn in V, K. frame_eqs. split; congruence.
  Qed.

  Lemma do_pay_for_cost_spec pr p s cost s' a b c :
    do_pay_for_cost w pr p s cost = Ok (s', a, b, c) -> st_m s' = st_m s /\ (0 <= st_coll s -> 0 <= st_coll s').
  Proof.
    unfold do_pay_for_cost. intros H.
    destruct (cost =? 0); [injection H as <- _ _ _; auto|].
    bind_ok H as rem E. destruct (pay_from (st_out s) rem) as [[p1 o1] r1]. cbv zeta in H.
    destruct (r1 =? 0); [injection H as <- _ _ _; auto|]. cbn [st_coll st_m] in H.
    destruct (pay_from (st_coll s) r1) as [[p2 c2] r2] eqn:EP. bind_ok H as paidc E1. cbn [st_m] in H.
    pose proof (pay_from_left _ _ _ _ _ EP) as Hc2.
    destruct (r2 =? 0); [injection H as <- _ _ _; auto|].
    bind_ok H as rs E2. cbn [st_sec] in H. destruct (pay_from (st_sec s) rs) as [[p3 s3] r3].
    bind_ok H as c' E3. injection H as <- _ _ _. auto.
  Qed.

  Lemma pay_for_cost_good m0 pr p s cost step receive :
    good m0 s ->
    (forall s1 pc psec rem s2, receive s1 pc psec rem = Ok s2 -> kept s1 s2) ->
    pres_inv (good m0) (pay_for_cost w pr p s cost step receive).
  Proof.
    intros [HV HC] Hr. unfold pay_for_cost, plift.
    destruct (do_pay_for_cost w pr p s cost) as [[[[s1 pc] psec] rem]|e] eqn:E; [|exact I].
    apply do_pay_for_cost_spec in E. destruct E as [Em Ec].
    destruct (receive s1 pc psec rem) as [s2|e] eqn:E2; [|exact I].
    assert (good m0 s2) by (apply (good_kept m0 s1); [split; [congruence|auto]|exact (Hr _ _ _ _ _ E2)]).
    destruct (rem =? 0); assumption.
  Qed.

  Lemma step_funding_good m0 pr p s : good m0 s -> pres_inv (good m0) (step_funding w pr p s).
  Proof.
    intros G. unfold step_funding. destruct (f_fund (st_fees s) =? 0); [exact G|].
    unfold plift. destruct (of_opt E_COMP (umul w (f_fund (st_fees s)) (pmin (out_price pr p)))); [|exact I].
    apply pay_for_cost_good; [exact G|].
    intros s1 pc psec rem s2 H. ok_all H; injection H as <-; split; reflexivity.
  Qed.

  Lemma step_pnl_negative_good m0 pr p s pnl : good m0 s -> pres_inv (good m0) (step_pnl_negative w pr p s pnl).
  Proof.
    intros G. unfold step_pnl_negative. destruct (pnl <? 0); [|exact G].
    apply pay_for_cost_good; [exact G|].
    intros s1 pc psec rem s2 H. exact (pay_to_primary_pool_kept _ _ _ _ _ _ H).
  Qed.

  Lemma step_fees_good m0 pr p s : good m0 s -> pres_inv (good m0) (step_fees w pr p s).
  Proof.
    intros G. unfold step_fees, plift. destruct (fees_total_excl_funding w (st_fees s)) as [ca|]; [|exact I].
    destruct (ca =? 0); [exact G|].
    destruct (of_opt E_COMP (umul w ca (pmin (out_price pr p)))); [|exact I].
    apply pay_for_cost_good; [exact G|].
    intros s1 pc psec rem s2 H.
    destruct ((rem =? 0) && (psec =? 0)).
    - ok_all H. injection H as <-. frame_eqs. split; cbn; [congruence|reflexivity].
    - ok_all H. injection H as <-. exact (pay_to_primary_pool_kept _ _ _ _ _ _ E).
  Qed.

  Lemma step_impact_negative_good m0 pr p s piv : good m0 s -> pres_inv (good m0) (step_impact_negative w pr p s piv).
  Proof.
    intros G. unfold step_impact_negative. destruct (piv <? 0); [|exact G].
    apply pay_for_cost_good; [exact G|].
    intros s1 pc psec rem s2 H.
    bind_ok H as s1' E. apply pay_to_primary_pool_kept in E. destruct E as [V K].
    ok_all H; injection H as <-; frame_eqs; split; cbn; congruence.
  Qed.

  Lemma step_impact_diff_good m0 pr p s diff : good m0 s -> pres_inv (good m0) (step_impact_diff w pr p s diff).
  Proof.
    intros G. unfold step_impact_diff. destruct (diff =? 0); [exact G|].
    apply pay_for_cost_good; [exact G|].
    intros s1 pc psec rem s2 H. ok_all H; injection H as <-; split; reflexivity.
  Qed.

  (* CollateralProcessor::process only moves tokens between the primary pool, the fee pool,
     the impact pool and the outputs: the C07 pools are untouched, and the remaining
     collateral stays non-negative *)
  Lemma process_costs_good pr p m fs pnl piv diff ins st step :
    0 <= coll p ->
    process_costs w pr p m fs pnl piv diff ins = Ok (st, step) -> view (st_m st) = view m /\ 0 <= st_coll st.
  Proof.
    unfold process_costs. intros Hc H.
    match type of H with match ?r with _ => _ end = _ =>
      assert (HV : pres_inv (good m) r); [|destruct r as [s|stp s|e]; cbn in HV] end.
    { assert (G0 : good m (MkPState m 0 0 (coll p) 0 0 0 0 fs)) by (split; [reflexivity|exact Hc]).
      unfold plift.
      destruct (step_add_pnl w pr p _ pnl) as [s1|] eqn:E1; [|exact I].
      pose proof (good_kept _ _ _ G0 (step_add_pnl_kept _ _ _ _ _ E1)) as G1.
      destruct (step_add_impact w pr p s1 piv) as [s2|] eqn:E2; [|exact I].
      pose proof (good_kept _ _ _ G1 (step_add_impact_kept _ _ _ _ _ E2)) as G2.
      apply pbind_inv; [apply step_funding_good; exact G2|].
      intros s3 G3. apply pbind_inv; [apply step_pnl_negative_good; exact G3|].
      intros s4 G4. apply pbind_inv; [apply step_fees_good; exact G4|].
      intros s5 G5. apply pbind_inv; [apply step_impact_negative_good; exact G5|].
      intros s6 G6. apply step_impact_diff_good; exact G6. }
    - injection H as <- _. exact HV.
    - destruct ins; [injection H as <- _; exact HV|discriminate].
    - discriminate.
  Qed.
End F.
