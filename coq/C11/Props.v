(* C11 — Position profit and loss moves with the price in the right direction.
   Property theorems only; each is closed by a lemma of Proofs.v.
   The model (PS/Model.v: pnl_value, total_pnl, market_pnl, cap_pnl, size_delta_in_tokens) is the
   Gallina transcription of PositionExt::pnl_value, BaseMarketExt::pnl, MarketUtils::cap_pnl. *)
From GV Require Import lib.Base PS.Model C11.Proofs C11.Corr C11.Sound.
Open Scope Z_scope.

(* 1. the uncapped pnl of a close is monotone in the index price (all positions, pool states, caps, widths) *)
Theorem c11_pnl_uncapped_monotone : forall w, 1 <= w -> forall unit, 0 < unit ->
  forall p m pr1 pr2 d a1 b1 c1 a2 b2 c2,
  pos_nonneg p -> prices_nonneg pr1 -> prices_nonneg pr2 -> pnl_market_nonneg m -> 0 <= d ->
  index_le_prop pr1 pr2 ->
  pnl_value w unit p m pr1 d = Ok (a1, b1, c1) ->
  pnl_value w unit p m pr2 d = Ok (a2, b2, c2) ->
  c1 = c2 /\ if is_long p then b1 <= b2 else b2 <= b1.
Proof. intros w Hw unit Hu. exact (pnl_uncapped_monotone w Hw unit Hu). Qed.

(* 2. the realised pnl is monotone outside the known class TraderCapBinding
      (class = the credited pnl differs from the uncapped pnl in one of the two evaluations) *)
Theorem c11_pnl_realised_monotone_outside_class : forall w, 1 <= w -> forall unit, 0 < unit ->
  forall p m pr1 pr2 d a1 b1 c1 a2 b2 c2,
  pos_nonneg p -> prices_nonneg pr1 -> prices_nonneg pr2 -> pnl_market_nonneg m -> 0 <= d ->
  index_le_prop pr1 pr2 ->
  pnl_value w unit p m pr1 d = Ok (a1, b1, c1) ->
  pnl_value w unit p m pr2 d = Ok (a2, b2, c2) ->
  a1 = b1 -> a2 = b2 ->
  if is_long p then a1 <= a2 else a2 <= a1.
Proof. intros w Hw unit Hu. exact (pnl_realised_monotone_cap_not_binding w Hw unit Hu). Qed.

(* 2'. the cap does not bind (credited = uncapped) whenever the pool pnl is within pool value * trader factor *)
Theorem c11_cap_not_binding : forall w, 1 <= w -> forall unit, 0 < unit ->
  forall p m pr d a b c poolv ppnl,
  pos_nonneg p -> prices_nonneg pr -> pnl_market_nonneg m -> 0 <= d ->
  pool_value_one_side w m pr (is_long p) false = Ok poolv ->
  market_pnl w m (p_index pr) (is_long p) true = Ok ppnl ->
  ppnl <= poolv * c_max_pnl_trader (m_cfg m) / unit ->
  pnl_value w unit p m pr d = Ok (a, b, c) -> a = b.
Proof. intros w Hw unit Hu. exact (pnl_cap_not_binding w Hw unit Hu). Qed.

(* 3. the pnl credited never exceeds the uncapped pnl, keeps its sign, and losses are never reduced *)
Theorem c11_pnl_le_uncapped : forall w, 1 <= w -> forall unit, 0 < unit ->
  forall p m pr d a b c,
  pos_nonneg p -> prices_nonneg pr -> pnl_market_nonneg m -> 0 <= d ->
  pnl_value w unit p m pr d = Ok (a, b, c) ->
  a <= b /\ (b <= 0 -> a = b) /\ (0 <= b -> 0 <= a).
Proof. intros w Hw unit Hu. exact (pnl_le_uncapped w Hw unit Hu). Qed.

(* 4. exact form: both values are the truncated closed share of the total pnl at the price that is worse
      for the trader (long: min, short: max), and the closed tokens round against the trader *)
Theorem c11_pnl_value_exact : forall w, 1 <= w -> forall unit, 0 < unit ->
  forall p m pr d a b c,
  pos_nonneg p -> prices_nonneg pr -> pnl_market_nonneg m -> 0 <= d ->
  pnl_value w unit p m pr d = Ok (a, b, c) ->
  exists tc, 0 < size_tok p /\ 0 <= c /\ size_delta_in_tokens w p d = Ok c /\
    total_pnl w unit p m pr = Ok (tc, exact_total p pr) /\
    a = Z.quot (c * tc) (size_tok p) /\ b = Z.quot (c * exact_total p pr) (size_tok p) /\
    tc <= exact_total p pr /\ (exact_total p pr <= 0 -> tc = exact_total p pr) /\ (0 <= exact_total p pr -> 0 <= tc).
Proof. intros w Hw unit Hu. exact (pnl_value_spec w Hw unit Hu). Qed.

Theorem c11_size_delta_in_tokens : forall w, 1 <= w -> forall p d c, pos_nonneg p -> 0 <= d ->
  size_delta_in_tokens w p d = Ok c ->
  0 <= c /\
  ((size_usd p = d /\ c = size_tok p) \/
   (size_usd p <> d /\ 0 < size_usd p /\ is_long p = true /\
      size_usd p * (c - 1) < size_tok p * d <= size_usd p * c) \/
   (size_usd p <> d /\ 0 < size_usd p /\ is_long p = false /\
      size_usd p * c <= size_tok p * d < size_usd p * c + size_usd p)).
Proof. intros w Hw. exact (sdt_spec w Hw). Qed.

(* 5. a partial close realises the closed share of the pnl, up to rounding:
      | x - X*d/S | < 1 + |X|/T  for the credited and for the uncapped pnl *)
Theorem c11_partial_close_proportional : forall w, 1 <= w -> forall unit, 0 < unit ->
  forall p m pr d a b c A B C,
  pos_nonneg p -> prices_nonneg pr -> pnl_market_nonneg m -> 0 <= d -> 0 < size_usd p ->
  pnl_value w unit p m pr d = Ok (a, b, c) ->
  pnl_value w unit p m pr (size_usd p) = Ok (A, B, C) ->
  C = size_tok p /\
  share_close (size_tok p) (size_usd p) d a A /\ share_close (size_tok p) (size_usd p) d b B.
Proof. intros w Hw unit Hu. exact (partial_close_proportional w Hw unit Hu). Qed.

(* 6. the oracle of Corr.v evaluated on the model's own outputs: every clause holds, except the
      realised-pnl monotonicity inside the known class *)
Theorem c11_oracle_sound_one : forall w, 1 <= w -> forall unit, 0 < unit ->
  forall p m pr d,
  pos_nonneg p -> prices_nonneg pr -> pnl_market_nonneg m -> 0 <= d ->
  one_ok p pr d (pnl_value w unit p m pr d) = true.
Proof. intros w Hw unit Hu. exact (one_ok_sound w Hw unit Hu). Qed.

Theorem c11_oracle_sound_mono : forall w, 1 <= w -> forall dec,
  forall m p pr1 pr2 d, 0 < 10 ^ dec ->
  pos_nonneg p -> prices_nonneg pr1 -> prices_nonneg pr2 -> pnl_market_nonneg m -> 0 <= d ->
  let c := PnlMono w dec m p pr1 pr2 d (pnl_value w (10 ^ dec) p m pr1 d) (pnl_value w (10 ^ dec) p m pr2 d) in
  oracle_b c = true \/ known_b c = 1.
Proof. intros w Hw dec m p pr1 pr2 d Hu. exact (mono_case_sound w Hw (10 ^ dec) Hu m p pr1 pr2 d dec). Qed.

Theorem c11_oracle_sound_prop : forall w, 1 <= w -> forall unit, 0 < unit ->
  forall p m pr d,
  pos_nonneg p -> prices_nonneg pr -> pnl_market_nonneg m -> 0 <= d -> 0 < size_usd p ->
  prop_ok p d (pnl_value w unit p m pr d) (pnl_value w unit p m pr (size_usd p)) = true.
Proof. intros w Hw unit Hu. exact (prop_ok_sound w Hw unit Hu). Qed.

(* Known finding TraderCapBinding: the literal statement "realised pnl never decreases as the index price
   rises for a long" is false when the trader cap binds.  Witness (replayed on the real code, u64/9):
   a long of 139 tokens / 19121871 usd in a pool whose other longs were opened at a higher price. *)
Theorem c11_trader_cap_binding_refuted :
  exists p m pr1 pr2 d,
    pos_nonneg p /\ prices_nonneg pr1 /\ prices_nonneg pr2 /\ pnl_market_nonneg m /\ 0 <= d /\
    index_le_prop pr1 pr2 /\
    known_b (PnlMono 64 9 m p pr1 pr2 d (pnl_value 64 (10 ^ 9) p m pr1 d) (pnl_value 64 (10 ^ 9) p m pr2 d)) = 1 /\
    ~ realised_monotone 64 (10 ^ 9) p m pr1 pr2 d.
Proof. exact trader_cap_binding_witness. Qed.

(* non-vacuity: the hypotheses hold on concrete states and the functions return values there *)
Example c11_ex_uncapped :
  pnl_value 64 (10 ^ 9) wit_pos wit_market wit_pr1 19121871 = Ok (33231089, 33231089, 139).
Proof. exact wit_uncapped. Qed.
Example c11_ex_capped :
  pnl_value 64 (10 ^ 9) wit_pos wit_market wit_pr2 19121871 = Ok (7425677, 138469657, 139).
Proof. exact wit_capped. Qed.
Example c11_ex_partial :
  pnl_value 64 (10 ^ 9) wit_pos wit_market wit_pr1 9560935 = Ok (16735080, 16735080, 70).
Proof. vm_compute. reflexivity. Qed.
