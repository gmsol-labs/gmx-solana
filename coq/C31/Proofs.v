(* C31 — the table invariant over histories; the combination of the rank and the referral
   discount ([combine_spec], [combined_bounds]); the discount theorems read off them. *)
From GV Require Import lib.Base lib.DivLemmas C01.Proofs C31.Model.
Open Scope Z_scope.

(* [lia] puts every section hypothesis about a variable of the goal into the proof term, needed or not:
   where a closed statement is stated with such a hypothesis, [Proof using] keeps it; elsewhere it is cleared. *)
Section P.
  Variable w : Z.
  Hypothesis Hw : 1 <= w.
  Variable unit : Z.
  Hypothesis Hunit : 0 < unit < 2 ^ w.

  (* the invariant maintained by GtState: MAX_RANK + 1 entries, each a fraction of at most 100% *)
  Definition inv (st : gstate) : Prop :=
    0 <= g_max_rank st <= MAX_RANK /\ length (g_table st) = 16%nat /\
    Forall (fun f => 0 <= f <= unit) (g_table st).

  Lemma inv_zero : inv zero_state.
  Proof.
    unfold inv, zero_state, MAX_RANK. simpl. split; [lia|]. split; [reflexivity|].
    repeat constructor; lia.
  Qed.

  Lemma inv_init st b gs ranks st' : inv st -> gt_init st b gs ranks = Ok st' -> inv st' /\
    g_max_rank st' = Z.min (Z.of_nat (length ranks)) MAX_RANK /\ g_table st' = g_table st /\ g_ref st' = g_ref st.
  Proof using Hw.
    intros (A & B & C). unfold gt_init. destruct b; [discriminate|]. destruct (gs =? 0); [discriminate|].
    destruct (negb _); [discriminate|]. intros [= <-]. unfold inv. simpl.
    repeat split; auto; unfold MAX_RANK in *; lia.
  Qed.

  Lemma set_factors_ok st fs st' : set_factors unit st fs = Ok st' ->
    Z.of_nat (length fs) = g_max_rank st + 1 /\ Forall (fun f => f <= unit) fs /\
    st' = MkG (g_max_rank st) (fs ++ skipn (length fs) (g_table st)) (g_ref st).
  Proof.
    unfold set_factors. destruct (Z.eqb_spec (Z.of_nat (length fs)) (g_max_rank st + 1)) as [E1|]; [|discriminate].
    destruct (forallb (fun f => f <=? unit) fs) eqn:E2; [|discriminate]. cbn [negb].
    intros [= <-]. split; [exact E1|]. split; [|reflexivity].
    apply Forall_forall. intros x Hx. rewrite forallb_forall in E2. apply Z.leb_le, E2, Hx.
  Qed.

  (* GtState::set_order_fee_discount_factors caps factors at 100% *)
  Lemma set_factors_rejects st fs : (exists f, In f fs /\ unit < f) -> set_factors unit st fs = Err 1.
  Proof using Type.
    intros (f & Hin & Hf). unfold set_factors. destruct (negb _); [reflexivity|].
    destruct (forallb (fun f => f <=? unit) fs) eqn:E; [|reflexivity].
    rewrite forallb_forall in E. apply E, Z.leb_le in Hin.
    exfalso. apply (Z.lt_irrefl f), (Z.le_lt_trans _ unit); assumption.
  Qed.

  Lemma inv_set st fs st' : inv st -> Forall (fun f => 0 <= f) fs -> set_factors unit st fs = Ok st' -> inv st'.
  Proof using Type.
    clear Hw Hunit.   (* else lia puts it into the proof term and every user has to supply it *)
    intros (A & B & C) Hnn H. apply set_factors_ok in H as (L & F & ->). unfold inv. simpl.
    split; [lia|]. unfold MAX_RANK in *. split.
    - rewrite app_length, skipn_length. lia.
    - apply Forall_app. split; rewrite Forall_forall in *; intros x Hx.
      + specialize (F x Hx). specialize (Hnn x Hx). simpl in *. lia.
      + apply C. eapply in_skipn; eauto.
  Qed.

  Definition wf_op (o : op) : Prop :=
    match o with OSet fs => Forall (fun f => 0 <= f) fs | ORef f => 0 <= f end.

  Lemma history_ind (P : gstate -> Prop) : (forall st o, P st -> wf_op o -> P (apply_op unit st o)) ->
    forall ops st, P st -> Forall wf_op ops -> P (fold_left (apply_op unit) ops st).
  Proof.
    intros Step ops st Hi Ho. rewrite Forall_forall in Ho.
    apply fold_left_inv; [|exact Hi]. intros st' o Hin Hi'. apply Step; [exact Hi'|apply Ho, Hin].
  Qed.

  Theorem inv_history ops st : inv st -> Forall wf_op ops -> inv (fold_left (apply_op unit) ops st).
  Proof using Hw.
    apply history_ind. intros st' o Hi Ho. destruct o as [fs|f]; simpl.
    - destruct (set_factors unit st' fs) eqn:E; [eapply inv_set; eauto|exact Hi].
    - exact Hi.
  Qed.

  Lemma ref_history_nonneg ops st : 0 <= g_ref st -> Forall wf_op ops ->
    0 <= g_ref (fold_left (apply_op unit) ops st).
  Proof.
    apply (history_ind (fun st => 0 <= g_ref st)). intros st' o Hr Ho. destruct o as [fs|f]; simpl; [|exact Ho].
    destruct (set_factors unit st' fs) eqn:E; [|exact Hr]. apply set_factors_ok in E as (_ & _ & ->). exact Hr.
  Qed.

  Lemma rank_factor_ok st rank a : inv st -> 0 <= rank -> rank_factor st rank = Ok a ->
    rank <= g_max_rank st /\ 0 <= a <= unit.
  Proof using Type.
    clear Hw Hunit.
    intros (A & B & C) Hr. unfold rank_factor. destruct (Z.ltb_spec (g_max_rank st) rank); [discriminate|].
    intros [= <-]. split; [assumption|].
    rewrite Forall_forall in C. apply C. apply nth_In. unfold MAX_RANK in *. lia.
  Qed.

  Lemma frac_le a x : 0 <= a <= unit -> 0 <= x -> 0 <= a * x / unit <= x.
  Proof. intros Ha Hx. split; [apply mul_div_nonneg; lia|rewrite Z.mul_comm; apply mul_div_le_self; lia]. Qed.

  Lemma combine_spec a b d : 0 <= a <= unit -> 0 <= b ->
    combine w unit a b = Ok d <-> b <= unit /\ d = b + a * (unit - b) / unit.
  Proof.
    intros Ha Hb. unfold combine. rewrite rbind_ok. split.
    - intros (c & H1 & H2). apply of_opt_ok, usub_some in H1 as [H1 ->].
      apply of_opt_ok, obind_some in H2 as (f & H2 & H3).
      apply apply_factor_exact in H2 as [-> _]; [|lia..]. apply uadd_some in H3 as [_ ->]. lia.
    - intros [Hb' ->]. pose proof (frac_le a (unit - b) Ha ltac:(lia)).
      exists (unit - b). split; [apply of_opt_ok, usub_some; lia|].
      apply of_opt_ok, obind_some. exists (a * (unit - b) / unit). split.
      + apply apply_factor_exact; [lia..|]. split; [reflexivity|lia].
      + apply uadd_some. lia.
  Qed.

  (* d = 1 - (1 - a)(1 - b) in units of [unit], rounded down by less than one unit *)
  Lemma combined_bounds a b d : 0 <= a <= unit -> 0 <= b <= unit -> d = b + a * (unit - b) / unit ->
    0 <= d <= unit /\ a <= d /\ b <= d /\ unit * d <= unit * unit - (unit - a) * (unit - b) < unit * d + unit.
  Proof using Hunit.
    clear Hw.
    intros Ha Hb ->. pose proof (frac_le a (unit - b) Ha ltac:(lia)) as Hq.
    pose proof (div_floor_spec (a * (unit - b)) unit ltac:(lia)) as HF.
    set (q := a * (unit - b) / unit) in *.
    (* a <= b + q  <->  a - b <= q ; from unit*q > a*(unit-b) - unit *)
    assert (a <= b + q) by nia.
    repeat split; try lia; nia.
  Qed.

  Lemma discount_referred st rank d : discount w unit st rank true = Ok d ->
    exists a, discount w unit st rank false = Ok a /\ combine w unit a (g_ref st) = Ok d.
  Proof. unfold discount. destruct (rank_factor st rank) as [a|]; [|discriminate]. simpl. eauto. Qed.

  Lemma discount_unreferred st rank a : inv st -> 0 <= rank -> discount w unit st rank false = Ok a -> 0 <= a <= unit.
  Proof.
    intros Hi Hk. unfold discount. rewrite rbind_ok. intros (a0 & H & [= <-]). eapply rank_factor_ok; eauto.
  Qed.

  Theorem discount_spec st rank a d : inv st -> 0 <= g_ref st -> 0 <= rank ->
    discount w unit st rank false = Ok a -> discount w unit st rank true = Ok d ->
    0 <= a <= unit /\ g_ref st <= unit /\ d = g_ref st + a * (unit - g_ref st) / unit /\
    0 <= d <= unit /\ a <= d /\ g_ref st <= d /\
    unit * d <= unit * unit - (unit - a) * (unit - g_ref st) < unit * d + unit.
  Proof.
    intros Hi Hr Hk Ha Hd. apply discount_referred in Hd as (a' & Ha' & Hd). rewrite Ha in Ha'. injection Ha' as <-.
    apply discount_unreferred in Ha; [|assumption..]. apply combine_spec in Hd as [B D]; [|assumption..].
    pose proof (combined_bounds a (g_ref st) d Ha (conj Hr B) D). tauto.
  Qed.

  Theorem discount_le_unit st rank referred d : inv st -> 0 <= g_ref st -> 0 <= rank ->
    discount w unit st rank referred = Ok d -> 0 <= d <= unit.
  Proof using Hw Hunit.
    intros Hi Hr Hk H. destruct referred; [|eapply discount_unreferred; eauto].
    destruct (discount_referred _ _ _ H) as (a & Ha & _). apply (discount_spec st rank a d); assumption.
  Qed.

  Theorem referred_ge_unreferred st rank a d : inv st -> 0 <= g_ref st -> 0 <= rank ->
    discount w unit st rank false = Ok a -> discount w unit st rank true = Ok d -> a <= d /\ g_ref st <= d.
  Proof using Hw Hunit. intros Hi Hr Hk Ha Hd. pose proof (discount_spec st rank a d Hi Hr Hk Ha Hd). tauto. Qed.

  Theorem discount_formula st rank a d : inv st -> 0 <= g_ref st -> 0 <= rank ->
    discount w unit st rank false = Ok a -> discount w unit st rank true = Ok d ->
    d = g_ref st + a * (unit - g_ref st) / unit /\
    unit * d <= unit * unit - (unit - a) * (unit - g_ref st) < unit * d + unit.
  Proof using Hw Hunit. intros Hi Hr Hk Ha Hd. pose proof (discount_spec st rank a d Hi Hr Hk Ha Hd). tauto. Qed.

  Theorem rank_above_max_rejected st rank referred : g_max_rank st < rank ->
    discount w unit st rank referred = Err 1.
  Proof using Type. intros H. unfold discount, rank_factor. replace (g_max_rank st <? rank) with true by lia. reflexivity. Qed.

  Theorem discount_total st rank referred : inv st -> 0 <= rank <= g_max_rank st -> 0 <= g_ref st <= unit ->
    exists d, discount w unit st rank referred = Ok d.
  Proof.
    intros Hi Hk Hr. unfold discount.
    destruct (rank_factor st rank) as [a|e] eqn:E.
    - cbn [rbind]. pose proof (rank_factor_ok st rank a Hi ltac:(lia) E) as [_ Ha].
      destruct referred; [|eauto]. exists (g_ref st + a * (unit - g_ref st) / unit).
      apply combine_spec; [assumption|lia|split; [lia|reflexivity]].
    - unfold rank_factor in E. replace (g_max_rank st <? rank) with false in E by lia. discriminate.
  Qed.

  Theorem referral_above_unit_rejected st rank : 0 <= rank <= g_max_rank st -> unit < g_ref st ->
    discount w unit st rank true = Err 3.
  Proof using Type.
    intros Hk Hr. unfold discount, rank_factor. replace (g_max_rank st <? rank) with false by lia.
    cbn [rbind]. unfold combine. assert (E : usub w unit (g_ref st) = None) by (apply chk_u_none; lia). rewrite E. reflexivity.
  Qed.

  Theorem sdk_eq_program st rank referred : sdk_discount w unit st rank referred = discount w unit st rank referred.
  Proof using Type.
    unfold sdk_discount, discount, rank_factor, combine. destruct (g_max_rank st <? rank); [reflexivity|].
    cbn [rbind]. destruct referred; reflexivity.
  Qed.

  Definition reachable (st : gstate) : Prop :=
    exists gs ranks st0 ops, gt_init zero_state false gs ranks = Ok st0 /\ Forall wf_op ops /\
                             st = fold_left (apply_op unit) ops st0.

  Lemma reachable_inv st : reachable st -> inv st /\ 0 <= g_ref st.
  Proof.
    intros (gs & ranks & st0 & ops & Hi & Ho & ->).
    apply inv_init in Hi; [|exact inv_zero]. destruct Hi as (Hi & _ & _ & Hr). split.
    - apply inv_history; assumption.
    - apply ref_history_nonneg; [rewrite Hr; simpl; lia|assumption].
  Qed.

  Theorem h_discount_le_unit st rank referred d : reachable st -> 0 <= rank ->
    discount w unit st rank referred = Ok d -> 0 <= d <= unit.
  Proof. intros [Hi Hr]%reachable_inv. apply discount_le_unit; assumption. Qed.

  Theorem h_referred_ge_unreferred st rank a d : reachable st -> 0 <= rank ->
    discount w unit st rank false = Ok a -> discount w unit st rank true = Ok d -> a <= d /\ g_ref st <= d.
  Proof. intros [Hi Hr]%reachable_inv. apply referred_ge_unreferred; assumption. Qed.

  Theorem h_discount_formula st rank a d : reachable st -> 0 <= rank ->
    discount w unit st rank false = Ok a -> discount w unit st rank true = Ok d ->
    d = g_ref st + a * (unit - g_ref st) / unit /\
    unit * d <= unit * unit - (unit - a) * (unit - g_ref st) < unit * d + unit.
  Proof. intros [Hi Hr]%reachable_inv. apply discount_formula; assumption. Qed.

  Theorem h_discount_total st rank referred : reachable st -> 0 <= rank <= g_max_rank st -> g_ref st <= unit ->
    exists d, discount w unit st rank referred = Ok d.
  Proof. intros [Hi Hr]%reachable_inv Hk Hu. apply discount_total; auto. Qed.
End P.
