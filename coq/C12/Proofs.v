(* C12 — proofs: bounds on the funding rate. *)
From GV Require Import lib.Base C01.Model C01.Proofs C12.Model.
Open Scope Z_scope.

(* [errs_in E a]: every error kind [a] can return satisfies [E]. *)
Definition errs_in {A} (E : Z -> Prop) (a : res A) : Prop := forall e, a = Err e -> E e.

Lemma errs_ok {A} E (x : A) : errs_in E (Ok x).
Proof. intros e [=]. Qed.
Lemma errs_err {A} (E : Z -> Prop) e : E e -> errs_in E (@Err A e).
Proof. intros He e' [= <-]. exact He. Qed.
Lemma errs_of_opt {A} (E : Z -> Prop) e (o : option A) : E e -> errs_in E (of_opt e o).
Proof. intros He e' H. apply of_opt_err in H. destruct H as [_ ->]. exact He. Qed.
Lemma errs_rbind {A B} E (a : res A) (f : A -> res B) :
  errs_in E a -> (forall x, errs_in E (f x)) -> errs_in E (rbind a f).
Proof.
  intros Ha Hf e H. apply rbind_err in H. destruct H as [H|(x & _ & H)]; [exact (Ha e H)|exact (Hf x e H)].
Qed.
Lemma errs_if {A} E (c : bool) (a b : res A) : errs_in E a -> errs_in E b -> errs_in E (if c then a else b).
Proof. destruct c; auto. Qed.
Lemma errs_mono {A} (E E' : Z -> Prop) (a : res A) : errs_in E a -> (forall e, E e -> E' e) -> errs_in E' a.
Proof. intros Ha HE e H. exact (HE e (Ha e H)). Qed.

(* One lemma per construct of a monadic body, so [auto with errs] walks through a definition;
   [errs_mono] changes the predicate and is applied by hand. *)
Global Hint Resolve errs_ok errs_err errs_of_opt errs_rbind errs_if : errs.

Section P.
  Variable w : Z.
  Hypothesis Hw : 1 <= w.
  Variable unit : Z.

  Definition wf_params (p : fparams) : Prop := 0 <= f_min p /\ 0 <= f_max p.

  (* the class of the known deviation, as a predicate on (parameters, resulting rate) *)
  Definition nonadaptive_min_class (p : fparams) (m : Z) : bool := (f_inc p =? 0) && (m <? f_min p).

  Lemma bm_ok v mn mx r : 0 <= mn -> 0 <= mx -> in_s w v = true ->
    bm w v mn mx = Ok r ->
    mn <= mx /\ Z.abs r = Z.max mn (Z.min (Z.abs v) mx) /\ in_s w r = true /\
    (v < 0 -> r <= 0) /\ (0 <= v -> 0 <= r).
  Proof.
    intros Hmn Hmx Hv. unfold bm.
    destruct (bound_magnitude w v mn mx) as [x|e] eqn:E; [|destruct (e =? 1); discriminate].
    intros H. injection H as <-.
    apply bound_magnitude_spec in E; try assumption. unfold clampZ in E. intuition.
  Qed.

  Lemma bm_errs v mn mx : 0 <= mn -> 0 <= mx ->
    errs_in (fun e => e = 3 \/ e = 4 /\ mx < mn) (bm w v mn mx).
  Proof.
    intros Hmn Hmx e. unfold bm.
    destruct (bound_magnitude w v mn mx) as [x|e0] eqn:E; [discriminate|].
    apply bound_magnitude_err in E; try assumption.
    destruct (Z.eqb_spec e0 1); intros [= <-]; lia.
  Qed.

  Lemma changed_factor_range p cur dur long short dtoi nx : in_s w cur = true ->
    changed_factor w unit p cur dur long short dtoi = Ok nx -> in_s w nx = true.
  Proof.
    rewrite !in_s_iff. intros Hc. unfold changed_factor.
    destruct (change_type p cur long short dtoi =? 1).
    - intros H. bind_ok H as iv E1. bind_ok H as ivs E2. apply of_opt_ok, sadd_some in H. lia.
    - destruct ((change_type p cur long short dtoi =? 2) && negb (Z.abs cur =? 0)); [|intros [= <-]; exact Hc].
      intros H. bind_ok H as dv E1. apply umul_some in E1. destruct E1 as [E1 ->].
      destruct (Z.abs cur <=? f_dec p * dur).
      + bind_ok H as ms E2. apply of_opt_ok, sdiv_some in H. lia.
      + bind_ok H as d E2. apply usub_some in E2. destruct E2 as [E2 ->]. apply of_opt_ok in H.
        destruct (cur <? 0).
        * apply to_opposite_signed_some in H; lia.
        * apply to_signed_some in H. lia.
  Qed.

  Lemma changed_factor_errs p cur dur long short dtoi :
    errs_in (fun e => e = 1 \/ e = 3) (changed_factor w unit p cur dur long short dtoi).
  Proof. unfold changed_factor. cbv zeta. auto 12 with errs. Qed.

  Theorem adaptive_rate_in_bounds p cur dur long short m lps nx :
    wf_params p -> in_s w cur = true -> f_inc p <> 0 ->
    next_ffps w unit p cur dur long short = Ok (m, lps, nx) ->
    f_min p <= f_max p /\ f_min p <= m <= f_max p /\ Z.abs nx <= f_max p /\ in_s w nx = true.
  Proof.
    intros [Hmn Hmx] Hc Hinc. unfold next_ffps.
    replace (f_inc p =? 0) with false by lia. rewrite andb_false_r.
    intros H. bind_ok H as total E1.
    destruct (total =? 0); [discriminate|].
    bind_ok H as dae E2. bind_ok H as dtoi E3.
    bind_ok H as nx0 E4. apply changed_factor_range in E4; [|assumption].
    bind_ok H as b1 E5. bind_ok H as b2 E6. injection H as <- <- <-.
    apply bm_ok in E5; [|lia|lia|assumption]. destruct E5 as (_ & A1 & R1 & _).
    apply bm_ok in E6; [|lia|lia|assumption]. destruct E6 as (A2 & A3 & _).
    clear - Hmx A1 A2 A3 R1. repeat split; try assumption; lia.
  Qed.

  Theorem fallback_rate p cur dur long short m lps nx :
    f_inc p = 0 -> 0 <= f_max p ->
    next_ffps w unit p cur dur long short = Ok (m, lps, nx) ->
    0 <= m <= f_max p /\ nx = 0 /\
    (long <> short -> lps = (short <? long)) /\ (long = short -> m = 0).
  Proof.
    intros Hinc Hmx. unfold next_ffps. rewrite Hinc. cbn [Z.eqb]. rewrite andb_true_r.
    destruct (Z.abs (long - short) =? 0) eqn:Ed.
    - intros H. injection H as <- <- <-. apply Z.eqb_eq in Ed. repeat split; lia.
    - apply Z.eqb_neq in Ed. intros H. bind_ok H as total E1.
      destruct (total =? 0); [discriminate|].
      bind_ok H as dae E2. bind_ok H as dtoi E3. bind_ok H as f E4. injection H as <- <- <-.
      apply apply_factor_range in E4.
      repeat split; try (destruct (f_max p <? f) eqn:E; lia); try lia; try reflexivity.
  Qed.

  Lemma next_ffps_errs p cur dur long short : wf_params p ->
    errs_in (fun e => e = 1 \/ e = 2 \/ e = 3 \/ e = 4 /\ f_max p < f_min p)
            (next_ffps w unit p cur dur long short).
  Proof.
    intros [Hmn Hmx]. unfold next_ffps. cbv zeta.
    set (E := fun e => e = 1 \/ e = 2 \/ e = 3 \/ e = 4 /\ f_max p < f_min p).
    (* the sub-computations with error kinds of their own, weakened to [E]; the rest is syntax *)
    assert (HB0 : forall v, errs_in E (bm w v 0 (f_max p)))
      by (intros v; eapply errs_mono; [apply bm_errs; lia|]; unfold E; lia).
    assert (HB1 : forall v, errs_in E (bm w v (f_min p) (f_max p)))
      by (intros v; eapply errs_mono; [apply bm_errs; lia|]; unfold E; lia).
    assert (HC : forall dtoi, errs_in E (changed_factor w unit p cur dur long short dtoi))
      by (intros dtoi; eapply errs_mono; [apply changed_factor_errs|]; unfold E; lia).
    assert (E 1 /\ E 2) as [E1 E2] by (unfold E; lia).
    auto 14 with errs.
  Qed.
End P.

(* witness of the deviation (u64, 9 decimals): non-adaptive mode, both sides open,
   min = 5000, max = 10000, open interest 1000 vs 999 dollars -> rate 500 < min *)
Definition witness_params : fparams := FP (10 ^ 9) 1000000 0 0 10000 5000 0 0.
Lemma fallback_min_refuted :
  exists p cur dur long short m lps nx,
    0 < long /\ 0 < short /\ f_inc p = 0 /\ f_min p <= f_max p /\
    next_ffps 64 (10 ^ 9) p cur dur long short = Ok (m, lps, nx) /\ ~ (f_min p <= m).
Proof.
  exists witness_params, 0, 60, (1000 * 10 ^ 9), (999 * 10 ^ 9), 500, true, 0.
  split; [reflexivity|]. split; [reflexivity|]. split; [reflexivity|].
  split; [discriminate|]. split; [vm_compute; reflexivity|]. intros H; exact (H eq_refl).
Qed.
