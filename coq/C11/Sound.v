(* C11 — the oracle predicates of Corr.v hold on the model's outputs (outside the known class),
   and the witness of the known class. *)
From GV Require Import C11.Proofs C11.Corr.
Open Scope Z_scope.

Section S.
  Variable w : Z.
  Hypothesis Hw : 1 <= w.
  Variable unit : Z.
  Hypothesis Hunit : 0 < unit.

  Lemma exact_total_eq p pr :
    (if is_long p then size_tok p * (if is_long p then pmin (p_index pr) else pmax (p_index pr)) - size_usd p
     else size_usd p - size_tok p * (if is_long p then pmin (p_index pr) else pmax (p_index pr))) = exact_total p pr.
  Proof. unfold exact_total. destruct (is_long p); reflexivity. Qed.

  Lemma one_ok_sound p m pr d :
    pos_nonneg p -> prices_nonneg pr -> pnl_market_nonneg m -> 0 <= d ->
    one_ok p pr d (pnl_value w unit p m pr d) = true.
  Proof.
    intros Hp Hpr Hm Hd. destruct (pnl_value w unit p m pr d) as [[[a b] c]|e] eqn:E; [|reflexivity].
    pose proof (pnl_le_uncapped w Hw unit Hunit _ _ _ _ _ _ _ Hp Hpr Hm Hd E) as (L1 & L2 & L3).
    destruct (pnl_value_spec w Hw unit Hunit _ _ _ _ _ _ _ Hp Hpr Hm Hd E) as (tc & HT & Hc & Es & _ & _ & Hb & _).
    pose proof (sdt_spec w Hw _ _ _ Hp Hd Es) as [_ Hcase].
    unfold one_ok. cbv zeta. rewrite exact_total_eq, !andb_true_iff. repeat split.
    - apply Z.leb_le. exact L1.
    - destruct (b <=? 0) eqn:Eb; [apply Z.eqb_eq; apply L2; lia | apply Z.leb_le; apply L3; lia].
    - apply negb_true_iff. apply Z.eqb_neq. lia.
    - apply Z.eqb_eq. exact Hb.
    - destruct Hcase as [[E1 E2]|[(Hn & HS & El & Hr)|(Hn & HS & El & Hr)]].
      + rewrite E1, Z.eqb_refl. apply Z.eqb_eq. exact E2.
      + replace (size_usd p =? d) with false by (symmetry; apply Z.eqb_neq; exact Hn). rewrite El.
        unfold ceil_ok. rewrite andb_true_iff, Z.ltb_lt, Z.leb_le. lia.
      + replace (size_usd p =? d) with false by (symmetry; apply Z.eqb_neq; exact Hn). rewrite El.
        unfold floor_ok. rewrite andb_true_iff, Z.leb_le, Z.ltb_lt. lia.
  Qed.

  Lemma prop_ok_sound p m pr d :
    pos_nonneg p -> prices_nonneg pr -> pnl_market_nonneg m -> 0 <= d -> 0 < size_usd p ->
    prop_ok p d (pnl_value w unit p m pr d) (pnl_value w unit p m pr (size_usd p)) = true.
  Proof.
    intros Hp Hpr Hm Hd HS.
    destruct (pnl_value w unit p m pr d) as [[[a b] c]|e] eqn:E1; [|reflexivity].
    destruct (pnl_value w unit p m pr (size_usd p)) as [[[A B] C]|e] eqn:E2; [|reflexivity].
    pose proof (partial_close_proportional w Hw unit Hunit _ _ _ _ _ _ _ _ _ _ Hp Hpr Hm Hd HS E1 E2) as (_ & S1 & S2).
    unfold prop_ok, share_ok. rewrite andb_true_iff, !Z.ltb_lt. split; assumption.
  Qed.

  Lemma index_le_iff pr1 pr2 : index_le pr1 pr2 = true <-> index_le_prop pr1 pr2.
  Proof. unfold index_le, index_le_prop. rewrite andb_true_iff, !Z.leb_le. reflexivity. Qed.

  Lemma mono_case_sound m p pr1 pr2 d dec :
    pos_nonneg p -> prices_nonneg pr1 -> prices_nonneg pr2 -> pnl_market_nonneg m -> 0 <= d ->
    let c := PnlMono w dec m p pr1 pr2 d (pnl_value w unit p m pr1 d) (pnl_value w unit p m pr2 d) in
    oracle_b c = true \/ known_b c = 1.
  Proof.
    intros Hp Hpr1 Hpr2 Hm Hd. cbv zeta.
    pose proof (one_ok_sound p m pr1 d Hp Hpr1 Hm Hd) as O1.
    pose proof (one_ok_sound p m pr2 d Hp Hpr2 Hm Hd) as O2.
    unfold oracle_b, known_b. rewrite O1, O2. cbn [andb].
    destruct (pnl_value w unit p m pr1 d) as [[[a1 b1] c1]|e1] eqn:E1; [|left; reflexivity].
    destruct (pnl_value w unit p m pr2 d) as [[[a2 b2] c2]|e2] eqn:E2; [|left; reflexivity].
    rewrite O1, O2. cbn [andb]. unfold mono_ok.
    destruct (index_le pr1 pr2) eqn:Ei; [|left; reflexivity].
    pose proof (proj1 (index_le_iff _ _) Ei) as Hi.
    pose proof (pnl_uncapped_monotone w Hw unit Hunit _ _ _ _ _ _ _ _ _ _ _ Hp Hpr1 Hpr2 Hm Hd Hi E1 E2) as [_ Hb].
    (* with A, B the monotonicity tests of the credited and of the uncapped pnl: mono_ok = A && B, B holds,
       and A can fail only when the cap binds in one of the two evaluations *)
    assert (HB : (if is_long p then b1 <=? b2 else b2 <=? b1) = true) by (destruct (is_long p); apply Z.leb_le; exact Hb).
    assert (HA : (a1 =? b1) && (a2 =? b2) = true -> (if is_long p then a1 <=? a2 else a2 <=? a1) = true).
    { rewrite andb_true_iff, !Z.eqb_eq. intros [X1 X2].
      pose proof (pnl_realised_monotone_cap_not_binding w Hw unit Hunit _ _ _ _ _ _ _ _ _ _ _ Hp Hpr1 Hpr2 Hm Hd Hi E1 E2 X1 X2) as M.
      destruct (is_long p); apply Z.leb_le; exact M. }
    destruct (if is_long p then a1 <=? a2 else a2 <=? a1) eqn:EA.
    - left. destruct (is_long p); rewrite EA, HB; reflexivity.
    - right. rewrite HB. cbn [andb negb].
      destruct (a1 =? b1), (a2 =? b2); try reflexivity. discriminate (HA eq_refl).
  Qed.
End S.

(* witness of the known class (a case produced by the real code, seed 1) *)
Definition wit_cfg : config :=
  MkConfig (MkPosParams 1000000000 1000000000 0 None 0 0 0) (MkImpactParams 2000000000 1 2) (MkFeeParams 0 0 0 None)
           0 0 0 1000000000 1000000000 855182266 855182266 0 1000000000 0 10.
Definition wit_market : market :=
  MkMarket wit_cfg (MkPool 172 123543) (MkPool 0 0) (MkPool 0 0) (MkPool 1079112218 497933278) (MkPool 0 0)
           (MkPool 3914 0) (MkPool 0 0) (MkPool 0 0) (MkPool 0 0) (MkPool 0 0) (MkPool 0 0) (MkPool 0 0)
           (MkPool 0 0) (MkPool 0 0) (MkPool 0 0) (MkPool 0 0) None None.
Definition wit_pos : position := MkPos true true 77612487 19121871 139 0 0 0 0.
Definition wit_pr1 : prices := MkPrices (MkPrice 376640 376640) (MkPrice 1042870 1058921) (MkPrice 1458 1477).
Definition wit_pr2 : prices := MkPrices (MkPrice 1133752 1133752) (MkPrice 1042870 1058921) (MkPrice 1458 1477).

Definition realised_monotone (w unit : Z) (p : position) (m : market) (pr1 pr2 : prices) (d : Z) : Prop :=
  forall a1 b1 c1 a2 b2 c2,
    pnl_value w unit p m pr1 d = Ok (a1, b1, c1) -> pnl_value w unit p m pr2 d = Ok (a2, b2, c2) ->
    if is_long p then a1 <= a2 else a2 <= a1.

Lemma wit_uncapped : pnl_value 64 (10 ^ 9) wit_pos wit_market wit_pr1 19121871 = Ok (33231089, 33231089, 139).
Proof. vm_compute. reflexivity. Qed.
Lemma wit_capped : pnl_value 64 (10 ^ 9) wit_pos wit_market wit_pr2 19121871 = Ok (7425677, 138469657, 139).
Proof. vm_compute. reflexivity. Qed.

Lemma trader_cap_binding_witness :
  exists p m pr1 pr2 d,
    pos_nonneg p /\ prices_nonneg pr1 /\ prices_nonneg pr2 /\ pnl_market_nonneg m /\ 0 <= d /\
    index_le_prop pr1 pr2 /\
    known_b (PnlMono 64 9 m p pr1 pr2 d (pnl_value 64 (10 ^ 9) p m pr1 d) (pnl_value 64 (10 ^ 9) p m pr2 d)) = 1 /\
    ~ realised_monotone 64 (10 ^ 9) p m pr1 pr2 d.
Proof.
  exists wit_pos, wit_market, wit_pr1, wit_pr2, 19121871.
  pose proof wit_uncapped as E1. pose proof wit_capped as E2.
  split. { unfold pos_nonneg; cbn; lia. }
  split. { unfold prices_nonneg, price_nonneg; cbn; lia. }
  split. { unfold prices_nonneg, price_nonneg; cbn; lia. }
  split. { unfold pnl_market_nonneg, pool_nonneg; cbn; lia. }
  split. { lia. }
  split. { unfold index_le_prop; cbn; lia. }
  split. { rewrite E1, E2. vm_compute. reflexivity. }
  intros H. specialize (H _ _ _ _ _ _ E1 E2). cbn in H. lia.
Qed.
