(* C08 — ledger of a decrease (plain, liquidation, ADL). *)
From GV Require Import lib.Base C01.Model C01.Proofs PS.Model PS.Lemmas PS.Actions PS.Frame C07.Proofs C08.Proofs C08.Waterfall.
Open Scope Z_scope.

Section P.
  Variable w : Z.
  Hypothesis Hw : 1 <= w.
  Variable unit : Z.

  Lemma position_fees_fund_nonneg p m cp sd change liq fs :
    0 <= size_usd p -> position_fees w unit p m cp sd change liq = Ok fs -> 0 <= f_fund fs.
  Proof.
    intros Hs H. apply position_fees_funding in H. unfold pending_funding_fees in H. bind_ok H as a F1.
    bind_ok H as cl F2. bind_ok H as cs F3. injection H as <- _ _. exact (unpack_funding_nonneg w Hw unit _ _ _ _ _ _ Hs F1).
  Qed.

  Lemma capped_impact_diff_nonneg p m index sd v ch diff :
    capped_impact w unit p m index sd = Ok (v, ch, diff) -> 0 <= diff.
  Proof.
    unfold capped_impact. intros H. bind_ok H as imp E1. bind_ok H as c E2. injection H as _ _ <-.
    unfold cap_negative_impact in E2. destruct (fst imp <? 0); [|injection E2 as <-; cbn; lia].
    bind_ok E2 as v1 F1. bind_ok E2 as mn F2.
    destruct (fst imp <? mn); [|injection E2 as <-; cbn; lia].
    bind_ok E2 as d F3. injection E2 as <-. cbn. apply Z.abs_nonneg.
  Qed.

  (* the tokens a decrease hands out, per token *)
  Definition dec_out (p : position) (rep : dec_report) (t : bool) : Z :=
    on (coll_long p) t (dr_output rep + dr_user_out rep + dr_hold_out rep)
    + on (is_long p) t (dr_secondary rep + dr_hold_sec rep + dr_user_sec rep).

  (* Ledger of a successful decrease.  K = funding fees collected in the collateral token (they stay in the
     vault as funding residual), D = fees credited to the pools although the trader did not pay them. *)
  Theorem ledger_decrease p m pr sd0 acc cw fl p1 m' rep :
    0 <= size_usd p -> 0 <= coll p ->
    0 < pmin (out_price pr p) -> 0 < pmin (pnl_price pr p) -> 0 < pmax (pnl_price pr p) ->
    decrease w unit p m pr sd0 acc cw fl = Ok (p1, m', rep) ->
    exists K D,
      (forall t, macc m' t = macc m t - dec_out p rep t - on (coll_long p) t (K - D)) /\
      0 <= K <= f_fund (dr_fees rep) /\ 0 <= D /\ D * pmin (out_price pr p) < pmin (pnl_price pr p) /\
      (same_tokens p = true -> D = 0) /\
      (dr_insolvent_step rep <> Some S_FUNDING -> dr_hold_sec rep = 0 ->
         (f_fund (dr_fees rep) - K) * pmin (out_price pr p) < pmin (pnl_price pr p)).
  Proof using Hw.
    intros HS HC Hcp Hpp Hppx H.
    destruct (decrease_inv w Hw unit _ _ _ _ _ _ _ _ _ _ H)
      as (sd1 & change & fs & st & rem_coll & out1 & m2 & nc & out2 & cs & _ & _ & (Ecap & _ & Efs) & (Eproc & Ffs & _ & _ & Hho & Hhs & Huo & Hus) &
          (Hx & _) & (_ & _ & _ & _ & Hy & _ & _ & Hnc) & (Em2 & Ecs & Em4) & Hout).
    cbv zeta in *.
    assert (Hdiff : 0 <= dr_impact_diff rep).
    { destruct (dr_size_delta rep =? 0); [lia|exact (capped_impact_diff_nonneg _ _ _ _ _ _ _ Ecap)]. }
    pose proof (position_fees_fund_nonneg _ _ _ _ _ _ _ HS Efs) as Hfund.
    pose proof (process_costs_good w _ _ _ _ _ _ _ _ _ _ HC Eproc) as [Vst _].
    destruct (process_costs_ledger w Hw pr p Hcp Hpp Hppx _ _ _ _ _ _ _ _ HC Hfund Hdiff Eproc)
      as (K & D & Dl & _ & Ff & B).
    exists K, D. rewrite Ffs, Hhs, (fees_kept_fund _ _ Ff). split; [|exact B]. intros t.
    apply pool_apply_spec in Ecs. destruct Ecs as (A1 & A2 & _).
    destruct (oi_frame_acc _ _ (update_total_borrowing_frame w unit _ _ _ _ _ Em2) t) as [L2 C2].
    destruct (set_cs_acc m2 (is_long p) cs (coll_long p) _ A1 A2 t) as [L3 C3].
    destruct (oi_frame_acc _ _ (update_open_interest_frame w _ _ _ _ _ Em4) t) as [L4 C4].
    pose proof (view_csacc _ _ Vst t) as Ccs.
    specialize (Dl t). unfold W, bucket_c, bucket_q in Dl.
    cbn [st_m st_out st_sec st_coll st_hold_out st_hold_sec st_user_out st_user_sec] in Dl.
    rewrite !macc_split, L4, C4, L3, C3, L2, C2, Ccs. unfold dec_out. rewrite Hho, Hhs, Huo, Hus.
    assert (Hy' : nc + out2 = rem_coll + out1) by (destruct (dr_remove rep); lia).
    (* the secondary output is merged into the output when the pnl token is the collateral token *)
    assert (Hm : on (coll_long p) t (dr_output rep) + on (is_long p) t (dr_secondary rep)
                 = on (coll_long p) t out2 + on (is_long p) t (st_sec st)).
    { unfold dec_outputs, same_tokens in Hout. destruct (Bool.eqb (is_long p) (coll_long p)) eqn:Es; cbn [andb] in Hout.
      - apply Bool.eqb_prop in Es. rewrite Es. unfold on. destruct (negb (st_sec st =? 0)), (Bool.eqb (coll_long p) t); lia.
      - destruct Hout as [-> ->]. reflexivity. }
    unfold on in *. destruct (Bool.eqb (coll_long p) t), (Bool.eqb (is_long p) t); lia.
  Qed.

  Theorem ledger_liquidate p m pr sd acc cw p1 m' rep :
    0 <= size_usd p -> 0 <= coll p ->
    0 < pmin (out_price pr p) -> 0 < pmin (pnl_price pr p) -> 0 < pmax (pnl_price pr p) ->
    liquidate w unit p m pr sd acc cw = Ok (p1, m', rep) ->
    exists K D,
      (forall t, macc m' t = macc m t - dec_out p rep t - on (coll_long p) t (K - D)) /\
      0 <= K <= f_fund (dr_fees rep) /\ 0 <= D /\ D * pmin (out_price pr p) < pmin (pnl_price pr p) /\
      (same_tokens p = true -> D = 0) /\
      (dr_insolvent_step rep <> Some S_FUNDING -> dr_hold_sec rep = 0 ->
         (f_fund (dr_fees rep) - K) * pmin (out_price pr p) < pmin (pnl_price pr p)).
  Proof using Hw.
    intros HS HC Hcp Hpp Hppx H.
    exact (ledger_decrease _ _ _ _ _ _ _ _ _ _ HS HC Hcp Hpp Hppx (proj2 (liquidate_decrease w unit _ _ _ _ _ _ _ H))).
  Qed.
End P.
