(* C20 — proofs.  Each entrypoint is a chain of checks; update_one_ok_iff and buffer_ok_iff say
   exactly when the chain succeeds and with what, in terms of the roles the caller effectively
   holds.  Every statement about acceptance or rejection below is read off one of the two. *)
From GV Require Import lib.Base C20.Model.
From Coq Require Import String.
Open Scope string_scope.
Open Scope Z_scope.

Lemma only_mk_ok_iff : forall e, only_mk e = Ok tt <-> is_keeper e = true.
Proof. intros [[] ? [] [] ? ?]; cbn; split; intros H; try discriminate; reflexivity. Qed.

(* a config keeper passes only where the MARKET_KEEPER role is enabled: its lookup comes first
   and fails with `?` otherwise *)
Lemma ensure_any_ok_iff : forall e, ensure_any e = Ok tt <->
  is_keeper e = true \/ (is_config_keeper e = true /\ mk_status e = Enabled).
Proof. intros [[] [] [] [] [] ?]; cbn; intuition discriminate. Qed.

Lemma keeper_mk_enabled : forall e, is_keeper e = true -> mk_status e = Enabled.
Proof. intros [[] ? [] [] ? ?]; cbn; intros H; try discriminate; reflexivity. Qed.

Lemma only_mk_cases : forall e, only_mk e = Ok tt \/ exists c, only_mk e = Err c.
Proof. intros e. destruct (only_mk e) as [[]|c]; [left; reflexivity|right; exists c; reflexivity]. Qed.

(* the two forms of check the entrypoints are chained from *)
Lemma reject_ok {A} (b : bool) code (r : res A) y : (if b then Err code else r) = Ok y <-> b = false /\ r = Ok y.
Proof. destruct b; intuition discriminate. Qed.

Lemma check_ok {A} (a : res unit) (r : res A) y : (_ <-- a ;; r) = Ok y <-> a = Ok tt /\ r = Ok y.
Proof. destruct a as [[]|]; cbn; intuition discriminate. Qed.

Lemma not_ok_err {A} (r : res A) : (forall y, r <> Ok y) -> exists code, r = Err code.
Proof. destruct r as [y|code]; [intros H; destruct (H y eq_refl)|eauto]. Qed.

Section Cfg.
  Context {V : Type}.
  Notation cfg := (@cfg V).

  Lemma update_one_ok_iff : forall e store_ok valid upd (c c' : cfg) k v,
    update_one e store_ok valid upd c k v = Ok c' <->
    signed e = true /\ store_ok = true /\ valid k = true /\ c' = cset c k v
    /\ (is_keeper e = true \/ (is_config_keeper e = true /\ mk_status e = Enabled /\ upd k = true)).
  Proof.
    intros e so valid upd c c' k v. unfold update_one.
    rewrite !reject_ok, check_ok, reject_ok, check_ok, !Bool.negb_false_iff, ensure_any_ok_iff.
    destruct (upd k); rewrite ?only_mk_ok_iff; intuition congruence.
  Qed.

  Lemma keeper_any_key : forall e valid upd (c : cfg) k v,
    signed e = true -> is_keeper e = true -> valid k = true ->
    update_one e true valid upd c k v = Ok (cset c k v).
  Proof. intros. apply update_one_ok_iff. tauto. Qed.

  Lemma config_keeper_only_updatable : forall e valid upd (c : cfg) k v,
    signed e = true -> is_keeper e = false -> is_config_keeper e = true -> mk_status e = Enabled -> valid k = true ->
    (upd k = true -> update_one e true valid upd c k v = Ok (cset c k v))
    /\ (upd k = false -> exists code, update_one e true valid upd c k v = Err code).
  Proof.
    intros e valid upd c k v Hs Hnk Hck Hmk Hv. split; intros Hu.
    - apply update_one_ok_iff. tauto.
    - apply not_ok_err. intros c' E. apply update_one_ok_iff in E. intuition congruence.
  Qed.

  Lemma others_rejected_one : forall e store_ok valid upd (c : cfg) k v,
    is_keeper e = false -> is_config_keeper e = false ->
    exists code, update_one e store_ok valid upd c k v = Err code.
  Proof. intros. apply not_ok_err. intros c' E. apply update_one_ok_iff in E. intuition congruence. Qed.

  Definition all_updatable (upd : string -> bool) (es : list (option string * V)) : bool :=
    forallb (fun kv => match fst kv with Some k => upd k | None => false end) es.
  Definition all_decodable (es : list (option string * V)) : bool :=
    forallb (fun kv => match fst kv with Some _ => true | None => false end) es.

  Lemma scan_ok_iff : forall upd denied es, scan (V:=V) upd denied es = Ok tt <-> all_updatable upd es = true.
  Proof.
    induction es as [|[[k|] v] r IH]; cbn; [tauto| |split; discriminate].
    destruct (upd k); cbn; [exact IH|split; discriminate].
  Qed.

  Lemma all_updatable_decodable : forall upd es, all_updatable upd es = true -> all_decodable es = true.
  Proof.
    induction es as [|[[k|] v] r IH]; cbn; [reflexivity| |discriminate].
    destruct (upd k); cbn; [exact IH|discriminate].
  Qed.

  (* what applying a fully decodable buffer yields *)
  Fixpoint writes (c : cfg) (es : list (option string * V)) : cfg :=
    match es with
    | [] => c
    | (Some k, v) :: r => writes (cset c k v) r
    | (None, _) :: r => writes c r
    end.

  Lemma apply_entries_ok : forall es (c c' : cfg),
    apply_entries c es = Ok c' <-> all_decodable es = true /\ c' = writes c es.
  Proof.
    induction es as [|[[k|] v] r IH]; intros c c'; cbn; [|apply IH|intuition discriminate].
    split; [intros [= <-]; auto|intros [_ ->]; reflexivity].
  Qed.

  (* the in-handler part: a keeper skips the scan *)
  Lemma keeper_or_scan_ok : forall e upd es,
    match only_mk e with Err denied => scan upd denied es | Ok _ => Ok tt end = Ok tt
    <-> is_keeper e = true \/ all_updatable upd es = true.
  Proof.
    intros e upd es. rewrite <- only_mk_ok_iff. destruct (only_mk e) as [[]|denied]; [tauto|].
    rewrite scan_ok_iff. intuition discriminate.
  Qed.

  Lemma buffer_ok_iff : forall e store_ok upd now b (c c' : cfg),
    update_with_buffer e store_ok upd now b c = Ok c' <->
    signed e = true /\ store_ok = true /\ b_store_ok b = true /\ b_owner_ok b = true /\ now < b_expiry b
    /\ all_decodable (b_entries b) = true /\ c' = writes c (b_entries b)
    /\ (is_keeper e = true \/
        (is_config_keeper e = true /\ mk_status e = Enabled /\ all_updatable upd (b_entries b) = true)).
  Proof.
    intros e so upd now b c c'. unfold update_with_buffer.
    rewrite !reject_ok, check_ok, reject_ok, check_ok, !Bool.negb_false_iff, Z.leb_gt.
    rewrite ensure_any_ok_iff, keeper_or_scan_ok, apply_entries_ok. tauto.
  Qed.

  Lemma expired_never_applied : forall e store_ok upd now b (c : cfg),
    b_expiry b <= now -> exists code, update_with_buffer e store_ok upd now b c = Err code.
  Proof. intros. apply not_ok_err. intros c' E. apply buffer_ok_iff in E. lia. Qed.

  Lemma others_rejected_buffer : forall e store_ok upd now b (c : cfg),
    is_keeper e = false -> is_config_keeper e = false ->
    exists code, update_with_buffer e store_ok upd now b c = Err code.
  Proof. intros. apply not_ok_err. intros c' E. apply buffer_ok_iff in E. intuition congruence. Qed.

  Lemma buffer_all_or_nothing : forall e upd now b (c : cfg),
    signed e = true -> b_store_ok b = true -> b_owner_ok b = true -> now < b_expiry b ->
    is_keeper e = false -> is_config_keeper e = true -> mk_status e = Enabled ->
    (all_updatable upd (b_entries b) = true -> update_with_buffer e true upd now b c = Ok (writes c (b_entries b)))
    /\ (all_updatable upd (b_entries b) = false -> exists code, update_with_buffer e true upd now b c = Err code).
  Proof.
    intros e upd now b c Hs Hbs Hbo Hexp Hnk Hck Hmk. split; intros Hall.
    - apply buffer_ok_iff. pose proof (all_updatable_decodable _ _ Hall). tauto.
    - apply not_ok_err. intros c' E. apply buffer_ok_iff in E. intuition congruence.
  Qed.

  Lemma keeper_buffer : forall e upd now b (c : cfg),
    signed e = true -> b_store_ok b = true -> b_owner_ok b = true -> now < b_expiry b -> is_keeper e = true ->
    (all_decodable (b_entries b) = true -> update_with_buffer e true upd now b c = Ok (writes c (b_entries b)))
    /\ (all_decodable (b_entries b) = false -> exists code, update_with_buffer e true upd now b c = Err code).
  Proof.
    intros e upd now b c Hs Hbs Hbo Hexp Hk. split; intros Hall.
    - apply buffer_ok_iff. tauto.
    - apply not_ok_err. intros c' E. apply buffer_ok_iff in E. intuition congruence.
  Qed.
End Cfg.

Lemma set_updatable_ok : forall valid upd k v upd', set_updatable valid upd k v = Ok upd' ->
  valid k = true /\ upd k = negb v /\ upd' k = v /\ forall k', k' <> k -> upd' k' = upd k'.
Proof.
  intros valid upd k v upd' H. unfold set_updatable in H.
  destruct (valid k); cbn [negb] in H; [|discriminate].
  destruct (Bool.eqb (upd k) v) eqn:E; [discriminate|]. injection H as <-.
  repeat split.
  - destruct (upd k), v; cbn in *; try discriminate; reflexivity.
  - rewrite String.eqb_refl. reflexivity.
  - intros k' Hne. destruct (String.eqb k' k) eqn:Ek; [apply String.eqb_eq in Ek; contradiction|reflexivity].
Qed.

Lemma set_updatable_same_rejected : forall valid upd k, set_updatable valid upd k (upd k) = Err E_PRECOND \/ valid k = false.
Proof.
  intros valid upd k. unfold set_updatable. destruct (valid k); [left|right; reflexivity].
  cbn [negb]. rewrite Bool.eqb_reflx. reflexivity.
Qed.

Lemma revoked_key_rejected : forall (V : Type) e valid upd upd' (c : @cfg V) k v,
  set_updatable valid upd k false = Ok upd' ->
  signed e = true -> is_keeper e = false -> is_config_keeper e = true -> mk_status e = Enabled ->
  exists code, update_one e true valid upd' c k v = Err code.
Proof.
  intros V e valid upd upd' c k v Hset Hs Hnk Hck Hmk.
  destruct (set_updatable_ok _ _ _ _ _ Hset) as (Hv & _ & Hu & _).
  destruct (config_keeper_only_updatable e valid upd' c k v Hs Hnk Hck Hmk Hv) as [_ H]. exact (H Hu).
Qed.

(* the configuration in which the literal property fails: MARKET_KEEPER not enabled *)
Lemma mk_not_enabled_blocks_everyone : forall (V : Type) e valid upd (c : @cfg V) k v,
  mk_status e <> Enabled -> exists code, update_one e true valid upd c k v = Err code.
Proof.
  intros V e valid upd c k v Hmk. apply not_ok_err. intros c' E. apply update_one_ok_iff in E.
  destruct E as (_ & _ & _ & _ & [Hk|(_ & He & _)]); [apply keeper_mk_enabled in Hk|]; contradiction.
Qed.
