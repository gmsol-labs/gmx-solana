(* C34 — property theorems: the fixed map (sorted array + count, modelled access by
   access with an explicit panic channel) refines an ordinary finite map (std++ gmap).
   [cap] is the macro's `$len`; the only hypothesis on it is that it fits the `u32` count.
   [wf] = the representation invariant (array length = cap, count <= cap, first [count]
   keys strictly increasing, remaining slots zeroed); it holds for the zeroed map and is
   preserved by every operation (part of the refinement theorem). *)
From stdpp Require Import gmap sorting.
From GV Require lib.Base C34.Model C34.Proofs C34.Refine.
Import GV.lib.Base(res, Ok, Err, rbind, of_opt).
Import GV.C34.Model GV.C34.Proofs GV.C34.Refine.
Open Scope Z_scope.

Theorem c34_empty : forall (V : Type) (dv : V) cap, 0 <= cap < 2 ^ 32 ->
  wf dv cap (empty dv cap) /\ abs (empty dv cap) = ∅.
Proof. intros V dv cap H. split; [by apply wf_empty | apply abs_empty]. Qed.

(* REFINEMENT, arbitrary op sequences: either every operation returns exactly what the
   ordinary map returns ([aruns]: get/get_mut/insert/remove/len/is_empty/entries/index,
   capacity refusal included) and the representation stays well-formed, or the run stops
   with the `expect` panic of the plain `insert` — and that happens exactly when a NEW key
   is inserted by `insert` into a FULL map ([apanics]).  No other panic (out-of-bounds
   index, slice error, count overflow/underflow) is possible. *)
Theorem c34_refines_map : forall (V : Type) (dv : V) cap (ops : list (@op V)) m,
  0 <= cap < 2 ^ 32 -> wf dv cap m -> Forall op_ok ops ->
  (exists rs m', irun dv cap ops m = Ok (rs, m') /\ wf dv cap m' /\ aruns cap (abs m) ops rs (abs m')) \/
  (irun dv cap ops m = Err P_EXPECT /\ apanics cap (abs m) ops).
Proof. intros V dv cap ops m Hcap. exact (run_refines dv cap Hcap ops m). Qed.

Theorem c34_spec_deterministic : forall (V : Type) cap (a : gmap Z V) o r1 a1 r2 a2,
  astep cap a o r1 a1 -> astep cap a o r2 a2 -> r1 = r2 /\ a1 = a2.
Proof.
  intros V cap a o r1 a1 r2 a2. destruct o; simpl; try (intros [-> ->] [-> ->]; done).
  - destruct (a !! k); [destruct new|case_decide]; intros [-> ->] [-> ->]; done.
  - intros (l1 & L1 & -> & ->) (l2 & L2 & -> & ->). by rewrite (is_listing_unique a l1 l2).
  - intros (l1 & L1 & -> & ->) (l2 & L2 & -> & ->). by rewrite (is_listing_unique a l1 l2).
Qed.

(* without the plain `insert`, no operation sequence panics *)
Theorem c34_no_panic : forall (V : Type) (dv : V) cap (ops : list (@op V)) m,
  0 <= cap < 2 ^ 32 -> wf dv cap m -> Forall op_ok ops -> (forall k v, OpInsP k v ∉ ops) ->
  exists rs m', irun dv cap ops m = Ok (rs, m') /\ wf dv cap m' /\ aruns cap (abs m) ops rs (abs m').
Proof.
  intros V dv cap ops m Hcap W Hok Hn. destruct (run_refines dv cap Hcap ops m W Hok) as [R|[_ P]]; [done|].
  apply apanics_has_insp in P as (k & v & P). by apply Hn in P.
Qed.

(* every array access of every operation is in bounds: the only [Err] a step can return
   is the `expect` panic, never P_OOB / P_ARITH / P_FUEL *)
Theorem c34_indices_in_bounds : forall (V : Type) (dv : V) cap m (o : @op V) e,
  0 <= cap < 2 ^ 32 -> wf dv cap m -> op_ok o ->
  istep dv cap m o = Err e -> e = P_EXPECT /\ expect_panics cap (abs m) o.
Proof.
  intros V dv cap m o e Hcap W Hok E.
  destruct (step_refines dv cap Hcap m o W Hok) as [[P E']|(_ & m' & r & E' & _)]; rewrite E' in E; [|done].
  by inversion E.
Qed.

(* inserting a new key into a full map fails with ExceedMaxLengthLimit, map unchanged *)
Theorem c34_full_insert_fails_unchanged : forall (V : Type) (dv : V) cap m k v new,
  wf dv cap m -> abs m !! k = None -> cap <= count m ->
  insert_with_options dv cap m k v new = Ok (m, Err E_FULL).
Proof. intros V dv cap m k v new. exact (full_insert_fails_unchanged dv cap m k v new). Qed.

Theorem c34_existing_insert_new_fails_unchanged : forall (V : Type) (dv : V) cap m k v old,
  wf dv cap m -> abs m !! k = Some old ->
  insert_with_options dv cap m k v true = Ok (m, Err E_EXIST).
Proof.
  intros V dv cap m k v old W A. pose proof (search_abs dv cap m k W) as S. rewrite A in S.
  destruct S as (i & E & B & _). by rewrite (insert_found dv cap m k v true i W E B).
Qed.

Theorem c34_get_is_lookup : forall (V : Type) (dv : V) cap m k,
  wf dv cap m -> get dv m k = Ok (abs m !! k).
Proof. intros V dv cap m k. exact (get_is_lookup dv cap m k). Qed.

Theorem c34_count_is_size : forall (V : Type) (dv : V) cap m,
  wf dv cap m -> Z.of_nat (size (abs m)) = count m.
Proof. intros V dv cap m. exact (abs_size dv cap m). Qed.

(* entries() is the listing of the map in strictly increasing key order (hence no
   duplicate keys), and that listing is unique *)
Theorem c34_sorted_nodup : forall (V : Type) (dv : V) cap m,
  wf dv cap m -> is_listing (abs m) (entries m) /\ NoDup (entries m).*1.
Proof. intros V dv cap m W. split; [by apply (entries_listing dv cap) | by apply (NoDup_keys dv cap)]. Qed.

Theorem c34_listing_unique : forall (V : Type) (a : gmap Z V) l1 l2,
  is_listing a l1 -> is_listing a l2 -> l1 = l2.
Proof. intros V. exact is_listing_unique. Qed.

(* the binary search of the Rust standard library, as modelled, is correct on strictly
   sorted slices: any implementation meeting this contract gives the same results *)
Theorem c34_binary_search_contract : forall (V : Type) (dv : V) (s : list (Z * V)) k,
  sorted_upto dv s (zlen s) ->
  (exists i, slice_search dv s k = Ok (Found i) /\ 0 <= i < zlen s /\ fst (znth dv s i) = k) \/
  (exists i, slice_search dv s k = Ok (Missing i) /\ 0 <= i <= zlen s /\
     (forall j, 0 <= j -> j < i -> fst (znth dv s j) < k) /\
     (forall j, i <= j -> j < zlen s -> k < fst (znth dv s j))).
Proof. intros V dv s k. exact (slice_search_spec dv s k). Qed.

(* non-vacuity: a capacity-2 map filled, refused, removed at full capacity, re-filled *)
Example c34_ex_history :
  irun 0 2 [OpIns 5 50 true; OpIns 3 30 true; OpIns 4 40 true; OpIns 5 51 true; OpGet 5;
            OpRem 3; OpIns 9 90 false; OpEntries; OpIdx 1; OpLen] (empty 0 2)
  = Ok ([RetRes (Ok None); RetRes (Ok None); RetRes (Err E_FULL); RetRes (Err E_EXIST); RetOpt (Some 50);
         RetOpt (Some 30); RetRes (Ok None); RetList [(5, 50); (9, 90)]; RetEnt (Some (9, 90)); RetLen 2 false],
        mk [(5, 50); (9, 90)] 2).
Proof. vm_compute. reflexivity. Qed.

Example c34_ex_expect_panic :
  irun 0 1 [OpInsP 7 1; OpInsP 7 2; OpInsP 8 3] (empty 0 1) = Err P_EXPECT.
Proof. vm_compute. reflexivity. Qed.
