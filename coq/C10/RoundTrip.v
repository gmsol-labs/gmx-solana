(* C10 — assembly: opening an empty position and closing it entirely at the same prices with no elapsed
   time returns at most the collateral deposited (valued at the collateral token's min price) plus one USD unit
   and four base units of the pnl token, provided the positive impact cap does not exceed the negative one. *)
From GV Require Import lib.Base lib.DivLemmas C01.Model C01.Proofs PS.Model PS.Lemmas PS.Actions
  C11.Proofs C07.Proofs C08.Proofs C08.Waterfall C08.Ledger C10.Proofs C10.Impact C10.Value C10.Corr.
Open Scope Z_scope.

Section P.
  Variable w : Z.
  Hypothesis Hw : 1 <= w.
  Variable unit : Z.
  Hypothesis Hunit : 0 < unit.

  (* the impact charged is never better than the impact computed on the real open interest
     (with a virtual inventory it is the smaller of the two) *)
  Lemma ppi_le_real p m sd r c :
    position_price_impact w unit p m sd = Ok (r, c) ->
    let ol := pl (m_oi_long m) + ps (m_oi_long m) in let os := pl (m_oi_short m) + ps (m_oi_short m) in
    exists real c', 0 <= ol < 2 ^ w /\ 0 <= os < 2 ^ w /\
      pool_delta_impact w unit ol os (if is_long p then sd else 0) (if is_long p then 0 else sd) (c_impact (m_cfg m)) = Ok (real, c') /\
      r <= real.
  Proof.
    unfold position_price_impact, pool_total. intros H.
    bind_ok H as ol E1. apply uadd_some in E1. destruct E1 as [R1 ->].
    bind_ok H as os E2. apply uadd_some in E2. destruct E2 as [R2 ->].
    bind_ok H as imp E3. destruct imp as [real c']. exists real, c'. repeat (split; [assumption|]).
    cbn [fst] in H. destruct (0 <=? real); [injection H as <- _; lia|].
    destruct (m_vi_pos m); [|injection H as <- _; lia].
    bind_ok H as lo F1. bind_ok H as lo' F2. bind_ok H as vimp F3. destruct vimp as [vr vc]. cbn [fst] in H.
    destruct (Z.ltb_spec vr real); injection H as <- _; lia.
  Qed.

  Lemma moved_oi_totals m m1 l c du dt dc : moved m m1 l c du dt dc ->
    pl (m_oi_long m1) + ps (m_oi_long m1) = pl (m_oi_long m) + ps (m_oi_long m) + (if l then du else 0) /\
    pl (m_oi_short m1) + ps (m_oi_short m1) = pl (m_oi_short m) + ps (m_oi_short m) + (if l then 0 else du).
  Proof.
    intros (_ & O & _). pose proof (O true true) as A1. pose proof (O true false) as A2.
    pose proof (O false true) as B1. pose proof (O false false) as B2.
    unfold oi_amt, oi_pool, hit in *. destruct l, c; cbn in *; lia.
  Qed.

  Lemma caps_round_trip m m1 index S raw1 raw2 i1 v i2 diff :
    raw1 + raw2 <= 1 ->
    c_pos (m_cfg m1) = c_pos (m_cfg m) ->
    0 <= pp_max_pos_impact (c_pos (m_cfg m)) <= pp_max_neg_impact (c_pos (m_cfg m)) ->
    cap_positive_impact w unit m index S raw1 = Ok i1 ->
    cap_positive_impact w unit m1 index (- S) raw2 = Ok v ->
    cap_negative_impact w unit m1 (- S) false v = Ok (i2, diff) ->
    i1 + i2 <= 1.
  Proof.
    intros Hsum Hcfg Hf H1 H2 H3. pose proof (Z.abs_nonneg S) as HS.
    assert (Hle : Z.abs S * pp_max_pos_impact (c_pos (m_cfg m)) / unit <= Z.abs S * pp_max_neg_impact (c_pos (m_cfg m)) / unit)
      by (apply div_mono_num; [exact Hunit|nia]).
    assert (H0 : 0 <= Z.abs S * pp_max_neg_impact (c_pos (m_cfg m)) / unit) by (apply div_nonneg; [nia|exact Hunit]).
    apply (cap_positive_spec w Hw unit Hunit) in H1; [|lia]. apply (cap_positive_spec w Hw unit Hunit) in H2; [|rewrite Hcfg; lia].
    apply (cap_negative_spec w Hw unit Hunit) in H3; [|rewrite Hcfg; lia]. rewrite Z.abs_opp, Hcfg in H2, H3.
    (* from here on the two caps are just numbers CP <= CN *)
    revert Hle H0 H1 H2 H3.
    generalize (Z.abs S * pp_max_pos_impact (c_pos (m_cfg m)) / unit) (Z.abs S * pp_max_neg_impact (c_pos (m_cfg m)) / unit).
    clear - Hsum. intros CP CN. lia.
  Qed.

  (* the capped impact credited for opening sd and the capped impact of taking it back at once net at most one
     unit: the uncapped ones do (C10.Impact), the virtual inventory only lowers each, the caps keep the bound *)
  Lemma open_close_impact p p1 m m1 index sd dt dc raw1 ch1 i1 v2 ch2 d2 :
    is_long p1 = is_long p -> moved m m1 (is_long p) (coll_long p) sd dt dc ->
    ip_ok (c_impact (m_cfg m)) ->
    0 <= pp_max_pos_impact (c_pos (m_cfg m)) <= pp_max_neg_impact (c_pos (m_cfg m)) ->
    position_price_impact w unit p m sd = Ok (raw1, ch1) -> cap_positive_impact w unit m index sd raw1 = Ok i1 ->
    capped_impact w unit p1 m1 index (- sd) = Ok (v2, ch2, d2) -> i1 + v2 <= 1.
  Proof.
    intros L M Hip Hcaps Eraw1 Ecap1 Ecap2. pose proof M as (Cfg & _).
    unfold capped_impact, capped_positive_impact in Ecap2.
    bind_ok Ecap2 as imp G1. bind_ok G1 as rc G3. destruct rc as [raw2 c2]. bind_ok G1 as v G4. injection G1 as <-.
    bind_ok Ecap2 as cn G2. destruct cn as [i2 dd]. injection Ecap2 as <- _ _. cbn [fst snd] in *.
    destruct (ppi_le_real _ _ _ _ _ Eraw1) as (real1 & c1' & R1 & R2 & D1 & Le1).
    destruct (ppi_le_real _ _ _ _ _ G3) as (real2 & c2' & _ & _ & D2 & Le2).
    destruct (moved_oi_totals _ _ _ _ _ _ _ M) as [Eol Eos]. rewrite L, Cfg, Eol, Eos in D2.
    replace (if is_long p then - sd else 0) with (- (if is_long p then sd else 0)) in D2 by (destruct (is_long p); reflexivity).
    replace (if is_long p then 0 else - sd) with (- (if is_long p then 0 else sd)) in D2 by (destruct (is_long p); reflexivity).
    pose proof (impact_round_trip w Hw unit Hunit _ _ _ _ _ _ _ _ _ Hip R1 R2 D1 D2) as RT.
    refine (caps_round_trip _ _ _ _ _ _ _ _ _ _ _ _ Hcaps Ecap1 G4 G2); [lia|rewrite Cfg; reflexivity].
  Qed.

  (* fees of a position whose snapshots equal the market's current indices: no funding, no claims *)
  Lemma fees_at_snapshot p m cp sd change liq fs :
    0 <= size_usd p ->
    ffa p = amount (fa_pool m (is_long p)) (coll_long p) ->
    cfa_l p = pl (cfa_pool m (is_long p)) -> cfa_s p = ps (cfa_pool m (is_long p)) ->
    position_fees w unit p m cp sd change liq = Ok fs ->
    f_fund fs = 0 /\ f_claim_l fs = 0 /\ f_claim_s fs = 0.
  Proof.
    intros Hs I1 I2 I3 H. apply position_fees_funding in H. unfold pending_funding_fees in H. rewrite <- I1, <- I2, <- I3 in H.
    bind_ok H as a R1. bind_ok H as cl R2. bind_ok H as cs' R3. injection H as <- <- <-.
    assert (Z0 : forall x, size_usd p * (x - x) = 0) by (intros x; rewrite Z.sub_diag; apply Z.mul_0_r).
    split; [exact (unpack_funding_zero w Hw unit _ _ _ _ _ _ Hs (Z0 _) R1)|].
    split; [exact (unpack_funding_zero w Hw unit _ _ _ _ _ _ Hs (Z0 _) R2)|exact (unpack_funding_zero w Hw unit _ _ _ _ _ _ Hs (Z0 _) R3)].
  Qed.

  Lemma increase_open_parts p m pr ci sd acc p1 m1 ir :
    size_usd p = 0 -> coll p = 0 ->
    increase w unit p m pr ci sd acc = Ok (p1, m1, ir) ->
    sd <> 0 /\
    (exists raw ch, position_price_impact w unit p m sd = Ok (raw, ch) /\
                    cap_positive_impact w unit m (p_index pr) sd raw = Ok (ir_impact_value ir)) /\
    coll p1 <= ci /\ ir_claim_l ir = 0 /\ ir_claim_s ir = 0 /\
    bfac p1 = amount (m_bf m1) (is_long p1) /\
    ffa p1 = amount (fa_pool m1 (is_long p1)) (coll_long p1) /\
    cfa_l p1 = pl (cfa_pool m1 (is_long p1)) /\ cfa_s p1 = ps (cfa_pool m1 (is_long p1)).
  Proof.
    intros Hempty Hcoll H.
    destruct (increase_spec w Hw unit _ _ _ _ _ _ _ _ _ H) as (_ & L & C & S1 & _ & K1 & S0 & _).
    destruct (increase_inv w Hw unit _ _ _ _ _ _ _ _ _ H)
      as (change & tc & fr & fpl & m1' & m2 & cs & m4 & m5 & Par & (Efs & Etc & Ecd & -> & ->) & (_ & _ & _ & _ & _ & _ & E17 & E21) &
          (_ & _ & _ & _ & _ & _ & _ & _ & Ib & If & Icl & Ics) & _).
    cbv zeta in *. assert (Hsd : sd <> 0) by lia. split; [exact Hsd|].
    unfold inc_params in Par. replace (sd =? 0) with false in Par by (symmetry; apply Z.eqb_neq; exact Hsd). destruct Par as (base & Ecap & _).
    unfold capped_positive_impact in Ecap. bind_ok Ecap as rc G1. destruct rc as [raw ch]. bind_ok Ecap as v G2. injection Ecap as <- <-. cbn [fst snd] in *.
    rewrite (ppi_side w unit _ p _ _ (proj1 (opened_fields p m))) in G1. split; [exists raw, ch; split; assumption|].
    split.
    { unfold fees_total in Etc. bind_ok Etc as te E. ok_inj Etc. apply uadd_some in Etc. lia. }
    unfold opened in Efs. rewrite Hempty in Efs. cbn [Z.eqb] in Efs.
    apply fees_at_snapshot in Efs; [|cbn; lia|reflexivity..]. destruct Efs as (_ & -> & ->).
    (* the snapshots were taken from m4 / m5, whose indices are those of the final market *)
    apply update_total_borrowing_frame in E17. apply update_open_interest_frame in E21.
    unfold oi_frame in E17, E21. injection E17 as _ _ _ _ _ _ I1 I2 I3 I4 I5. injection E21 as _ _ _ _ _ _ J1 J2 J3 J4 J5.
    rewrite L, C, Ib, If, Icl, Ics. unfold fa_pool, cfa_pool. split; [reflexivity|]. split; [reflexivity|].
    destruct (is_long p); repeat split; congruence.
  Qed.

  Lemma decrease_close_parts p m pr sd0 acc cw fl p1 m' rep :
    0 < size_usd p -> 0 < size_tok p -> 0 <= coll p ->
    decrease w unit p m pr sd0 acc cw fl = Ok (p1, m', rep) -> dr_remove rep = true ->
    exists fs st stp change ins,
      position_fees w unit p m (coll_price pr (coll_long p)) (size_usd p) change (fl_liq fl) = Ok fs /\
      capped_impact w unit p m (p_index pr) (- size_usd p) = Ok (dr_impact_value rep, change, dr_impact_diff rep) /\
      process_costs w pr p m fs (dr_pnl rep) (dr_impact_value rep) (dr_impact_diff rep) ins = Ok (st, stp) /\
      dr_fees rep = st_fees st /\ dr_user_out rep = st_user_out st /\ dr_user_sec rep = st_user_sec st /\
      dr_claim_l rep = f_claim_l (st_fees st) /\ dr_claim_s rep = f_claim_s (st_fees st) /\
      dr_output rep + dr_secondary rep = st_out st + st_coll st + st_sec st /\
      (same_tokens p = false -> dr_secondary rep = st_sec st).
  Proof.
    intros HS HT HC H Hrm.
    pose proof (decrease_spec w Hw unit _ _ _ _ _ _ _ _ _ _ HS HT HC H) as (_ & _ & _ & U & _ & _ & R1 & _).
    destruct (R1 Hrm) as (Z1 & _). assert (HD : dr_size_delta rep = size_usd p) by lia. clear U R1 Z1.
    destruct (decrease_inv w Hw unit _ _ _ _ _ _ _ _ _ _ H)
      as (sd1 & change & fs & st & rc & o1 & m2 & nc & o2 & cs & _ & _ & (Ecap & _ & Efs) & (Eproc & Ffs & Dl & Ds & _ & _ & Uo & Us) &
          (Hx & _) & (_ & _ & _ & _ & Hy & _) & _ & Hout).
    cbv zeta in *. rewrite HD in *. rewrite Hrm in Hy. destruct Hy as (_ & _ & _ & ->).
    replace (size_usd p =? 0) with false in Ecap by (symmetry; apply Z.eqb_neq; lia).
    exists fs, st, (dr_insolvent_step rep), change, ((size_usd p =? sd1) && fl_insolvent fl).
    repeat (split; [assumption|]).
    unfold dec_outputs in Hout. destruct (same_tokens p); cbn [andb] in Hout; [|split; [lia|intros _; apply Hout]].
    split; [destruct (negb (st_sec st =? 0)); lia|discriminate].
  Qed.

  Lemma fees_kept_claims fs f : fees_kept fs f -> f_claim_l f = f_claim_l fs /\ f_claim_s f = f_claim_s fs.
  Proof. intros [->| ->]; split; reflexivity. Qed.

  (* with no funding claimable, what the two reports hand out is what the processor state holds for the trader,
     valued as phi values it (in the same-token case phi values the secondary part at the max price) *)
  Lemma value_out_le_phi pr p1 ir dr st :
    pmin (out_price pr p1) <= pmax (out_price pr p1) -> nn st -> 0 <= st_user_sec st ->
    ir_claim_l ir = 0 -> ir_claim_s ir = 0 -> dr_claim_l dr = 0 -> dr_claim_s dr = 0 ->
    dr_user_out dr = st_user_out st -> dr_user_sec dr = st_user_sec st ->
    dr_output dr + dr_secondary dr = st_out st + st_coll st + st_sec st ->
    (same_tokens p1 = false -> dr_secondary dr = st_sec st) ->
    value_out (coll_long p1) (is_long p1) pr ir dr <= phi pr p1 st.
  Proof.
    intros H4 (N1 & N2 & N3) Nu2 Cl1 Cs1 Dl Ds Uo Us Hout Hsec.
    unfold value_out, phi. rewrite Cl1, Cs1, Dl, Ds, Uo, Us. fold (out_price pr p1). fold (pnl_price pr p1).
    replace (if coll_long p1 then 0 + 0 else 0 + 0) with 0 by (destruct (coll_long p1); reflexivity).
    destruct (Bool.eqb (coll_long p1) (is_long p1)) eqn:Es.
    - apply Bool.eqb_prop in Es.
      assert (Hx : pmax (pnl_price pr p1) = pmax (out_price pr p1)) by (unfold pnl_price, out_price; rewrite Es; reflexivity).
      rewrite Hx. nia.
    - assert (Hs : same_tokens p1 = false) by (unfold same_tokens; destruct (is_long p1), (coll_long p1); cbn in *; congruence).
      specialize (Hsec Hs). nia.
  Qed.

  Theorem open_close_no_profit p m pr ci sd acc p1 m1 ir sd' acc' cw fl p2 m2 dr :
    size_usd p = 0 -> coll p = 0 -> 0 <= ci -> 0 <= sd ->
    prices_nonneg pr -> price_ordered (p_index pr) ->
    0 < pmin (coll_price pr (coll_long p)) <= pmax (coll_price pr (coll_long p)) ->
    0 < pmin (coll_price pr (is_long p)) <= pmax (coll_price pr (is_long p)) ->
    pnl_market_nonneg m1 -> 0 <= pl (m_impact m) -> 0 <= pl (m_impact m1) ->
    ip_ok (c_impact (m_cfg m)) ->
    0 <= pp_max_pos_impact (c_pos (m_cfg m)) <= pp_max_neg_impact (c_pos (m_cfg m)) ->
    increase w unit p m pr ci sd acc = Ok (p1, m1, ir) ->
    decrease w unit p1 m1 pr sd' acc' cw fl = Ok (p2, m2, dr) -> dr_remove dr = true ->
    value_out (coll_long p1) (is_long p1) pr ir dr
      <= ci * pmin (coll_price pr (coll_long p)) + 4 * pmin (coll_price pr (is_long p)) + 1.
  Proof.
    intros Hempty Hcoll Hci Hsd Hpr Hord Hcp Hpp Hm1 Hi0 Hi1 Hip Hcaps Hinc Hdec Hrm.
    pose proof (increase_spec w Hw unit _ _ _ _ _ _ _ _ _ Hinc) as (_ & L & C & U & _ & _ & P1 & P2 & P3 & M).
    destruct (increase_open_parts _ _ _ _ _ _ _ _ _ Hempty Hcoll Hinc) as (Hsd0 & (raw1 & ch1 & Eraw1 & Ecap1) & Hc1 & Cl1 & Cs1 & Ib & If & Icl & Ics).
    destruct (roundtrip_pnl_le_open_impact w Hw unit Hunit _ _ _ _ _ _ _ _ _ _ _ _ _ _ _ _ Hempty Hord Hsd Hpr Hm1 Hinc Hdec Hrm)
      as (HD & _ & Q1 & Q2 & Q3).
    destruct (decrease_close_parts _ _ _ _ _ _ _ _ _ _ P1 P2 P3 Hdec Hrm)
      as (fs & st & stp & change & ins & Efs & Ecap2 & Eproc & Ffs & Uo & Us & Dl & Ds & Hout & Hsec).
    assert (Ssd : size_usd p1 = sd) by lia. rewrite Ssd in Efs, Ecap2.
    assert (P1' : 0 <= size_usd p1) by lia.
    destruct (fees_at_snapshot _ _ _ _ _ _ _ P1' If Icl Ics Efs) as (Fz & Cz1 & Cz2).
    rewrite <- C in Hcp |- *. rewrite <- L in Hpp |- *. fold (out_price pr p1) in Hcp |- *. fold (pnl_price pr p1) in Hpp |- *.
    destruct Hcp as [H1 H4], Hpp as [H2 H3]. assert (H5 : 0 < pmax (pnl_price pr p1)) by lia.
    assert (Hdiff : 0 <= dr_impact_diff dr) by exact (C08.Ledger.capped_impact_diff_nonneg w unit _ _ _ _ _ _ _ Ecap2).
    assert (Hf0 : 0 <= f_fund fs) by lia.
    destruct (process_costs_ledger w Hw pr p1 H1 H2 H5 _ _ _ _ _ _ _ _ P3 Hf0 Hdiff Eproc) as (K & D & _ & _ & Hk & _).
    destruct (fees_kept_claims _ _ Hk) as [K1 K2].
    destruct (process_costs_value w Hw pr p1 H1 H2 H3 H4 _ _ _ _ _ _ _ _ P3 Hf0 Hdiff H5 Eproc) as (Hphi & (N1 & N2 & N3) & Nu1 & Nu2).
    rewrite Fz in Hphi.
    pose proof (value_out_le_phi pr p1 ir dr st H4 (conj N1 (conj N2 N3)) Nu2 Cl1 Cs1 (eq_trans Dl (eq_trans K1 Cz1))
                  (eq_trans Ds (eq_trans K2 Cz2)) Uo Us Hout Hsec) as Hvo.
    pose proof (open_close_impact _ _ _ _ _ _ _ _ _ _ _ _ _ _ L M Hip Hcaps Eraw1 Ecap1 Ecap2) as Himp.
    pose proof (Z.mul_le_mono_nonneg_r _ _ (pmin (out_price pr p1)) (Z.lt_le_incl _ _ H1) Hc1).
    pose proof (Z.mul_nonneg_nonneg _ _ Hci (Z.lt_le_incl _ _ H1)).
    lia.
  Qed.
End P.
