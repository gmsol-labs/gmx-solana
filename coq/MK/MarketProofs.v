(* MK.MarketProofs — inversion tactics and specification lemmas for the market kernel. *)
From GV Require Import lib.Base lib.DivLemmas C01.Model C01.Proofs MK.Market.
Open Scope Z_scope.

Lemma rbind_ok {A B} (a : res A) (f : A -> res B) r :
  rbind a f = Ok r <-> exists x, a = Ok x /\ f x = Ok r.
Proof. exact (Checked.rbind_ok a f r). Qed.

Lemma fst_bind_inv {A B T} (e : res (A * B * T)) a b :
  (x <-- e ;; Ok (fst x)) = Ok (a, b) -> exists t, e = Ok (a, b, t).
Proof. destruct e as [[[a' b'] t]|]; cbn; [intros [= -> ->]; eauto|discriminate]. Qed.

(* one inversion step on a hypothesis [H : _ = Ok _] *)
Ltac rinv1 H :=
  lazymatch type of H with
  | rbind ?a _ = Ok _ =>
      let x := fresh "x" in let E := fresh "E" in
      bind_ok H as x E
  | of_opt _ _ = Ok _ => apply of_opt_ok in H
  | (if ?c then _ else _) = Ok _ =>
      let C := fresh "C" in destruct c eqn:C; [try discriminate H | try discriminate H]
  | Err _ = Ok _ => discriminate H
  end.
Ltac rinv H := repeat (cbv zeta in H; rinv1 H).
(* apply a lemma in a hypothesis, discharging premises (wf facts, 1 <= w, ...) from the context *)
Ltac app L H := apply L in H; [|solve [assumption|lia]..].

Section P.
  Variable w : Z.
  Hypothesis Hw : 1 <= w.
  Variable unit : Z.
  Hypothesis Hunit : 0 < unit.

  Definition in_range (z : Z) : Prop := 0 <= z < 2 ^ w.
  Definition wf_pool (p : pool) : Prop := in_range (p_long p) /\ in_range (p_short p).
  Definition wf_price (p : price) : Prop := in_range (pr_min p) /\ in_range (pr_max p).
  Definition wf_prices (ps : prices) : Prop :=
    wf_price (px_index ps) /\ wf_price (px_long ps) /\ wf_price (px_short ps).
  Definition wf_opool (p : option pool) : Prop := match p with Some x => wf_pool x | None => True end.
  (* the unsigned fields the liquidity / swap actions read or write *)
  Definition wf_state (s : mstate) : Prop :=
    in_range (total_supply s) /\ wf_pool (primary s) /\ wf_pool (swap_impact s) /\ wf_pool (fee s) /\
    wf_opool (vi_swaps s).

  Lemma pamount_range p il : wf_pool p -> in_range (pamount p il).
  Proof. intros [A B]. destruct il; assumption. Qed.

  Lemma to_sig_ok a r : to_sig w a = Ok r -> r = a /\ a < 2 ^ (w - 1).
  Proof. unfold to_sig. intros H. apply of_opt_ok, to_signed_some in H. lia. Qed.

  Lemma to_opp_ok a r : to_opp w a = Ok r -> r = - a /\ a < 2 ^ (w - 1).
  Proof.
    unfold to_opp. intros H. rinv H. apply to_signed_some in E. apply sneg_some in H. lia.
  Qed.

  Lemma apply_amt_ok x d y : apply_amt w x d = Ok y -> y = x + d /\ in_range y.
  Proof.
    unfold apply_amt, in_range. intros H. rinv H.
    - apply uadd_some in H. lia.
    - apply usub_some in H. lia.
  Qed.

  Definition dval (d : option Z) : Z := match d with Some x => x | None => 0 end.

  Lemma side_apply_ok a o y : match o with Some x => apply_amt w a x | None => Ok a end = Ok y ->
    y = a + dval o /\ (in_range a -> in_range y).
  Proof.
    destruct o as [x|]; cbn; intros H.
    - apply apply_amt_ok in H. tauto.
    - injection H as <-. split; [lia|auto].
  Qed.

  Lemma pool_apply_ok p d p' : pool_apply w p d = Ok p' ->
    p_long p' = p_long p + dval (fst d) /\ p_short p' = p_short p + dval (snd d) /\ (wf_pool p -> wf_pool p').
  Proof.
    unfold pool_apply, wf_pool. intros H. rinv H. injection H as <-. cbn [p_long p_short].
    apply side_apply_ok in E, E0. tauto.
  Qed.

  Lemma pool_apply_one p il d p' : pool_apply w p (delta_one il d) = Ok p' ->
    pamount p' il = pamount p il + d /\ pamount p' (negb il) = pamount p (negb il) /\ (wf_pool p -> wf_pool p').
  Proof.
    intros H. apply pool_apply_ok in H. destruct H as (A & B & C).
    destruct il; cbn in *; (split; [|split]); assumption || lia.
  Qed.

  Lemma pool_apply_both p il a b p' : pool_apply w p (delta_both il a b) = Ok p' ->
    pamount p' il = pamount p il + a /\ pamount p' (negb il) = pamount p (negb il) + b /\ (wf_pool p -> wf_pool p').
  Proof.
    intros H. apply pool_apply_ok in H. destruct H as (A & B & C).
    destruct il; cbn in *; (split; [|split]); assumption || lia.
  Qed.

  Definition vi_moved (p l : pool) (vp v : option pool) : Prop :=
    match vp, v with
    | Some x, Some y => p_long y - p_long x = p_long l - p_long p /\ p_short y - p_short x = p_short l - p_short p
    | None, None => True
    | _, _ => False
    end.

  Lemma market_apply_delta_ok s d l v : wf_opool (vi_swaps s) -> market_apply_delta w s d = Ok (l, v) ->
    pool_apply w (primary s) d = Ok l /\ wf_opool v /\ vi_moved (primary s) l (vi_swaps s) v.
  Proof.
    unfold market_apply_delta, vi_moved. intros Hvi H. rinv H. injection H as <- <-.
    split; [exact E|]. apply pool_apply_ok in E. destruct (vi_swaps s) as [p|].
    - rinv E0. injection E0 as <-. apply pool_apply_ok in E1. cbn in *. split; [tauto|lia].
    - injection E0 as <-. cbn. auto.
  Qed.

  Lemma side_price_wf ps il : wf_prices ps -> wf_price (side_price ps il).
  Proof. intros (_ & A & B). destruct il; assumption. Qed.

  Lemma apply_factor_zero v f r : v * f = 0 -> apply_factor w unit v f = Some r -> r = 0.
  Proof.
    unfold apply_factor, mul_div. intros Hz. rewrite Hz. replace (unit =? 0) with false by lia.
    rewrite Z.div_0_l by lia. intros H. apply chk_u_some in H. lia.
  Qed.

  Lemma apply_fees_inv fp bc amount after fs : apply_fees w unit fp bc amount = Some (after, fs) ->
    exists f0 disc f1,
      apply_factor w unit amount (fee_factor fp bc) = Some f0 /\
      apply_factor w unit f0 (fp_discount fp) = Some disc /\ usub w f0 disc = Some f1 /\
      apply_factor w unit f1 (fp_receiver fp) = Some (f_receiver fs) /\
      usub w f1 (f_receiver fs) = Some (f_pool fs) /\ usub w amount f1 = Some after.
  Proof.
    unfold apply_fees. intros H. do 6 (apply obind_some in H; destruct H as (? & ? & H)).
    injection H as <- <-. do 3 eexists. repeat split; eassumption.
  Qed.

  Lemma apply_fees_ok fp bc amount after fs : apply_fees w unit fp bc amount = Some (after, fs) ->
    after + f_receiver fs + f_pool fs = amount /\ 0 <= after /\ 0 <= f_pool fs /\
    in_range after /\ in_range (f_pool fs) /\ in_range (f_receiver fs).
  Proof.
    unfold in_range. intros H. apply apply_fees_inv in H. destruct H as (f0 & disc & f1 & _ & _ & _ & R & P & A).
    apply usub_some in P, A. unfold apply_factor, mul_div in R. destruct (unit =? 0); [discriminate|].
    apply chk_u_some in R. lia.
  Qed.

  Lemma apply_fees_receiver_nonneg fp bc amount after fs : 0 <= amount -> 0 <= fee_factor fp bc ->
    0 <= fp_discount fp -> 0 <= fp_receiver fp ->
    apply_fees w unit fp bc amount = Some (after, fs) -> 0 <= f_receiver fs.
  Proof.
    intros Ha Hf Hd Hr H. apply apply_fees_inv in H. destruct H as (f0 & disc & f1 & _ & _ & F1 & R & _).
    apply usub_some in F1. unfold apply_factor in R. apply mul_div_floor in R; lia.
  Qed.

  Lemma apply_fees_zero fp bc amount after fs : fee_factor fp bc = 0 ->
    apply_fees w unit fp bc amount = Some (after, fs) -> after = amount /\ f_receiver fs = 0 /\ f_pool fs = 0.
  Proof.
    intros Hz H. apply apply_fees_inv in H. destruct H as (f0 & disc & f1 & F0 & D & F1 & R & P & A).
    rewrite Hz in F0. apply apply_factor_zero in F0; [|lia]. subst f0.
    apply apply_factor_zero in D; [|lia]. subst disc.
    apply usub_some in F1, P, A. assert (f1 = 0) by lia. subst f1.
    apply apply_factor_zero in R; lia.
  Qed.

  Lemma swap_impact_amount_pos s il p usd a c : wf_price p -> wf_pool (swap_impact s) -> 0 < usd ->
    swap_impact_amount_with_cap w s il p usd = Ok (a, c) ->
    0 <= a <= pamount (swap_impact s) il /\ 0 <= c /\ 0 < pr_max p /\
    a * pr_max p + c <= usd /\ (c = 0 -> a = usd / pr_max p) /\ (c <> 0 -> a = pamount (swap_impact s) il).
  Proof.
    unfold swap_impact_amount_with_cap, wf_price, in_range. intros [Hmin Hmax] Hp Hu H.
    pose proof (pamount_range _ il Hp) as Hpa. unfold in_range in Hpa.
    destruct (has_zero p) eqn:Z0; [discriminate|]. unfold has_zero in Z0.
    replace (0 <? usd) with true in H by lia.
    (* max price, amount = usd / max, pool balance; two goals: the amount exceeds the balance (capped) or not *)
    rinv H.
    all: rename E into Emax, E0 into Eamount, E1 into Ebalance.
    all: app to_sig_ok Emax; destruct Emax as [-> _]; apply sdiv_some in Eamount; destruct Eamount as (_ & _ & ->).
    all: app to_sig_ok Ebalance; destruct Ebalance as [-> _]; rewrite Z.quot_div_nonneg in * by lia.
    all: pose proof (div_floor_spec usd (pr_max p) ltac:(lia)); assert (0 <= usd / pr_max p) by (apply div_nonneg; lia).
    - rename E2 into Ecapped. apply obind_some in Ecapped. destruct Ecapped as (d & D1 & D2).
      apply ssub_some in D1. destruct D1 as [_ ->]. apply umul_some in D2. destruct D2 as [_ ->]. injection H as <- <-.
      rewrite Z.abs_eq by lia. repeat split; try lia; nia.
    - injection H as <- <-. repeat split; lia.
  Qed.

  Lemma swap_impact_amount_nonpos s il p usd a c : wf_price p -> usd <= 0 ->
    swap_impact_amount_with_cap w s il p usd = Ok (a, c) ->
    a <= 0 /\ c = 0 /\ (usd = 0 -> a = 0) /\
    (usd < 0 -> 0 < pr_min p /\ pr_min p * (- a - 1) < - usd <= pr_min p * (- a)).
  Proof.
    unfold swap_impact_amount_with_cap, wf_price, in_range. intros [Hmin Hmax] Hu H.
    destruct (has_zero p) eqn:Z0; [discriminate|]. unfold has_zero in Z0.
    replace (0 <? usd) with false in H by lia.
    destruct (usd <? 0) eqn:Un.
    - rinv H. apply to_sig_ok in E. destruct E as [-> _].
      apply obind_some in E0. destruct E0 as (a1 & D1 & D2). apply ssub_some in D1. destruct D1 as [_ ->].
      apply obind_some in D2. destruct D2 as (b1 & D2 & D3). apply sadd_some in D2. destruct D2 as [_ ->].
      apply sdiv_some in D3. destruct D3 as (_ & _ & ->). injection H as <- <-.
      rewrite quot_neg_num by lia.
      replace (- (usd - pr_min p + 1)) with ((- usd) + pr_min p - 1) by lia.
      pose proof (ceil_spec (- usd) (pr_min p) ltac:(lia)) as HC.
      assert (0 <= (- usd + pr_min p - 1) / pr_min p) by (apply div_nonneg; lia).
      repeat split; try lia.
    - injection H as <- <-. repeat split; lia.
  Qed.
End P.

(* [norm]: replace every hypothesis [op w a b = Some r] about a checked operation, and every
   successful sign conversion, by the value of [r] and its range fact *)
Ltac norm :=
  repeat match goal with
  | H : of_opt _ _ = Ok _ |- _ => apply of_opt_ok in H
  | H : umul _ _ _ = Some _ |- _ => apply umul_some in H; destruct H as [? ->]
  | H : uadd _ _ _ = Some _ |- _ => apply uadd_some in H; destruct H as [? ->]
  | H : usub _ _ _ = Some _ |- _ => apply usub_some in H; destruct H as [? ->]
  | H : sadd _ _ _ = Some _ |- _ => apply sadd_some in H; destruct H as [? ->]
  | H : ssub _ _ _ = Some _ |- _ => apply ssub_some in H; destruct H as [? ->]
  | H : sneg _ _ = Some _ |- _ => apply sneg_some in H; destruct H as [? ->]
  | H : to_sig _ _ = Ok _ |- _ => app to_sig_ok H; destruct H as [-> ?]
  | H : to_opp _ _ = Ok _ |- _ => app to_opp_ok H; destruct H as [-> ?]
  end.
