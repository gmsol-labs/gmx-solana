(* C11 — lemmas about PositionExt::pnl_value (PS/Model.v). *)
From GV Require Import lib.Base C01.Proofs PS.Model PS.Lemmas.
Open Scope Z_scope.

(* unsigned machine values are non-negative *)
Definition pool_nonneg (p : pool) := 0 <= pl p /\ 0 <= ps p.
Definition price_nonneg (p : price) := 0 <= pmin p /\ 0 <= pmax p.
Definition prices_nonneg (pr : prices) := price_nonneg (p_index pr) /\ price_nonneg (p_long pr) /\ price_nonneg (p_short pr).
Definition pnl_market_nonneg (m : market) :=
  pool_nonneg (m_primary m) /\ pool_nonneg (m_oi_long m) /\ pool_nonneg (m_oi_short m) /\
  pool_nonneg (m_oit_long m) /\ pool_nonneg (m_oit_short m) /\ 0 <= c_max_pnl_trader (m_cfg m).
Definition pos_nonneg (p : position) := 0 <= size_usd p /\ 0 <= size_tok p.

(* the exact uncapped total pnl of a position at the price picked for pnl *)
Definition exact_total (p : position) (pr : prices) : Z :=
  if is_long p then size_tok p * pmin (p_index pr) - size_usd p
  else size_usd p - size_tok p * pmax (p_index pr).

Section P.
  Variable w : Z.
  Hypothesis Hw : 1 <= w.
  Variable unit : Z.
  Hypothesis Hunit : 0 < unit.

  Lemma pool_total_ok p t : pool_nonneg p -> pool_total w p = Ok t -> t = pl p + ps p /\ 0 <= t.
  Proof. intros [H1 H2] H. apply of_opt_ok, uadd_some in H. lia. Qed.

  Lemma pool_value_nonneg m pr long mx v : pool_nonneg (m_primary m) -> prices_nonneg pr ->
    pool_value_one_side w m pr long mx = Ok v -> 0 <= v.
  Proof.
    intros [Hl Hs] (_ & [L1 L2] & [S1 S2]) H. unfold pool_value_one_side, pick in H.
    destruct long, mx; apply of_opt_ok, umul_some in H; nia.
  Qed.

  Lemma cap_pnl_spec pnl pv f r : 0 <= pv -> 0 <= f ->
    cap_pnl w unit pnl pv f = Ok r ->
    r <= pnl /\ (pnl <= 0 -> r = pnl) /\ (0 < pnl -> 0 <= r) /\ (pnl <= pv * f / unit -> r = pnl).
  Proof.
    intros Hpv Hf. unfold cap_pnl. destruct (0 <? pnl) eqn:E; [|intros [= <-]; lia].
    intros H. bind_ok H as mx E0. bind_ok H as mxs E1. injection H as <-.
    apply af_ok in E0; try lia. apply rsigned_ok in E1. destruct E1 as [_ ->].
    destruct (mx <? pnl) eqn:E2; lia.
  Qed.

  (* the uncapped total is exact; the credited total is a truncated share of it when the trader cap
     binds on the pool's pnl, and equal to it otherwise *)
  Lemma total_pnl_spec p m pr tc tu :
    pos_nonneg p -> prices_nonneg pr -> pnl_market_nonneg m ->
    total_pnl w unit p m pr = Ok (tc, tu) ->
    tu = exact_total p pr /\ tc <= tu /\ (tu <= 0 -> tc = tu) /\ (0 <= tu -> 0 <= tc) /\
    (forall poolv ppnl, pool_value_one_side w m pr (is_long p) false = Ok poolv ->
       market_pnl w m (p_index pr) (is_long p) true = Ok ppnl ->
       ppnl <= poolv * c_max_pnl_trader (m_cfg m) / unit -> tc = tu).
  Proof.
    intros [HS HT] Hpr (Hp & _ & _ & _ & _ & Hf) H. unfold total_pnl in H.
    bind_ok H as pv Epv. apply umul_some in Epv. destruct Epv as [Hx ->].
    bind_ok H as pvs Epvs. apply rsigned_ok in Epvs. destruct Epvs as [_ ->].
    bind_ok H as su Esu. apply rsigned_ok in Esu. destruct Esu as [_ ->].
    bind_ok H as total Etot.
    assert (Htot : total = exact_total p pr).
    { unfold exact_total, pick_for_pnl in *. destruct (is_long p); apply ssub_some in Etot; apply Etot. }
    clear Etot. destruct (0 <? total) eqn:Epos; [|injection H as <- <-; repeat split; intros; lia].
    bind_ok H as poolv Epool. bind_ok H as ppnl Eppnl. bind_ok H as capped Ecap.
    pose proof (pool_value_nonneg _ _ _ _ _ Hp Hpr Epool) as Hpv.
    pose proof (cap_pnl_spec _ _ _ _ Hpv Hf Ecap) as (Hc1 & Hc2 & Hc3 & Hc4).
    destruct (negb (capped =? ppnl) && (0 <=? capped) && (0 <? ppnl)) eqn:Eb;
      [|injection H as <- <-; repeat split; intros; lia].
    rewrite !andb_true_iff, negb_true_iff, Z.eqb_neq, Z.leb_le, Z.ltb_lt in Eb. destruct Eb as [[E4 E5] E3].
    bind_ok H as t Et. injection H as <- <-.
    apply mul_div_signed_quot in Et; try lia. destruct Et as [Hd ->]. rewrite !Z.abs_eq by lia.
    apply Z.ltb_lt in Epos.
    destruct (quot_share_le capped ppnl total) as [Hge Hle]; [lia..|].
    split; [exact Htot|]. split; [exact Hle|]. split; [clear - Epos; lia|]. split; [intros _; exact Hge|].
    intros poolv' ppnl' E1 E2 Hcap. rewrite Epool in E1. rewrite Eppnl in E2.
    injection E1 as <-. injection E2 as <-. elim E4. exact (Hc4 Hcap).
  Qed.

  Lemma sdt_spec p d c : pos_nonneg p -> 0 <= d ->
    size_delta_in_tokens w p d = Ok c ->
    0 <= c /\
    ((size_usd p = d /\ c = size_tok p) \/
     (size_usd p <> d /\ 0 < size_usd p /\ is_long p = true /\
        size_usd p * (c - 1) < size_tok p * d <= size_usd p * c) \/
     (size_usd p <> d /\ 0 < size_usd p /\ is_long p = false /\
        size_usd p * c <= size_tok p * d < size_usd p * c + size_usd p)).
  Proof.
    intros [HS HT] Hd H. unfold size_delta_in_tokens in H.
    destruct (size_usd p =? d) eqn:E.
    - injection H as <-. split; [lia|]. left. lia.
    - destruct (is_long p) eqn:El; ok_inj H.
      + apply mul_div_ceil_exact in H; [|lia..]. assert (0 <= c) by nia. lia.
      + apply mul_div_floor in H; [|lia..]. lia.
  Qed.

  Lemma pnl_value_spec p m pr d a b c :
    pos_nonneg p -> prices_nonneg pr -> pnl_market_nonneg m -> 0 <= d ->
    pnl_value w unit p m pr d = Ok (a, b, c) ->
    exists tc, 0 < size_tok p /\ 0 <= c /\ size_delta_in_tokens w p d = Ok c /\
      total_pnl w unit p m pr = Ok (tc, exact_total p pr) /\
      a = Z.quot (c * tc) (size_tok p) /\ b = Z.quot (c * exact_total p pr) (size_tok p) /\
      tc <= exact_total p pr /\ (exact_total p pr <= 0 -> tc = exact_total p pr) /\ (0 <= exact_total p pr -> 0 <= tc).
  Proof.
    intros Hp Hpr Hm Hd H. unfold pnl_value in H.
    bind_ok H as t Et. destruct t as [tc tu].
    bind_ok H as sdt Esdt. bind_ok H as a' Ea. bind_ok H as b' Eb. injection H as <- <- <-.
    pose proof (total_pnl_spec _ _ _ _ _ Hp Hpr Hm Et) as (-> & H1 & H2 & H3).
    pose proof (sdt_spec _ _ _ Hp Hd Esdt) as [Hc _].
    destruct Hp as [HS HT]. simpl in Ea, Eb.
    apply mul_div_signed_quot in Ea; try lia. apply mul_div_signed_quot in Eb; try lia.
    destruct Ea as [HT0 ->]. destruct Eb as [_ ->].
    exists tc. repeat split; try assumption; try lia.
  Qed.

  (* the credited pnl never exceeds the uncapped pnl; losses are not reduced *)
  Theorem pnl_le_uncapped p m pr d a b c :
    pos_nonneg p -> prices_nonneg pr -> pnl_market_nonneg m -> 0 <= d ->
    pnl_value w unit p m pr d = Ok (a, b, c) ->
    a <= b /\ (b <= 0 -> a = b) /\ (0 <= b -> 0 <= a).
  Proof.
    intros Hp Hpr Hm Hd H.
    destruct (pnl_value_spec _ _ _ _ _ _ _ Hp Hpr Hm Hd H) as (tc & HT & Hc & _ & _ & -> & -> & H1 & H2 & H3).
    destruct (Z_le_gt_dec (exact_total p pr) 0) as [Hle|Hgt]; [rewrite (H2 Hle); lia|].
    specialize (H3 ltac:(lia)).
    pose proof (quot_mul_nonneg c tc _ Hc HT H3). pose proof (quot_mul_mono c _ _ _ Hc HT H1). lia.
  Qed.

  Definition index_le_prop (pr1 pr2 : prices) :=
    pmin (p_index pr1) <= pmin (p_index pr2) /\ pmax (p_index pr1) <= pmax (p_index pr2).

  (* the uncapped pnl is monotone in the index price: non-decreasing for a long, non-increasing for a short *)
  Theorem pnl_uncapped_monotone p m pr1 pr2 d a1 b1 c1 a2 b2 c2 :
    pos_nonneg p -> prices_nonneg pr1 -> prices_nonneg pr2 -> pnl_market_nonneg m -> 0 <= d ->
    index_le_prop pr1 pr2 ->
    pnl_value w unit p m pr1 d = Ok (a1, b1, c1) ->
    pnl_value w unit p m pr2 d = Ok (a2, b2, c2) ->
    c1 = c2 /\ if is_long p then b1 <= b2 else b2 <= b1.
  Proof.
    intros Hp Hpr1 Hpr2 Hm Hd [Hi1 Hi2] H1 H2.
    destruct (pnl_value_spec _ _ _ _ _ _ _ Hp Hpr1 Hm Hd H1) as (tc1 & HT & Hc1 & Es1 & _ & _ & -> & _).
    destruct (pnl_value_spec _ _ _ _ _ _ _ Hp Hpr2 Hm Hd H2) as (tc2 & _ & Hc2 & Es2 & _ & _ & -> & _).
    rewrite Es1 in Es2. injection Es2 as <-. split; [reflexivity|].
    unfold exact_total. destruct Hp as [HS HT'].
    pose proof (Z.mul_le_mono_nonneg_l _ _ (size_tok p) HT' Hi1).
    pose proof (Z.mul_le_mono_nonneg_l _ _ (size_tok p) HT' Hi2).
    destruct (is_long p); apply quot_mul_mono; lia.
  Qed.

  (* the realised pnl is monotone whenever the trader cap does not bind in either evaluation
     (credited = uncapped): the complement of the known class TraderCapBinding; it is pnl_uncapped_monotone
     read with a_i = b_i *)
  Theorem pnl_realised_monotone_cap_not_binding p m pr1 pr2 d a1 b1 c1 a2 b2 c2 :
    pos_nonneg p -> prices_nonneg pr1 -> prices_nonneg pr2 -> pnl_market_nonneg m -> 0 <= d ->
    index_le_prop pr1 pr2 ->
    pnl_value w unit p m pr1 d = Ok (a1, b1, c1) ->
    pnl_value w unit p m pr2 d = Ok (a2, b2, c2) ->
    a1 = b1 -> a2 = b2 ->
    if is_long p then a1 <= a2 else a2 <= a1.
  Proof.
    intros Hp Hpr1 Hpr2 Hm Hd Hi H1 H2 -> ->.
    exact (proj2 (pnl_uncapped_monotone _ _ _ _ _ _ _ _ _ _ _ Hp Hpr1 Hpr2 Hm Hd Hi H1 H2)).
  Qed.

  (* when the pool pnl at the evaluation price is within the trader cap the credited pnl IS the uncapped pnl *)
  Theorem pnl_cap_not_binding p m pr d a b c poolv ppnl :
    pos_nonneg p -> prices_nonneg pr -> pnl_market_nonneg m -> 0 <= d ->
    pool_value_one_side w m pr (is_long p) false = Ok poolv ->
    market_pnl w m (p_index pr) (is_long p) true = Ok ppnl ->
    ppnl <= poolv * c_max_pnl_trader (m_cfg m) / unit ->
    pnl_value w unit p m pr d = Ok (a, b, c) -> a = b.
  Proof.
    intros Hp Hpr Hm Hd Epool Eppnl Hle H.
    destruct (pnl_value_spec _ _ _ _ _ _ _ Hp Hpr Hm Hd H) as (tc & _ & _ & _ & Et & -> & -> & _).
    destruct (total_pnl_spec _ _ _ _ _ Hp Hpr Hm Et) as (_ & _ & _ & _ & Hcap).
    rewrite (Hcap _ _ Epool Eppnl Hle). reflexivity.
  Qed.

  (* a partial close realises the closed share of the full-close pnl, up to rounding:
     | x - X * d / S | < 1 + |X| / T    (x partial, X full close; T tokens, S size in usd) *)
  Definition share_close (T S d x X : Z) : Prop :=
    Z.abs (x * T * S - T * d * X) < T * S + S * Z.abs X.

  Lemma abs_combine S T u X v : 0 < S -> Z.abs u < T -> Z.abs v <= S ->
    Z.abs (S * u + X * v) < T * S + S * Z.abs X.
  Proof.
    intros HS Hu Hv. eapply Z.le_lt_trans; [apply Z.abs_triangle|].
    rewrite !Z.abs_mul, (Z.abs_eq S) by lia.
    assert (S * Z.abs u < S * T) by (apply Z.mul_lt_mono_pos_l; assumption).
    assert (Z.abs X * Z.abs v <= Z.abs X * S) by (apply Z.mul_le_mono_nonneg_l; [apply Z.abs_nonneg|assumption]).
    lia.
  Qed.

  (* x T S - T d X = S (T x - c X) + X (c S - T d): the rounding of the share (< T) and of the tokens (< S) *)
  Lemma share_close_of T S d c x X : 0 < T -> 0 < S -> 0 <= c ->
    (c * S = T * d \/ Z.abs (c * S - T * d) < S) ->
    x = Z.quot (c * X) T -> share_close T S d x X.
  Proof.
    intros HT HS Hc Hcs ->. unfold share_close.
    replace (Z.quot (c * X) T * T * S - T * d * X)
      with (S * (T * Z.quot (c * X) T - c * X) + X * (c * S - T * d)) by ring.
    apply abs_combine; [exact HS|apply quot_bounds; exact HT|destruct Hcs; lia].
  Qed.

  Theorem partial_close_proportional p m pr d a b c A B C :
    pos_nonneg p -> prices_nonneg pr -> pnl_market_nonneg m -> 0 <= d -> 0 < size_usd p ->
    pnl_value w unit p m pr d = Ok (a, b, c) ->
    pnl_value w unit p m pr (size_usd p) = Ok (A, B, C) ->
    C = size_tok p /\
    share_close (size_tok p) (size_usd p) d a A /\ share_close (size_tok p) (size_usd p) d b B.
  Proof.
    intros Hp Hpr Hm Hd HS H1 H2.
    destruct (pnl_value_spec _ _ _ _ _ _ _ Hp Hpr Hm Hd H1) as (tc1 & HT & Hc1 & Es1 & Et1 & -> & -> & _).
    destruct (pnl_value_spec _ _ _ _ _ _ _ Hp Hpr Hm (Z.lt_le_incl _ _ HS) H2) as (tc2 & _ & Hc2 & Es2 & Et2 & -> & -> & _).
    rewrite Et1 in Et2. injection Et2 as <-.
    unfold size_delta_in_tokens in Es2. rewrite Z.eqb_refl in Es2. injection Es2 as <-.
    split; [reflexivity|].
    assert (HA : Z.quot (size_tok p * tc1) (size_tok p) = tc1) by (rewrite Z.mul_comm; apply Z.quot_mul; lia).
    assert (HB : Z.quot (size_tok p * exact_total p pr) (size_tok p) = exact_total p pr) by (rewrite Z.mul_comm; apply Z.quot_mul; lia).
    rewrite HA, HB.
    pose proof (sdt_spec _ _ _ Hp Hd Es1) as [_ Hcase].
    assert (Hcs : c * size_usd p = size_tok p * d \/ Z.abs (c * size_usd p - size_tok p * d) < size_usd p).
    { destruct Hcase as [[E ->]|[(Hn & HS' & _ & Hr)|(Hn & HS' & _ & Hr)]]; [left; rewrite E; ring|right; lia|right; lia]. }
    split; apply (share_close_of _ _ _ c); auto.
  Qed.
End P.
