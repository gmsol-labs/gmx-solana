(* C43 — what the model of fixed.rs / rust_decimal computes, and the round trips characterised ([rt_out]). *)
From GV Require Import lib.Base lib.DivLemmas lib.Checked C43.Model.
Open Scope Z_scope.

(* [lia] evaluates [2 ^ 96], [10 ^ 28] and the like by itself; only the named constants need a lemma *)
Lemma MAX_REPR_eq : MAX_REPR = 2 ^ 96 - 1.
Proof. reflexivity. Qed.
Lemma TARGET_SCALE_val : TARGET_SCALE = 27.
Proof. vm_compute. reflexivity. Qed.

Lemma pow10_succ k : 0 <= k -> 10 ^ (k + 1) = 10 * 10 ^ k.
Proof. exact (Z.pow_succ_r 10 k). Qed.

Lemma div10_pow m k : 0 <= k -> m / 10 / 10 ^ k = m / 10 ^ (k + 1).
Proof. intros Hk. pose proof (pow10_pos k Hk). rewrite pow10_succ, Z.div_div by lia. reflexivity. Qed.

Lemma div_pow10_digits a l s : 0 <= s <= l -> 10 ^ l <= a < 10 ^ (l + 1) ->
  10 ^ (l - s) <= a / 10 ^ s < 10 ^ (l - s + 1).
Proof.
  intros Hs Ha. pose proof (pow10_pos s ltac:(lia)).
  replace l with (s + (l - s)) in Ha at 1 by lia. replace (l + 1) with (s + (l - s + 1)) in Ha by lia.
  rewrite (Z.pow_add_r 10 s (l - s)), (Z.pow_add_r 10 s (l - s + 1)) in Ha by lia.
  split; [apply Z.div_le_lower_bound | apply Z.div_lt_upper_bound]; lia.
Qed.

Lemma ilog10_fuel_spec fuel : forall n, 1 <= n < 10 ^ Z.of_nat fuel ->
  0 <= ilog10_fuel fuel n < Z.of_nat fuel /\
  10 ^ ilog10_fuel fuel n <= n < 10 ^ (ilog10_fuel fuel n + 1).
Proof.
  induction fuel as [|f IH]; intros n Hn; [cbn in Hn; lia|].
  rewrite Nat2Z.inj_succ, Z.pow_succ_r in Hn by lia.
  cbn [ilog10_fuel]. destruct (Z.ltb_spec n 10).
  - lia.
  - destruct (IH (n / 10)) as [Hr [Hlo Hhi]]; [lia|].
    set (l := ilog10_fuel f (n / 10)) in *.
    rewrite pow10_succ in Hhi by lia. rewrite (Z.add_comm 1 l), !pow10_succ by lia. lia.
Qed.

Lemma ilog10_spec n : 1 <= n < 2 ^ 128 ->
  0 <= ilog10 n <= 38 /\ 10 ^ ilog10 n <= n < 10 ^ (ilog10 n + 1).
Proof.
  intros Hn. unfold ilog10.
  destruct (ilog10_fuel_spec 40 n) as [Hr Hb]; [change (Z.of_nat 40) with 40; lia|].
  split; [|exact Hb]. set (l := ilog10_fuel 40 n) in *.
  (* 10^39 > 2^128 *)
  destruct (Z_le_gt_dec l 38); [lia|]. pose proof (Z.pow_le_mono_r 10 39 l). lia.
Qed.

Lemma ilog10_large n : MAX_REPR < n < 2 ^ 128 -> 28 <= ilog10 n <= 38.
Proof.
  intros Hn. pose proof MAX_REPR_eq. destruct (ilog10_spec n) as [Hr [_ Hhi]]; [lia|].
  (* 10^28 <= 2^96 *)
  destruct (Z_le_gt_dec 28 (ilog10 n)); [lia|]. pose proof (Z.pow_le_mono_r 10 (ilog10 n + 1) 28). lia.
Qed.

(* what [rescale_down] makes of the loop's result, before the 96-bit wrap *)
Definition rd_finish (t : Z * Z * bool) : Z :=
  match t with (m', rem, early) => if early then m' else if 5 <=? rem then m' + 1 else m' end.

(* the remainder the loop ends with: the last digit removed *)
Definition round_digit (m rem : Z) (n : nat) : Z :=
  match n with O => rem | S k => (m / 10 ^ Z.of_nat k) mod 10 end.

Lemma rescale_down_loop_spec n : forall m rem, 0 <= m ->
  rd_finish (rescale_down_loop n m rem) =
  m / 10 ^ Z.of_nat n + (if 5 <=? round_digit m rem n then 1 else 0).
Proof.
  induction n as [|k IH]; intros m rem Hm.
  - cbn [rescale_down_loop rd_finish round_digit]. change (10 ^ Z.of_nat 0) with 1.
    rewrite Z.div_1_r. destruct (5 <=? rem); lia.
  - cbn [rescale_down_loop]. destruct (Z.eqb_spec m 0) as [->|Hz].
    + (* early return: every digit of 0 is 0 *)
      cbn [rd_finish round_digit]. rewrite !Z.div_0_l by (apply Z.pow_nonzero; lia). reflexivity.
    + rewrite IH by (apply Z.div_pos; lia).
      rewrite Nat2Z.inj_succ, <- Z.add_1_r, <- div10_pow by lia. f_equal.
      destruct k as [|j]; cbn [round_digit].
      * change (10 ^ Z.of_nat 0) with 1. rewrite Z.div_1_r. reflexivity.
      * rewrite (Nat2Z.inj_succ j), <- Z.add_1_r, <- div10_pow by lia. reflexivity.
Qed.

Lemma rescale_down_digit m diff : 0 <= m < 2 ^ 96 -> 1 <= diff ->
  rescale_down m diff = m / 10 ^ diff + (if 5 <=? (m / 10 ^ (diff - 1)) mod 10 then 1 else 0).
Proof.
  intros Hm Hd. unfold rescale_down.
  pose proof (rescale_down_loop_spec (Z.to_nat diff) m 0 (proj1 Hm)) as H.
  destruct (Z.to_nat diff) as [|k] eqn:Ek; [lia|].
  replace (Z.of_nat (S k)) with diff in H by lia. cbn [round_digit] in H.
  replace (Z.of_nat k) with (diff - 1) in H by lia.
  destruct (rescale_down_loop (S k) m 0) as [[m' rem] early].
  cbn [rd_finish] in H. rewrite <- H.
  destruct early; [reflexivity|]. destruct (5 <=? rem); [|reflexivity].
  (* no wrap: the quotient is at most m / 10 < 2 ^ 96 - 1 *)
  assert (Hq : 0 <= m / 10 ^ diff < 2 ^ 96 - 1).
  { split; [apply div_nonneg; [lia | apply pow10_pos; lia]|]. apply Z.le_lt_trans with (m / 10).
    - replace diff with (diff - 1 + 1) by lia. rewrite <- div10_pow by lia.
      apply div_le_self; [lia | apply pow10_pos; lia].
    - apply Z.div_lt_upper_bound; lia. }
  set (q := m / 10 ^ diff) in *. clearbody q.
  destruct (5 <=? (m / 10 ^ (diff - 1)) mod 10); apply Z.mod_small; lia.
Qed.

Lemma half_up_digit m diff : 0 <= m -> 1 <= diff ->
  (5 <=? (m / 10 ^ (diff - 1)) mod 10) = (10 ^ diff <=? 2 * (m mod 10 ^ diff)).
Proof.
  intros Hm Hd. replace diff with (diff - 1 + 1) at 2 3 by lia. rewrite pow10_succ by lia.
  set (p := 10 ^ (diff - 1)). assert (Hp : 0 < p) by (apply pow10_pos; lia).
  (* m mod 10p = (digit) * p + m mod p *)
  rewrite (Z.mul_comm 10 p), Z.rem_mul_r by lia.
  pose proof (Z.mod_pos_bound m p Hp). pose proof (Z.mod_pos_bound (m / p) 10 ltac:(lia)).
  destruct (Z.leb_spec 5 ((m / p) mod 10)); symmetry; [apply Z.leb_le | apply Z.leb_gt]; nia.
Qed.

Lemma rescale_down_closed m diff : 0 <= m < 2 ^ 96 -> 1 <= diff ->
  rescale_down m diff = m / 10 ^ diff + (if 10 ^ diff <=? 2 * (m mod 10 ^ diff) then 1 else 0).
Proof. intros Hm Hd. rewrite rescale_down_digit, half_up_digit by lia. reflexivity. Qed.

(* j multiplications by ten are done: all [n] of them, or as many as fit 96 bits *)
Lemma rescale_up_loop_spec n : forall m, 0 < m < 2 ^ 96 ->
  exists j, 0 <= j <= Z.of_nat n /\
    rescale_up_loop n m = (m * 10 ^ j, Z.of_nat n - j) /\
    m * 10 ^ j < 2 ^ 96 /\
    (j < Z.of_nat n -> 2 ^ 96 <= m * 10 ^ (j + 1)).
Proof.
  induction n as [|k IH]; intros m Hm.
  - exists 0. change (10 ^ 0) with 1. rewrite Z.mul_1_r. split; [lia|]. split; [reflexivity|]. lia.
  - cbn [rescale_up_loop]. destruct (Z.ltb_spec (m * 10) (2 ^ 96)).
    + destruct (IH (m * 10) ltac:(lia)) as [j [Hj [Hl [Hb Hs]]]].
      exists (j + 1). rewrite !pow10_succ by lia. rewrite pow10_succ in Hs by lia.
      split; [lia|]. split; [rewrite Hl; f_equal; [ring | lia]|]. split; [lia|].
      intros Hlt. specialize (Hs ltac:(lia)). lia.
    + exists 0. change (10 ^ (0 + 1)) with 10. change (10 ^ 0) with 1. rewrite Z.mul_1_r.
      split; [lia|]. split; [f_equal; lia|]. lia.
Qed.

Definition valid (d : dec) : Prop := 0 <= dm d < 2 ^ 96 /\ 0 <= dsc d <= 28.

Lemma mantissa_zero d : dm d = 0 -> mantissa d = 0.
Proof. unfold mantissa. destruct (dneg d); lia. Qed.

Lemma mantissa_nonzero d : dm d <> 0 -> mantissa d <> 0.
Proof. unfold mantissa. destruct (dneg d); lia. Qed.

Lemma mantissa_scaled d c s : mantissa (mkDec (dneg d) (dm d * c) s) = mantissa d * c.
Proof. unfold mantissa. cbn [dneg dm]. destruct (dneg d); ring. Qed.

Lemma mantissa_in_i128 d : 0 <= dm d < 2 ^ 96 -> in_s 128 (mantissa d) = true.
Proof. intros. apply in_s_iff. unfold mantissa. destruct (dneg d); lia. Qed.

(* the exact image: mantissa * 10^(decimals - scale), or half-up rounding when digits are dropped *)
Definition half_up (mant drop : Z) : Z :=
  let q := Z.abs mant / 10 ^ drop + (if 10 ^ drop <=? 2 * (Z.abs mant mod 10 ^ drop) then 1 else 0) in
  if mant <? 0 then - q else q.
Definition target (d : dec) (decimals : Z) : Z :=
  if dsc d <=? decimals then mantissa d * 10 ^ (decimals - dsc d)
  else half_up (mantissa d) (dsc d - decimals).

Lemma half_up_nonneg m x : 0 <= m ->
  half_up m x = m / 10 ^ x + (if 10 ^ x <=? 2 * (m mod 10 ^ x) then 1 else 0).
Proof.
  intros Hm. unfold half_up. rewrite Z.abs_eq by lia.
  destruct (Z.ltb_spec m 0); [lia | reflexivity].
Qed.

Lemma half_up_range m x : 0 <= m -> 1 <= x -> 0 <= half_up m x <= m.
Proof.
  intros Hm Hx. rewrite half_up_nonneg by lia.
  replace x with (x - 1 + 1) by lia. rewrite pow10_succ by lia.
  pose proof (pow10_pos (x - 1) ltac:(lia)). generalize dependent (10 ^ (x - 1)). intros p Hp.
  destruct (10 * p <=? 2 * (m mod (10 * p))) eqn:E; [apply Z.leb_le in E|]; nia.
Qed.

Lemma half_up_mantissa d x s : 0 <= dm d -> 0 <= x ->
  half_up (mantissa d) x = mantissa (mkDec (dneg d) (half_up (dm d) x) s).
Proof.
  intros Hm Hx. unfold mantissa. cbn [dneg dm]. destruct (dneg d); [|reflexivity].
  rewrite (half_up_nonneg (dm d)) by lia. unfold half_up. rewrite Z.abs_opp, Z.abs_eq by lia.
  destruct (Z.ltb_spec (- dm d) 0); [reflexivity|].
  (* the magnitude is zero, and so is its image *)
  replace (dm d) with 0 by lia. pose proof (pow10_pos x Hx).
  rewrite Z.div_0_l, Z.mod_0_l by lia. destruct (Z.leb_spec (10 ^ x) (2 * 0)); lia.
Qed.

Lemma rescale_same d : rescale d (dsc d) = d.
Proof. unfold rescale. rewrite Z.eqb_refl. reflexivity. Qed.

Lemma rescale_zero d s : dsc d <> s -> dm d = 0 -> rescale d s = mkDec (dneg d) 0 (Z.min s MAX_SCALE).
Proof.
  intros Hs Hz. unfold rescale. destruct (Z.eqb_spec (dsc d) s); [contradiction|].
  rewrite Hz. reflexivity.
Qed.

Lemma rescale_down_spec d s : valid d -> dm d <> 0 -> 0 <= s < dsc d ->
  rescale d s = mkDec (dneg d) (half_up (dm d) (dsc d - s)) s.
Proof.
  intros [Hm _] Hz Hs. unfold rescale.
  destruct (Z.eqb_spec (dsc d) s); [lia|]. destruct (Z.eqb_spec (dm d) 0); [contradiction|].
  destruct (Z.ltb_spec s (dsc d)); [|lia].
  rewrite rescale_down_closed, half_up_nonneg by lia. reflexivity.
Qed.

Lemma rescale_up_spec d s : valid d -> dm d <> 0 -> dsc d < s ->
  exists j, 0 <= j <= s - dsc d /\
    rescale d s = mkDec (dneg d) (dm d * 10 ^ j) (dsc d + j) /\
    dm d * 10 ^ j < 2 ^ 96 /\ (dsc d + j < s -> 2 ^ 96 <= dm d * 10 ^ (j + 1)).
Proof.
  intros [Hm _] Hz Hs. unfold rescale.
  destruct (Z.eqb_spec (dsc d) s); [lia|]. destruct (Z.eqb_spec (dm d) 0); [contradiction|].
  destruct (Z.ltb_spec s (dsc d)); [lia|].
  destruct (rescale_up_loop_spec (Z.to_nat (s - dsc d)) (dm d) ltac:(lia)) as [j [Hj [Hl [Hb Hstop]]]].
  rewrite Z2Nat.id in * by lia. rewrite Hl.
  exists j. split; [lia|]. split; [f_equal; lia|]. split; [exact Hb|]. intros; apply Hstop; lia.
Qed.

Lemma rescale_up_scale d decimals : valid d -> dm d <> 0 -> dsc d < decimals ->
  exists j, 0 <= j /\ dsc (rescale d decimals) = dsc d + j /\ dsc d + j <= decimals /\
            dm d * 10 ^ j < 2 ^ 96 /\ (dsc d + j < decimals -> 2 ^ 96 <= dm d * 10 ^ (j + 1)).
Proof.
  intros Hv Hz Hlt. destruct (rescale_up_spec d decimals Hv Hz Hlt) as [j [Hj [-> [Hb Hstop]]]].
  exists j. cbn [dsc]. repeat split; (assumption || lia).
Qed.

(* a magnitude of at least 28 digits can be multiplied by ten at most once *)
Lemma rescale_scale_bound d Dk : valid d -> dsc d <= Dk -> 10 ^ 27 <= dm d ->
  dsc (rescale d Dk) <= dsc d + 1.
Proof.
  intros Hv HD Hbig. destruct (Z.eq_dec (dsc d) Dk) as [<-|Hne]; [rewrite rescale_same; lia|].
  destruct (rescale_up_spec d Dk Hv) as [j [Hj [-> [Hb _]]]]; [lia | lia |]. cbn [dsc].
  (* 10^27 * 10^2 > 2^96 *)
  destruct (Z_le_gt_dec j 1); [lia|]. pose proof (Z.pow_le_mono_r 10 2 j).
  pose proof (Z.mul_le_mono_nonneg (10 ^ 27) (dm d) (10 ^ 2) (10 ^ j)). lia.
Qed.

Lemma pow10_in_i128 e : 0 <= e -> (10 ^ e <? 2 ^ 127) = (e <=? 38).
Proof.
  intros He. destruct (Z.leb_spec e 38); [apply Z.ltb_lt | apply Z.ltb_ge].
  - pose proof (Z.pow_le_mono_r 10 e 38). lia.
  - pose proof (Z.pow_le_mono_r 10 39 e). lia.
Qed.

(* 10i128.checked_pow(e) followed by checked_mul: one range check of the product,
   except that a zero mantissa does not save a power that overflows *)
Lemma compensate mant e : 0 <= e ->
  (m <- i128_pow10 e ;; smul 128 mant m) = if e <=? 38 then chk_s 128 (mant * 10 ^ e) else None.
Proof.
  intros He. rewrite <- pow10_in_i128 by exact He. pose proof (pow10_pos e He).
  unfold i128_pow10, chk_s at 1, in_s. change (128 - 1) with 127.
  destruct (Z.leb_spec (- 2 ^ 127) (10 ^ e)); [|lia].
  destruct (10 ^ e <? 2 ^ 127); reflexivity.
Qed.

Lemma product_leaves_i128 mant p : mant <> 0 -> 2 ^ 127 < p -> in_s 128 (mant * p) = false.
Proof.
  intros Hm Hp. destruct (in_s 128 (mant * p)) eqn:E; [exfalso|reflexivity].
  apply in_s_iff in E. change (128 - 1) with 127 in E. assert (0 < p) by lia.
  destruct (Z.lt_total mant 0) as [|[|]]; [|lia|].
  - pose proof (Z.mul_le_mono_nonneg 1 (- mant) p p). lia.
  - pose proof (Z.mul_le_mono_nonneg 1 mant p p). lia.
Qed.

(* once [rescale] has left r, at a scale not above the requested one, the missing factor is
   applied in i128 and the product range-checked *)
Lemma rescaled_to_mantissa d decimals r : rescale d decimals = r ->
  0 <= dm r < 2 ^ 96 -> dsc r <= decimals -> (dm r = 0 -> dsc r = decimals) ->
  rescale_to_mantissa d decimals =
    let t := mantissa r * 10 ^ (decimals - dsc r) in if in_s 128 t then Ok t else Err 1.
Proof.
  intros <- Hm Hs Hz. unfold rescale_to_mantissa. set (r := rescale d decimals) in *. cbn zeta.
  destruct (Z.ltb_spec (dsc r) decimals) as [Hlt|Hge].
  - rewrite compensate by lia. unfold chk_s.
    destruct (Z.leb_spec (decimals - dsc r) 38); [destruct (in_s 128 _); reflexivity|].
    rewrite product_leaves_i128; [reflexivity | apply mantissa_nonzero; lia |].
    pose proof (Z.pow_le_mono_r 10 39 (decimals - dsc r)). lia.
  - destruct (Z.eqb_spec (dsc r) decimals); [|lia]. replace (decimals - dsc r) with 0 by lia.
    rewrite Z.mul_1_r, mantissa_in_i128 by exact Hm. reflexivity.
Qed.

Lemma target_zero d decimals : dm d = 0 -> target d decimals = 0.
Proof.
  intros Hz. unfold target. rewrite (mantissa_zero d Hz), Z.mul_0_l.
  destruct (Z.leb_spec (dsc d) decimals); [reflexivity|].
  apply Z.le_antisymm; apply (half_up_range 0); lia.
Qed.

(* zero is rescaled to min(decimals, 28); beyond that, 10^(decimals - 28) is computed in i128
   before it is multiplied by 0, and 10^39 is the first power outside i128: hence 67 = 28 + 39 *)
Lemma rescale_to_mantissa_zero d decimals : dm d = 0 -> dsc d <> decimals -> 0 <= decimals ->
  rescale_to_mantissa d decimals = if 67 <=? decimals then Err 1 else Ok 0.
Proof.
  intros Hz Hne Hd. pose proof (rescale_zero d decimals Hne Hz) as Hr. unfold MAX_SCALE in Hr.
  destruct (Z.le_gt_cases decimals 28).
  - rewrite Z.min_l in Hr by lia. rewrite (rescaled_to_mantissa d decimals _ Hr) by (cbn; lia).
    rewrite (mantissa_zero (mkDec _ 0 _) eq_refl), Z.mul_0_l.
    destruct (Z.leb_spec 67 decimals); [lia | reflexivity].
  - rewrite Z.min_r in Hr by lia. unfold rescale_to_mantissa. rewrite Hr. cbn [dsc].
    destruct (Z.ltb_spec 28 decimals); [|lia].
    rewrite compensate, (mantissa_zero (mkDec _ 0 _) eq_refl), Z.mul_0_l by lia.
    destruct (Z.leb_spec 67 decimals), (Z.leb_spec (decimals - 28) 38); (reflexivity || lia).
Qed.

Theorem rescale_to_mantissa_spec d decimals : valid d -> 0 <= decimals <= 255 ->
  rescale_to_mantissa d decimals =
    if (dm d =? 0) && (67 <=? decimals) then Err 1
    else if in_s 128 (target d decimals) then Ok (target d decimals) else Err 1.
Proof.
  intros Hv Hd. pose proof Hv as [Hm Hs].
  destruct (Z.eq_dec (dsc d) decimals) as [<-|Hne].
  { unfold target. rewrite (rescaled_to_mantissa d (dsc d) d (rescale_same d)), Z.leb_refl by lia.
    destruct (Z.leb_spec 67 (dsc d)); [lia|]. rewrite andb_false_r. reflexivity. }
  destruct (Z.eqb_spec (dm d) 0) as [Hz|Hz]; cbn [andb].
  { rewrite target_zero, rescale_to_mantissa_zero by (assumption || lia). reflexivity. }
  unfold target. destruct (Z.leb_spec (dsc d) decimals) as [Hle|Hgt].
  - (* scale up, as far as 96 bits allow; the rest is compensated in i128 *)
    destruct (rescale_up_spec d decimals Hv Hz) as [j [Hj [Hr [Hb Hstop]]]]; [lia|].
    pose proof (pow10_pos j ltac:(lia)).
    rewrite (rescaled_to_mantissa d decimals _ Hr) by (cbn [dm dsc]; nia). cbn [dsc].
    rewrite mantissa_scaled, <- Z.mul_assoc, <- Z.pow_add_r by lia.
    replace (j + (decimals - (dsc d + j))) with (decimals - dsc d) by lia. reflexivity.
  - (* scale down: always reaches the requested scale; half-up rounding *)
    pose proof (half_up_range (dm d) (dsc d - decimals)).
    rewrite (rescaled_to_mantissa d decimals _ (rescale_down_spec d decimals Hv Hz ltac:(lia)))
      by (cbn [dm dsc]; lia).
    cbn [dsc]. rewrite Z.sub_diag, Z.mul_1_r, <- half_up_mantissa by lia. reflexivity.
Qed.

(* the model has no panic site on the way back: its errors are 1, 2 and 3 *)
Lemma rescale_to_mantissa_no_panic d decimals : rescale_to_mantissa d decimals <> Err E_PANIC.
Proof.
  unfold rescale_to_mantissa.
  destruct (dsc (rescale d decimals) <? decimals); [destruct (obind _ _); discriminate|].
  destruct (dsc (rescale d decimals) =? decimals); discriminate.
Qed.

Lemma backward_no_panic k d decimals : backward k d decimals <> Err E_PANIC.
Proof.
  pose proof (rescale_to_mantissa_no_panic d decimals) as H.
  (* the unsigned targets only add Err 3 *)
  assert (Hu : forall w, (v <-- rescale_to_mantissa d decimals ;; of_opt 3 (chk_u w v)) <> Err E_PANIC).
  { intros w. destruct (rescale_to_mantissa d decimals) as [v|e]; [|exact H].
    cbn [rbind]. unfold of_opt. destruct (chk_u w v); discriminate. }
  unfold backward. destruct ((k =? 0) || (k =? 4)); [apply Hu|]. destruct (k =? 2); [apply Hu | exact H].
Qed.

(* number of low decimal digits that the > 96-bit path removes *)
Definition lost (a : Z) : Z := ilog10 a - 27.

Lemma lost_quot a : MAX_REPR < a < 2 ^ 128 ->
  1 <= lost a <= 11 /\ 10 ^ 27 <= a / 10 ^ lost a < 10 ^ 28.
Proof.
  intros Ha. pose proof (ilog10_large a Ha). pose proof MAX_REPR_eq.
  destruct (ilog10_spec a) as [_ Hdig]; [lia|]. unfold lost. split; [lia|].
  pose proof (div_pow10_digits a (ilog10 a) (ilog10 a - 27) ltac:(lia) Hdig) as H1.
  replace (ilog10 a - (ilog10 a - 27)) with 27 in H1 by lia. exact H1.
Qed.

Lemma lost_quot_big a : MAX_REPR < a < 2 ^ 128 -> 10 ^ 27 <= a / 10 ^ lost a.
Proof. intros Ha. apply (lost_quot a Ha). Qed.

Definition excess (a : Z) : Z := if MAX_REPR <? a then lost a else 0.

Lemma excess_spec a : 0 <= a < 2 ^ 128 -> 0 <= excess a <= 11 /\ 0 <= a / 10 ^ excess a <= MAX_REPR.
Proof.
  intros Ha. unfold excess. pose proof MAX_REPR_eq. destruct (Z.ltb_spec MAX_REPR a).
  - pose proof (lost_quot a ltac:(lia)). lia.
  - rewrite Z.div_1_r. lia.
Qed.

Lemma try_from_magnitude n s : 0 <= n <= MAX_REPR ->
  try_from_i128_with_scale n s = if MAX_SCALE <? s then Err 1 else Ok (mkDec false n s).
Proof.
  intros Hn. unfold try_from_i128_with_scale. pose proof MAX_REPR_eq.
  destruct (Z.ltb_spec MAX_REPR n); [lia|]. destruct (Z.ltb_spec n (- MAX_REPR)); [lia|].
  destruct (Z.ltb_spec n 0); [lia|]. rewrite Z.abs_eq by lia. reflexivity.
Qed.

Lemma ufixed_spec a D : 0 <= a < 2 ^ 128 -> 0 <= D ->
  unsigned_fixed_to_decimal a D =
    if (D <? excess a) || (28 <? D - excess a) then FNone
    else FSome (mkDec false (a / 10 ^ excess a) (D - excess a)).
Proof.
  intros Ha HD. pose proof (excess_spec a Ha) as [Hx Hq]. revert Hx Hq.
  unfold unsigned_fixed_to_decimal, excess. destruct (Z.ltb_spec MAX_REPR a) as [Hl|Hs]; intros Hx Hq.
  - unfold convert_by_change_the_scale. rewrite TARGET_SCALE_val. fold (lost a).
    pose proof (ilog10_large a ltac:(lia)).
    destruct (Z.ltb_spec (ilog10 a) 27); [lia|]. destruct (D <? lost a); [reflexivity|].
    destruct (Z.ltb_spec 38 (lost a)); [lia|]. rewrite try_from_magnitude by exact Hq.
    unfold MAX_SCALE. destruct (28 <? D - lost a); reflexivity.
  - rewrite try_from_magnitude, Z.div_1_r, Z.sub_0_r by lia. unfold MAX_SCALE.
    destruct (Z.ltb_spec D 0); [lia|]. destruct (28 <? D); reflexivity.
Qed.

Lemma ufixed_small a D : 0 <= a <= MAX_REPR -> 0 <= D <= 28 ->
  unsigned_fixed_to_decimal a D = FSome (mkDec false a D).
Proof.
  intros Ha HD. unfold unsigned_fixed_to_decimal. destruct (Z.ltb_spec MAX_REPR a); [lia|].
  rewrite try_from_magnitude by exact Ha. unfold MAX_SCALE. destruct (Z.ltb_spec 28 D); [lia | reflexivity].
Qed.

(* amounts: [decimals - 28] low digits are cut off first; beyond 19 of them nothing of a u64 is left *)
Lemma amount_cut a D : 0 <= a <= 2 ^ 64 -> 0 <= D ->
  let x := if 28 <? D then D - 28 else 0 in
  0 <= x <= D /\ D - x <= 28 /\ 0 <= a / 10 ^ x <= a /\ (47 < D -> a / 10 ^ x = 0).
Proof.
  intros Ha HD x.
  assert (Hx : 0 <= x <= D /\ D - x <= 28 /\ (47 < D -> 20 <= x)) by (subst x; destruct (Z.ltb_spec 28 D); lia).
  pose proof (pow10_pos x ltac:(lia)) as Hp.
  split; [lia|]. split; [lia|]. split; [split; [apply div_nonneg | apply div_le_self]; lia|].
  (* 10^20 > 2^64 *)
  intros H47. pose proof (Z.pow_le_mono_r 10 20 x). apply Z.div_small. lia.
Qed.

Lemma uamount_spec a D : 0 <= a <= 2 ^ 64 -> 0 <= D ->
  unsigned_amount_to_decimal a D =
    let x := if 28 <? D then D - 28 else 0 in
    FSome (mkDec false (a / 10 ^ x) (if 47 <? D then 0 else D - x)).
Proof.
  intros Ha HD. destruct (amount_cut a D Ha HD) as (Hx & _ & Hq & Hz). revert Hx Hq Hz.
  unfold unsigned_amount_to_decimal, MAX_SCALE. pose proof MAX_REPR_eq.
  destruct (Z.ltb_spec 28 D) as [H28|H28]; cbn zeta; intros Hx Hq Hz.
  - destruct (Z.ltb_spec 19 (D - 28)), (Z.ltb_spec 47 D); try lia.
    + rewrite Hz by lia. reflexivity.
    + rewrite ufixed_small by lia. replace (D - (D - 28)) with 28 by lia. reflexivity.
  - destruct (Z.ltb_spec 47 D); [lia|]. rewrite ufixed_small, Z.div_1_r, Z.sub_0_r by lia. reflexivity.
Qed.

Definition fixed_kind (k : Z) : Prop := k = 0 \/ k = 1 \/ k = 4 \/ k = 5.
Definition amount_kind (k : Z) : Prop := k = 2 \/ k = 3.

Lemma kind_range_cases k num : 0 <= k <= 5 -> kind_in_range k num = true ->
  ((k = 0 \/ k = 4) /\ 0 <= num < 2 ^ 128) \/ ((k = 1 \/ k = 5) /\ - 2 ^ 127 <= num < 2 ^ 127) \/
  (k = 2 /\ 0 <= num < 2 ^ 64) \/ (k = 3 /\ - 2 ^ 63 <= num < 2 ^ 63).
Proof.
  intros Hk Hr.
  assert (Hcases : k = 0 \/ k = 1 \/ k = 2 \/ k = 3 \/ k = 4 \/ k = 5) by lia.
  destruct Hcases as [-> | [-> | [-> | [-> | [-> | ->]]]]]; cbn [kind_in_range Z.eqb Pos.eqb orb] in Hr;
    (apply in_u_iff in Hr || apply in_s_iff in Hr); lia.
Qed.

Lemma kind_abs_range k num : 0 <= k <= 5 -> kind_in_range k num = true ->
  0 <= Z.abs num < 2 ^ 128 /\ (amount_kind k -> Z.abs num <= 2 ^ 64).
Proof. intros Hk Hr. unfold amount_kind. pose proof (kind_range_cases k num Hk Hr). lia. Qed.

(* digits dropped by the forward conversion of kind k *)
Definition drop (k a D : Z) : Z :=
  if (k =? 2) || (k =? 3) then (if 28 <? D then D - 28 else 0)
  else (if MAX_REPR <? a then lost a else 0).

Lemma drop_fixed k a D : fixed_kind k -> drop k a D = excess a.
Proof. intros [->|[->|[->| ->]]]; reflexivity. Qed.

Lemma drop_amount k a D : amount_kind k -> drop k a D = if 28 <? D then D - 28 else 0.
Proof. intros [->| ->]; reflexivity. Qed.

Lemma drop_nonneg k a D : 0 <= a < 2 ^ 128 -> 0 <= drop k a D.
Proof.
  intros Ha. pose proof (excess_spec a Ha). unfold drop. fold (excess a).
  destruct ((k =? 2) || (k =? 3)); [destruct (Z.ltb_spec 28 D)|]; lia.
Qed.

Lemma kind_decimals_range k D : 0 <= D <= 255 -> 0 <= kind_decimals k D <= 255.
Proof. unfold kind_decimals, MARKET_DECIMALS. destruct ((k =? 4) || (k =? 5)); lia. Qed.

Lemma kind_decimals_own k D : 0 <= k <= 3 -> kind_decimals k D = D.
Proof. intros Hk. unfold kind_decimals. destruct (Z.eqb_spec k 4), (Z.eqb_spec k 5); (reflexivity || lia). Qed.

Lemma kind_decimals_market k D : k = 4 \/ k = 5 -> kind_decimals k D = 20.
Proof. intros [->| ->]; reflexivity. Qed.

Lemma kind_decimals_le28 k D : D <= 28 -> kind_decimals k D <= 28.
Proof. unfold kind_decimals, MARKET_DECIMALS. destruct ((k =? 4) || (k =? 5)); lia. Qed.

Definition sign_of (num v : Z) : Z := if num <? 0 then - v else v.

(* all six forward conversions apply the sign to one conversion of the magnitude *)
Definition core (k a D : Z) : fwd :=
  if (k =? 0) || (k =? 1) then unsigned_fixed_to_decimal a D
  else if (k =? 2) || (k =? 3) then unsigned_amount_to_decimal a D
  else expect (unsigned_fixed_to_decimal a MARKET_DECIMALS).

Lemma expect_fwd_neg b f : expect (fwd_neg b f) = fwd_neg b (expect f).
Proof. destruct f; reflexivity. Qed.

Lemma forward_core k num D : 0 <= k <= 5 -> kind_in_range k num = true ->
  forward k num D = fwd_neg (num <? 0) (core k (Z.abs num) D).
Proof.
  intros Hk Hr.
  assert (Hu : 0 <= num -> forall f, f num = fwd_neg (num <? 0) (f (Z.abs num))).
  { intros H f. destruct (Z.ltb_spec num 0); [lia|]. rewrite Z.abs_eq by lia. destruct (f num); reflexivity. }
  destruct (kind_range_cases k num Hk Hr) as [[[->| ->] H]|[[[->| ->] H]|[[-> H]|[-> H]]]];
    cbn [forward core Z.eqb Pos.eqb orb]; try reflexivity.
  - apply (Hu (proj1 H) (fun n => unsigned_fixed_to_decimal n D)).
  - apply (Hu (proj1 H) (fun n => expect (unsigned_fixed_to_decimal n MARKET_DECIMALS))).
  - apply expect_fwd_neg.
  - apply (Hu (proj1 H) (fun n => unsigned_amount_to_decimal n D)).
Qed.

Inductive core_out (k a D : Z) : fwd -> Prop :=
| CoNone : (k = 0 \/ k = 1) ->
    (a <= MAX_REPR /\ 28 < D) \/ (MAX_REPR < a /\ (D < lost a \/ 28 < D - lost a)) -> core_out k a D FNone
| CoSome m s : m = a / 10 ^ drop k a D -> 0 <= m < 2 ^ 96 -> 0 <= s <= 28 ->
    s <= kind_decimals k D -> (s = kind_decimals k D - drop k a D \/ (m = 0 /\ 47 < D /\ (k = 2 \/ k = 3))) ->
    core_out k a D (FSome (mkDec false m s)).

Lemma core_spec k a D : 0 <= k <= 5 -> 0 <= a < 2 ^ 128 -> (amount_kind k -> a <= 2 ^ 64) -> 0 <= D <= 255 ->
  core_out k a D (core k a D).
Proof.
  intros Hk Ha Ham HD. destruct (excess_spec a Ha) as [Hx Hq]. pose proof MAX_REPR_eq as HM.
  assert (Hc : (k = 0 \/ k = 1) \/ amount_kind k \/ (k = 4 \/ k = 5)) by (unfold amount_kind; lia).
  destruct Hc as [Hk01 | [Hk23 | Hk45]].
  - replace (core k a D) with (unsigned_fixed_to_decimal a D) by (destruct Hk01 as [->| ->]; reflexivity).
    rewrite ufixed_spec by lia.
    destruct ((D <? excess a) || (28 <? D - excess a)) eqn:E.
    + apply CoNone; [exact Hk01|]. apply orb_prop in E. rewrite !Z.ltb_lt in E.
      unfold excess in E. destruct (Z.ltb_spec MAX_REPR a); lia.
    + apply orb_false_elim in E. rewrite !Z.ltb_ge in E.
      apply CoSome; rewrite ?drop_fixed, ?kind_decimals_own by (unfold fixed_kind; lia); (reflexivity || lia).
  - replace (core k a D) with (unsigned_amount_to_decimal a D) by (destruct Hk23 as [->| ->]; reflexivity).
    specialize (Ham Hk23). clear Hx Hq. rewrite uamount_spec by lia.
    destruct (amount_cut a D ltac:(lia) ltac:(lia)) as (Hx & Hs & Hq & Hz). cbn zeta in *.
    rewrite <- (drop_amount k a D Hk23) in *. set (q := a / 10 ^ drop k a D) in *.
    unfold amount_kind in Hk23.
    destruct (Z.ltb_spec 47 D); apply CoSome; rewrite ?kind_decimals_own by lia; (reflexivity || lia).
  - replace (core k a D) with (expect (unsigned_fixed_to_decimal a 20)) by (destruct Hk45 as [->| ->]; reflexivity).
    rewrite ufixed_spec by lia.
    destruct (Z.ltb_spec 20 (excess a)), (Z.ltb_spec 28 (20 - excess a)); try lia. cbn [orb expect].
    apply CoSome; rewrite ?drop_fixed, ?kind_decimals_market by (unfold fixed_kind; lia); (reflexivity || lia).
Qed.

(* the integer that survives: the low [drop] digits of the magnitude are removed *)
Definition trunc (k num D : Z) : Z :=
  sign_of num (Z.abs num - Z.abs num mod 10 ^ drop k (Z.abs num) D).

Definition back_result (d : dec) (Dk T : Z) : res Z :=
  if (dm d =? 0) && (67 <=? Dk) then Err 1 else if in_s 128 T then Ok T else Err 1.

Inductive rt_out (k num D : Z) : fwd * option (res Z) -> Prop :=
| RtNone : (k = 0 \/ k = 1) ->
    (Z.abs num <= MAX_REPR /\ 28 < D) \/
    (MAX_REPR < Z.abs num /\ (D < lost (Z.abs num) \/ 28 < D - lost (Z.abs num))) ->
    rt_out k num D (FNone, None)
| RtSome d : valid d -> dsc d <= kind_decimals k D -> dneg d = (num <? 0) ->
    dm d = Z.abs num / 10 ^ drop k (Z.abs num) D ->
    (dsc d = kind_decimals k D - drop k (Z.abs num) D \/ (dm d = 0 /\ 47 < D /\ (k = 2 \/ k = 3))) ->
    mantissa d * 10 ^ kind_decimals k D = trunc k num D * 10 ^ dsc d ->
    rt_out k num D (FSome d, Some (back_result d (kind_decimals k D) (trunc k num D))).

Lemma sign_of_mul num v c : sign_of num v * c = sign_of num (v * c).
Proof. unfold sign_of. destruct (num <? 0); ring. Qed.

Lemma sign_of_abs num : sign_of num (Z.abs num) = num.
Proof. unfold sign_of. destruct (Z.ltb_spec num 0); lia. Qed.

Lemma trunc_sign k num D : 0 <= drop k (Z.abs num) D ->
  (0 <= num -> 0 <= trunc k num D <= num) /\ (num <= 0 -> num <= trunc k num D <= 0).
Proof.
  intros Hx. unfold trunc, sign_of.
  pose proof (Z.mod_pos_bound (Z.abs num) _ (pow10_pos _ Hx)).
  pose proof (Z.mod_le (Z.abs num) _ ltac:(lia) (pow10_pos _ Hx)).
  destruct (Z.ltb_spec num 0); lia.
Qed.

Lemma trunc_bounds_pre k num D : 0 <= drop k (Z.abs num) D -> Z.abs (trunc k num D) <= Z.abs num.
Proof. intros Hx. pose proof (trunc_sign k num D Hx). lia. Qed.

Lemma trunc_bounds k num D : 0 <= drop k (Z.abs num) D -> Z.abs (trunc k num D) <= Z.abs num.
Proof. exact (trunc_bounds_pre k num D). Qed.

Lemma trunc_eq_iff k num D :
  trunc k num D = num <-> Z.abs num mod 10 ^ drop k (Z.abs num) D = 0.
Proof. unfold trunc, sign_of. destruct (Z.ltb_spec num 0); lia. Qed.

(* the unsigned targets add a range check that an integer between 0 and the input passes *)
Lemma back_result_unsigned d Dk T w : 0 <= T < 2 ^ w ->
  (v <-- back_result d Dk T ;; of_opt 3 (chk_u w v)) = back_result d Dk T.
Proof.
  intros HT. unfold back_result. destruct ((dm d =? 0) && (67 <=? Dk)); [reflexivity|].
  destruct (in_s 128 T); [|reflexivity]. cbn [rbind].
  rewrite (proj2 (chk_u_some w T T)) by (split; [exact HT | reflexivity]). reflexivity.
Qed.

Lemma backward_of_mantissa k num d Dk T : 0 <= k <= 5 -> kind_in_range k num = true ->
  (0 <= num -> 0 <= T <= num) ->
  rescale_to_mantissa d Dk = back_result d Dk T -> backward k d Dk = back_result d Dk T.
Proof.
  intros Hk Hr HT Hrm.
  destruct (kind_range_cases k num Hk Hr) as [[[->| ->] H]|[[[->| ->] H]|[[-> H]|[-> H]]]];
    cbn [backward Z.eqb Pos.eqb orb]; unfold decimal_to_value, decimal_to_amount, decimal_to_signed_value;
    rewrite Hrm; try reflexivity; apply back_result_unsigned; lia.
Qed.

Theorem roundtrip_spec k num D : 0 <= k <= 5 -> kind_in_range k num = true -> 0 <= D <= 255 ->
  rt_out k num D (roundtrip k num D).
Proof.
  intros Hk Hr HD. unfold roundtrip. rewrite forward_core by assumption.
  destruct (kind_abs_range k num Hk Hr) as [Ha Ham].
  pose proof (kind_decimals_range k D HD) as HDk.
  pose proof (drop_nonneg k _ D Ha) as Hx. pose proof (pow10_pos _ Hx) as Hp.
  destruct (core_spec k (Z.abs num) D Hk Ha Ham HD) as [H1 H2 | m s Hm Hm96 Hs HsD Hms]; cbn [fwd_neg].
  { apply RtNone; assumption. }
  set (d := mkDec (num <? 0) m s).
  replace (if num <? 0 then dec_neg _ else _) with d by (unfold d; destruct (num <? 0); reflexivity).
  assert (Hval : valid d) by (split; cbn; lia).
  (* the image of the Decimal at the kind's decimals is the truncated integer *)
  assert (HT : mantissa d * 10 ^ (kind_decimals k D - s) = trunc k num D).
  { change (mantissa d) with (sign_of num m). rewrite sign_of_mul. unfold trunc. f_equal.
    destruct Hms as [-> | [Hz _]].
    - replace (kind_decimals k D - (kind_decimals k D - drop k (Z.abs num) D)) with (drop k (Z.abs num) D) by lia.
      lia.
    - lia. }
  assert (Hback : backward k d (kind_decimals k D) = back_result d (kind_decimals k D) (trunc k num D)).
  { apply (backward_of_mantissa k num); try assumption; [apply trunc_sign; exact Hx|].
    rewrite rescale_to_mantissa_spec by assumption. unfold back_result, target. change (dsc d) with s.
    destruct (Z.leb_spec s (kind_decimals k D)); [|lia]. rewrite HT. reflexivity. }
  rewrite Hback. apply RtSome; try (assumption || reflexivity).
  rewrite <- HT. change (dsc d) with s. rewrite <- Z.mul_assoc, <- Z.pow_add_r by lia. do 2 f_equal. lia.
Qed.

Lemma forward_some k num D d : 0 <= k <= 5 -> kind_in_range k num = true -> 0 <= D <= 255 ->
  forward k num D = FSome d ->
  rt_out k num D (FSome d, Some (backward k d (kind_decimals k D))).
Proof.
  intros Hk Hr HD E. pose proof (roundtrip_spec k num D Hk Hr HD) as H.
  unfold roundtrip in H. rewrite E in H. exact H.
Qed.

Lemma drop_zero k a D : a <= MAX_REPR -> (amount_kind k -> D <= 28) -> drop k a D = 0.
Proof.
  intros Ha HD. unfold drop, amount_kind in *. destruct (Z.ltb_spec MAX_REPR a); [lia|].
  destruct (Z.eqb_spec k 2), (Z.eqb_spec k 3); cbn [orb]; try reflexivity;
    (destruct (Z.ltb_spec 28 D); [lia | reflexivity]).
Qed.

Theorem roundtrip_supported k num D : 0 <= k <= 5 -> kind_in_range k num = true ->
  0 <= D <= 255 -> (k <= 3 -> D <= 28) -> Z.abs num <= MAX_REPR ->
  roundtrip k num D = (FSome (mkDec (num <? 0) (Z.abs num) (kind_decimals k D)), Some (Ok num)).
Proof.
  intros Hk Hr HD HD28 Ha.
  assert (HDk : kind_decimals k D <= 28).
  { destruct (Z_le_gt_dec k 3); [rewrite kind_decimals_own; lia | rewrite kind_decimals_market; lia]. }
  assert (Hdrop : drop k (Z.abs num) D = 0) by (apply drop_zero; unfold amount_kind; lia).
  destruct (roundtrip_spec k num D Hk Hr HD) as [H1 H2 | d Hv Hs Hn Hm Hsc Hex]; [lia|].
  rewrite Hdrop in Hm, Hsc. rewrite Z.div_1_r in Hm.
  assert (Hd : d = mkDec (num <? 0) (Z.abs num) (kind_decimals k D)).
  { destruct d as [n m s]. cbn [dneg dm dsc] in *. f_equal; (assumption || lia). }
  assert (HT : trunc k num D = num) by (apply trunc_eq_iff; rewrite Hdrop; apply Z.mod_1_r).
  rewrite HT, Hd. unfold back_result. cbn [dm].
  destruct (Z.leb_spec 67 (kind_decimals k D)); [lia|]. rewrite andb_false_r.
  pose proof MAX_REPR_eq. rewrite (proj2 (in_s_iff 128 num)) by (change (128 - 1) with 127; lia).
  reflexivity.
Qed.

Theorem forward_never_panics k num D : 0 <= k <= 5 -> kind_in_range k num = true -> 0 <= D <= 255 ->
  forward k num D <> FPanic.
Proof.
  intros Hk Hr HD E.
  pose proof (roundtrip_spec k num D Hk Hr HD) as H. unfold roundtrip in H. rewrite E in H. inversion H.
Qed.

Theorem forward_exact_iff k num D d : 0 <= k <= 5 -> kind_in_range k num = true -> 0 <= D <= 255 ->
  forward k num D = FSome d ->
  valid d /\
  (mantissa d * 10 ^ kind_decimals k D = num * 10 ^ dsc d <->
   Z.abs num mod 10 ^ drop k (Z.abs num) D = 0).
Proof.
  intros Hk Hr HD E.
  pose proof (forward_some k num D d Hk Hr HD E) as H. inversion H as [ | d' Hv Hs Hn Hm Hsc Hex]. subst d'.
  split; [exact Hv|]. rewrite <- trunc_eq_iff, Hex.
  pose proof (pow10_pos (dsc d) ltac:(destruct Hv; lia)). apply Z.mul_cancel_r. lia.
Qed.

Theorem backward_result k num D d : 0 <= k <= 5 -> kind_in_range k num = true -> 0 <= D <= 255 ->
  forward k num D = FSome d ->
  backward k d (kind_decimals k D) = back_result d (kind_decimals k D) (trunc k num D).
Proof. intros Hk Hr HD E. pose proof (forward_some k num D d Hk Hr HD E) as H. inversion H. reflexivity. Qed.

Theorem backward_ok_original k num D d v : 0 <= k <= 5 -> kind_in_range k num = true -> 0 <= D <= 255 ->
  forward k num D = FSome d ->
  Z.abs num mod 10 ^ drop k (Z.abs num) D = 0 ->
  backward k d (kind_decimals k D) = Ok v -> v = num.
Proof.
  intros Hk Hr HD E Hz Hb.
  rewrite (backward_result k num D d), (proj2 (trunc_eq_iff k num D) Hz) in Hb by assumption.
  unfold back_result in Hb.
  destruct ((dm d =? 0) && (67 <=? kind_decimals k D)); [discriminate|].
  destruct (in_s 128 num); [congruence | discriminate].
Qed.

Theorem backward_err k num D d e : 0 <= k <= 5 -> kind_in_range k num = true -> 0 <= D <= 255 ->
  forward k num D = FSome d ->
  backward k d (kind_decimals k D) = Err e ->
  e = 1 /\ ((dm d = 0 /\ 67 <= D /\ (k = 2 \/ k = 3)) \/ ((k = 0 \/ k = 4) /\ 2 ^ 127 <= num)).
Proof.
  intros Hk Hr HD E Hb. destruct (kind_abs_range k num Hk Hr) as [Ha _].
  rewrite (backward_result k num D d) in Hb by assumption. unfold back_result in Hb.
  destruct ((dm d =? 0) && (67 <=? kind_decimals k D)) eqn:Ez.
  - inversion Hb. split; [reflexivity|]. left.
    apply andb_prop in Ez. destruct Ez as [Hz H67]. apply Z.eqb_eq in Hz. apply Z.leb_le in H67.
    assert (Hc : (k = 0 \/ k = 1) \/ (k = 2 \/ k = 3) \/ (k = 4 \/ k = 5)) by lia.
    destruct Hc as [Hk01 | [Hk23 | Hk45]].
    + (* a fixed kind drops at most 11 digits, and its Decimal has a scale of at most 28 *)
      exfalso. pose proof (forward_some k num D d Hk Hr HD E) as H.
      inversion H as [ | d' [_ Hs28] _ _ _ Hsc _]. subst d'.
      rewrite drop_fixed, kind_decimals_own in * by (unfold fixed_kind; lia).
      pose proof (excess_spec _ Ha). lia.
    + rewrite kind_decimals_own in H67 by lia. auto.
    + rewrite kind_decimals_market in H67 by exact Hk45. lia.
  - destruct (in_s 128 (trunc k num D)) eqn:Ein; [discriminate|]. inversion Hb. split; [reflexivity|]. right.
    (* the truncated integer lies between 0 and the input, so the input itself is outside i128 *)
    assert (Hout : ~ - 2 ^ 127 <= trunc k num D < 2 ^ 127).
    { intros Hin. apply (in_s_iff 128) in Hin. congruence. }
    pose proof (trunc_sign k num D (drop_nonneg k _ D Ha)).
    pose proof (kind_range_cases k num Hk Hr). lia.
Qed.

(* class 1: magnitude above 96 bits with non-zero low digits *)
Definition class_truncated (k num D : Z) : Prop :=
  fixed_kind k /\ MAX_REPR < Z.abs num /\ Z.abs num mod 10 ^ lost (Z.abs num) <> 0.
(* class 2: amount with more than 28 decimals whose low digits are non-zero *)
Definition class_scaled (k num D : Z) : Prop :=
  amount_kind k /\ 28 < D /\ Z.abs num mod 10 ^ (D - 28) <> 0.

Lemma dropped_digits_zero_iff k num D : 0 <= k <= 5 ->
  Z.abs num mod 10 ^ drop k (Z.abs num) D = 0 <-> ~ class_truncated k num D /\ ~ class_scaled k num D.
Proof.
  intros Hk. unfold class_truncated, class_scaled.
  assert (Hc : (fixed_kind k /\ ~ amount_kind k) \/ (amount_kind k /\ ~ fixed_kind k))
    by (unfold fixed_kind, amount_kind; lia).
  destruct Hc as [[Hf Hna] | [Ham Hnf]].
  - rewrite drop_fixed by exact Hf. unfold excess.
    destruct (Z.ltb_spec MAX_REPR (Z.abs num));
      [destruct (Z.eq_dec (Z.abs num mod 10 ^ lost (Z.abs num)) 0) | rewrite Z.mod_1_r]; intuition lia.
  - rewrite drop_amount by exact Ham.
    destruct (Z.ltb_spec 28 D);
      [destruct (Z.eq_dec (Z.abs num mod 10 ^ (D - 28)) 0) | rewrite Z.mod_1_r]; intuition lia.
Qed.

Theorem no_silent_loss_outside_classes k num D d :
  0 <= k <= 5 -> kind_in_range k num = true -> 0 <= D <= 255 ->
  ~ class_truncated k num D -> ~ class_scaled k num D ->
  forward k num D = FSome d ->
  valid d /\ mantissa d * 10 ^ kind_decimals k D = num * 10 ^ dsc d /\
  (forall v, backward k d (kind_decimals k D) = Ok v -> v = num).
Proof.
  intros Hk Hr HD H1 H2 E.
  pose proof (proj2 (dropped_digits_zero_iff k num D Hk) (conj H1 H2)) as Hz.
  destruct (forward_exact_iff k num D d Hk Hr HD E) as [Hv Hex].
  split; [exact Hv|]. split; [apply Hex; exact Hz|].
  intros v Hb. exact (backward_ok_original k num D d v Hk Hr HD E Hz Hb).
Qed.

Theorem silent_loss_inside_classes k num D d :
  0 <= k <= 5 -> kind_in_range k num = true -> 0 <= D <= 255 ->
  class_truncated k num D \/ class_scaled k num D ->
  forward k num D = FSome d ->
  mantissa d * 10 ^ kind_decimals k D <> num * 10 ^ dsc d.
Proof.
  intros Hk Hr HD Hc E Heq.
  apply (forward_exact_iff k num D d Hk Hr HD E), dropped_digits_zero_iff in Heq; tauto.
Qed.
