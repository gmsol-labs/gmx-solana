(* C08 — Market token accounting is conserved and funding payouts stay backed (position operations).
   Statements only.  macc m t = liquidity + swap impact + claimable fees + collateral sums of token t.

   PARTIAL with respect to the property text:
   * proved: the exact ledger identity of every position operation (increase, decrease, liquidation order; fee-state
     updates do not touch the ledger pools), with the funding fees collected as the only residual term, and the
     per-round backing of claimable funding (pure arithmetic about the packing / unpacking of the funding indices);
   * not proved: the accumulation of the per-round backing over whole histories (the accrual invariant
     A*cash_residual + accrued_payable - accrued_claimable >= 0 is checked by the oracle on every generated history);
     deposits / withdrawals / swaps belong to the liquidity checks (C04-C06);
   * two known findings (witnesses below): the CASH residual can be negative (class 1), and a cost remainder that
     converts to zero secondary-output tokens is treated as paid (class 2). *)
From GV Require Import lib.Base C01.Model PS.Model PS.Actions PS.Hist C07.Props C08.Model C08.Proofs C08.Waterfall C08.Ledger C08.Funding C08.Corr.
Open Scope Z_scope.

(* 1. increase: the collateral token's accounted holdings grow by the deposit minus the funding fee collected
      (which stays in the vault as funding residual); the other token is untouched *)
Theorem c08_ledger_increase : forall w, 1 <= w -> forall unit p m pr ci sd acc p1 m' rep,
  increase w unit p m pr ci sd acc = Ok (p1, m', rep) ->
  forall t, macc m' t = macc m t + on (coll_long p) t (ci - f_fund (ir_fees rep)).
Proof. intros w Hw unit. exact (ledger_increase w Hw unit). Qed.

(* 2. decrease (plain / ADL flags): holdings change exactly by the tokens handed out (output, secondary output,
      claimable collateral for the holding account and for the user) and by K - D, where
      K = funding fees collected in the collateral token (0 <= K <= charged; K = charged up to a remainder worth less
          than one base unit of the pnl token when nothing was paid in the secondary token and the close did not
          stop at the funding step),
      D = fees credited to the pools although not paid: D = 0 when pnl token = collateral token, and in general
          D is worth less than one base unit of the pnl token (known class 2).
      The hypothesis on the funding adjustment is not used. *)
Theorem c08_ledger_decrease_partial : forall w, 1 <= w -> forall unit p m pr sd0 acc cw fl p1 m' rep,
  0 <= size_usd p -> 0 <= coll p -> 0 <= c_funding_adj (m_cfg m) ->
  0 < pmin (out_price pr p) -> 0 < pmin (pnl_price pr p) -> 0 < pmax (pnl_price pr p) ->
  decrease w unit p m pr sd0 acc cw fl = Ok (p1, m', rep) ->
  exists K D,
    (forall t, macc m' t = macc m t - dec_out p rep t - on (coll_long p) t (K - D)) /\
    0 <= K <= f_fund (dr_fees rep) /\ 0 <= D /\ D * pmin (out_price pr p) < pmin (pnl_price pr p) /\
    (same_tokens p = true -> D = 0) /\
    (dr_insolvent_step rep <> Some S_FUNDING -> dr_hold_sec rep = 0 ->
       (f_fund (dr_fees rep) - K) * pmin (out_price pr p) < pmin (pnl_price pr p)).
Proof. intros w Hw unit p m pr sd0 acc cw fl p1 m' rep HS HC _. exact (ledger_decrease w Hw unit _ _ _ _ _ _ _ _ _ _ HS HC). Qed.

(* 2''. the same identity for a liquidation order (a decrease with the liquidation flags) *)
Theorem c08_ledger_liquidation_partial : forall w, 1 <= w -> forall unit p m pr sd acc cw p1 m' rep,
  0 <= size_usd p -> 0 <= coll p -> 0 <= c_funding_adj (m_cfg m) ->
  0 < pmin (out_price pr p) -> 0 < pmin (pnl_price pr p) -> 0 < pmax (pnl_price pr p) ->
  liquidate w unit p m pr sd acc cw = Ok (p1, m', rep) ->
  exists K D,
    (forall t, macc m' t = macc m t - dec_out p rep t - on (coll_long p) t (K - D)) /\
    0 <= K <= f_fund (dr_fees rep) /\ 0 <= D /\ D * pmin (out_price pr p) < pmin (pnl_price pr p) /\
    (same_tokens p = true -> D = 0) /\
    (dr_insolvent_step rep <> Some S_FUNDING -> dr_hold_sec rep = 0 ->
       (f_fund (dr_fees rep) - K) * pmin (out_price pr p) < pmin (pnl_price pr p)).
Proof. intros w Hw unit p m pr sd acc cw p1 m' rep HS HC _. exact (ledger_liquidate w Hw unit _ _ _ _ _ _ _ _ _ HS HC). Qed.

(* 2'. exact identity outside class 2: same token for pnl and collateral, funding fully collected *)
Theorem c08_ledger_decrease_same_token : forall w, 1 <= w -> forall unit p m pr sd0 acc cw fl p1 m' rep,
  0 <= size_usd p -> 0 <= coll p -> 0 <= c_funding_adj (m_cfg m) ->
  0 < pmin (out_price pr p) -> 0 < pmax (pnl_price pr p) -> same_tokens p = true ->
  decrease w unit p m pr sd0 acc cw fl = Ok (p1, m', rep) ->
  dr_insolvent_step rep <> Some S_FUNDING -> dr_hold_sec rep = 0 ->
  forall t, macc m' t = macc m t - dec_out p rep t - on (coll_long p) t (f_fund (dr_fees rep)).
Proof.
  intros w Hw unit p m pr sd0 acc cw fl p1 m' rep HS HC Ha Hcp Hppx Hs H Hstep Hh t.
  assert (Hpp : pmin (pnl_price pr p) = pmin (out_price pr p)) by (apply same_tokens_prices; exact Hs).
  assert (Hpp' : 0 < pmin (pnl_price pr p)) by (rewrite Hpp; exact Hcp).
  destruct (ledger_decrease w Hw unit _ _ _ _ _ _ _ _ _ _ HS HC Hcp Hpp' Hppx H) as (K & D & L & BK & BD & _ & Z0 & Full).
  specialize (Full Hstep Hh). rewrite Hpp in Full. rewrite (Z0 Hs) in L.
  assert (K = f_fund (dr_fees rep)) by nia. rewrite L. subst K. replace (f_fund (dr_fees rep) - 0) with (f_fund (dr_fees rep)) by lia. reflexivity.
Qed.

(* 3. the waterfall itself: CollateralProcessor::process conserves tokens (pools + buckets) up to K and D *)
Theorem c08_process_costs_conserves : forall w, 1 <= w -> forall pr p,
  0 < pmin (out_price pr p) -> 0 < pmin (pnl_price pr p) -> 0 < pmax (pnl_price pr p) ->
  forall m fs pnl piv diff ins st stp,
  0 <= coll p -> 0 <= f_fund fs -> 0 <= diff ->
  process_costs w pr p m fs pnl piv diff ins = Ok (st, stp) ->
  exists K D,
    delta p (MkPState m 0 0 (coll p) 0 0 0 0 fs) st (K - D) /\ nn st /\ f_fund (st_fees st) = f_fund fs /\
    0 <= K <= f_fund fs /\ 0 <= D /\ D * pmin (out_price pr p) < pmin (pnl_price pr p) /\ (same_tokens p = true -> D = 0) /\
    (stp <> Some S_FUNDING -> st_hold_sec st = 0 -> (f_fund fs - K) * pmin (out_price pr p) < pmin (pnl_price pr p)).
Proof.
  intros w Hw pr p H1 H2 H3 m fs pnl piv diff ins st stp Hc Hf Hd H.
  destruct (process_costs_ledger w Hw pr p H1 H2 H3 _ _ _ _ _ _ _ _ Hc Hf Hd H) as (K & D & Dl & N & F & B).
  exists K, D. exact (conj Dl (conj N (conj (fees_kept_fund _ _ F) B))).
Qed.

(* 4. a funding round is backed, per collateral token: what the receivers can claim for the round (index packed
      rounding down, amounts unpacked rounding down) never exceeds what the payers are charged for it (index packed
      rounding up, amounts unpacked rounding up).  payers / receivers = position sizes; by C07 their sums are the
      open-interest pool amounts the real update divides by. *)
Theorem c08_funding_round_backed_partial : forall w, 1 <= w -> forall unit, 0 < unit ->
  forall adj fv price dpay drec (payers receivers : list Z),
  0 <= fv -> 0 < adj -> 0 < price -> 0 <= zsum payers -> 0 <= zsum receivers ->
  (zsum payers = 0 -> fv = 0) ->
  pack_funding w unit adj fv (zsum payers) price true = Some dpay ->
  pack_funding w unit adj fv (zsum receivers) price false = Some drec ->
  claimable (adj * unit) drec receivers <= charged (adj * unit) dpay payers.
Proof. intros w Hw unit Hu. exact (funding_round_backed w Hw unit Hu). Qed.

(* 4'. settling a position: the payer is charged at least, the receiver credited at most, the exact accrued share *)
Theorem c08_unpack_rounding : forall w, 1 <= w -> forall unit, 0 < unit -> forall adj latest pv size ru r,
  0 <= size -> 0 < adj ->
  unpack_funding w unit adj latest pv size ru = Some r ->
  0 <= latest - pv /\ r = if ru then cdivZ (size * (latest - pv)) (adj * unit) else size * (latest - pv) / (adj * unit).
Proof.
  intros w Hw unit Hu adj latest pv size ru r Hs _ H.
  destruct (unpack_funding_val w Hw unit _ _ _ _ _ _ Hs H) as (Hd & _ & E). exact (conj Hd E).
Qed.

(* ---- known finding, class 2 (UnpaidCostTreatedAsPaid): witness on the model = the scripted replay executed on
        the real code (ps --mode c08, case 0): long position, collateral in the short token (price 1), pnl token
        worth 901500000 per unit; the loss eats the collateral, the remaining 101500000 + the order fee 500000000
        convert to 0 pnl tokens and count as paid: the pools are credited 500000000 tokens that nobody paid *)
Definition w2_s0 : mstate := let z := MkPool 0 0 in MkMState (MkPool 1000000 100000000000000) z z z z z z z z z z z z z z z None None.
Definition w2_ps0 := [MkPos true false 0 0 0 0 0 0 0; MkPos false false 0 0 0 0 0 0 0].
Definition w2_pr (x : Z) := MkPrices (MkPrice x x) (MkPrice x x) (MkPrice 1 1).
Definition w2_world := step 64 (10 ^ 9) ex_cfg (w2_s0, w2_ps0) (OpInc 0 (w2_pr 1000000000) 100000000000 1000000000000 None).
Definition w2_p := get_pos (snd w2_world) 0.
Definition w2_m := mk_market ex_cfg (fst w2_world).
Definition w2_out := Eval vm_compute in
  (decrease 64 (10 ^ 9) w2_p w2_m (w2_pr 901500000) 1000000000000 None 0 (MkFlags false false false)).

Theorem c08_unpaid_cost_treated_as_paid_refuted :
  decrease 64 (10 ^ 9) w2_p w2_m (w2_pr 901500000) 1000000000000 None 0 (MkFlags false false false) = w2_out /\
  match w2_out with
  | Ok (_, m', rep) =>
      same_tokens w2_p = false /\ f_fund (dr_fees rep) = 0 /\ dr_insolvent_step rep = None /\
      macc m' false = macc w2_m false - dec_out w2_p rep false + 500000000
  | Err _ => False
  end.
Proof. split; [vm_compute; reflexivity|]. vm_compute. repeat split; reflexivity. Qed.

(* ---- known finding, class 1 (ClaimBeforeCollection): witness = a history executed on the real code
        (ps --mode c08, case 1): long and short opened, one hour of funding, the short (receiver) closes first and
        is paid 2926829 long tokens of claimable funding before any funding fee was collected *)
Definition wit_claim_first : case :=
  H8 (Hist 64 9 (MkConfig (MkPosParams 1000000000 1000000000 10000000 None 5000000 5000000 2500000) (MkImpactParams 2000000000 1 2) (MkFeeParams 500000
    700000 370000000 None) 370000000 2000000 370000000 1000000000 1000000000 500000000 500000000 0 18446744073709551615 0 10000) (MkMState (MkPool
    1000000000000 100000000000000) (MkPool 0 0) (MkPool 0 0) (MkPool 0 0) (MkPool 0 0) (MkPool 0 0) (MkPool 0 0) (MkPool 0 0) (MkPool 0 0) (MkPool 0
    0) (MkPool 0 0) (MkPool 0 0) (MkPool 0 0) (MkPool 0 0) (MkPool 0 0) (MkPool 0 0) None None) [(MkPos true true 0 0 0 0 0 0 0); (MkPos false false 0
    0 0 0 0 0 0)] [(OpFees (MkMState (MkPool 1000000000000 100000000000000) (MkPool 0 0) (MkPool 0 0) (MkPool 0 0) (MkPool 0 0) (MkPool 0 0) (MkPool 0
    0) (MkPool 0 0) (MkPool 0 0) (MkPool 0 0) (MkPool 0 0) (MkPool 0 0) (MkPool 0 0) (MkPool 0 0) (MkPool 0 0) (MkPool 0 0) None None), OutFees, MkAux
    false (Ok None) (Ok None)); (OpInc 0 (MkPrices (MkPrice 123 123) (MkPrice 123 123) (MkPrice 1 1)) 20000000000 10000000000000 None, OutInc (Ok
    ((MkPos true true 19943089431 10000000000000 81299186991 0 0 0 0), (MkMState (MkPool 1000035853659 100000000000000) (MkPool 0 0) (MkPool 21056910
    0) (MkPool 10000000000000 0) (MkPool 0 0) (MkPool 81299186991 0) (MkPool 0 0) (MkPool 1626017 0) (MkPool 0 0) (MkPool 0 0) (MkPool 0 0) (MkPool 0
    0) (MkPool 0 0) (MkPool 0 0) (MkPool 19943089431 0) (MkPool 0 0) None None), (MkIncReport (-200000000) (-1626017) 81299186991 123 19943089431
    (MkFees 7000000000 35853659 21056910 7000000000 0 0 0 0 0 None) 0 0))), MkAux false (Err 1) (Ok None)); (OpInc 1 (MkPrices (MkPrice 123 123)
    (MkPrice 123 123) (MkPrice 1 1)) 2000000000000 5000000000000 None, OutInc (Ok ((MkPos false false 1997500000000 5000000000000 40649796749 0 0 0
    0), (MkMState (MkPool 1000035853659 100001575000000) (MkPool 0 0) (MkPool 21056910 925000000) (MkPool 10000000000000 0) (MkPool 0 5000000000000)
    (MkPool 81299186991 0) (MkPool 0 40649796749) (MkPool 1016261 0) (MkPool 0 0) (MkPool 0 0) (MkPool 0 0) (MkPool 0 0) (MkPool 0 0) (MkPool 0 0)
    (MkPool 19943089431 0) (MkPool 0 1997500000000) None None), (MkIncReport 75000000 609756 40649796749 123 1997500000000 (MkFees 2500000000
    1575000000 925000000 2500000000 0 0 0 0 0 None) 0 0))), MkAux false (Err 1) (Ok None)); (OpFees (MkMState (MkPool 1000035853659 100001575000000)
    (MkPool 0 0) (MkPool 21056910 925000000) (MkPool 10000000000000 0) (MkPool 0 5000000000000) (MkPool 81299186991 0) (MkPool 0 40649796749) (MkPool
    1016261 0) (MkPool 3600 0) (MkPool 0 0) (MkPool 2926830 0) (MkPool 0 0) (MkPool 0 0) (MkPool 5853658 0) (MkPool 19943089431 0) (MkPool 0
    1997500000000) None None), OutFees, MkAux false (Ok None) (Ok None)); (OpDec 1 (MkPrices (MkPrice 123 123) (MkPrice 123 123) (MkPrice 1 1))
    5000000000000 None 0 (MkFlags false false false), OutDec (Ok ((MkPos false false 0 0 0 0 0 5853658 0), (MkMState (MkPool 1000035853659
    100003855000127) (MkPool 0 0) (MkPool 21056910 2220000000) (MkPool 10000000000000 0) (MkPool 0 0) (MkPool 81299186991 0) (MkPool 0 0) (MkPool
    2235773 0) (MkPool 3600 0) (MkPool 0 0) (MkPool 2926830 0) (MkPool 0 0) (MkPool 0 0) (MkPool 5853658 0) (MkPool 19943089431 0) (MkPool 0 0) None
    None), (MkDecReport (-150000000) 0 123 40649796749 0 5000000000000 (MkFees 3500000000 2205000000 1295000000 3500000000 0 0 0 2926829 0 None)
    74999873 74999873 None true 1993924999873 0 2926829 0 0 0 0 0))), MkAux false (Ok None) (Ok None))]).

Theorem c08_claim_before_collection_refuted :
  corr_b wit_claim_first = true /\ oracle_b wit_claim_first = false /\ known_b wit_claim_first = 1.
Proof. vm_compute. repeat split; reflexivity. Qed.

(* non-vacuity *)
Example c08_ex_pack : pack_funding 64 (10 ^ 9) 10000 1800000000 10000000000000 123 true = Some 14634147
                      /\ is_some (pack_funding 64 (10 ^ 9) 10000 1800000000 5000000000000 123 false) = true.
Proof. vm_compute. split; reflexivity. Qed.
