(* C02 — lemmas about the fee model. *)
From GV Require Import lib.Base lib.DivLemmas C01.Model C01.Proofs C02.Model.
Open Scope Z_scope.

Lemma of_opt_err {A} e (o : option A) e' : of_opt e o = Err e' <-> (o = None /\ e' = e).
Proof. apply Checked.of_opt_err. Qed.

(* all parameters are unsigned machine integers *)
Definition wf_params (p : fparams) : Prop :=
  0 <= fp_pos p /\ 0 <= fp_neg p /\ 0 <= fp_recv p /\ 0 <= match fp_disc p with Some d => d | None => 0 end.

Section P.
  Variable w : Z.
  Hypothesis Hw : 1 <= w.
  Variable unit : Z.
  Hypothesis Hunit : 0 < unit.

  Lemma factor_of_nonneg p bc : wf_params p -> 0 <= factor_of p bc.
  Proof. intros (A & B & _). destruct bc; simpl; lia. Qed.
  Lemma disc_of_nonneg p : wf_params p -> 0 <= disc_of p.
  Proof. intros (_ & _ & _ & D). exact D. Qed.

  (* exact integer quantities *)
  Definition Fg (p : fparams) bc a := a * factor_of p bc / unit.           (* undiscounted fee *)
  Definition Dg (p : fparams) bc a := Fg p bc a * disc_of p / unit.        (* discount *)
  Definition Ng (p : fparams) bc a := Fg p bc a - Dg p bc a.               (* fee after discount *)
  Definition Rg (p : fparams) bc a := Ng p bc a * fp_recv p / unit.        (* receiver share *)

  Definition with_disc (p : fparams) (d : option Z) : fparams := MkFP (fp_pos p) (fp_neg p) (fp_recv p) d.
  Definition valid_params (p : fparams) : Prop :=
    fp_pos p <= unit /\ fp_neg p <= unit /\ fp_recv p <= unit /\ disc_of p <= unit.

  Lemma Fg_nonneg p bc a : wf_params p -> 0 <= a -> 0 <= Fg p bc a.
  Proof. intros Hp Ha. apply mul_div_nonneg; [exact Ha|apply factor_of_nonneg, Hp|exact Hunit]. Qed.
  Lemma Dg_nonneg p bc a : wf_params p -> 0 <= a -> 0 <= Dg p bc a.
  Proof. intros Hp Ha. apply mul_div_nonneg; [apply Fg_nonneg; assumption|apply disc_of_nonneg, Hp|exact Hunit]. Qed.
  Lemma Rg_nonneg p bc a : wf_params p -> Dg p bc a <= Fg p bc a -> 0 <= Rg p bc a.
  Proof. intros (_ & _ & Hr & _) H. apply mul_div_nonneg; [unfold Ng; lia|exact Hr|exact Hunit]. Qed.

  Theorem fee_some p bc a q : wf_params p -> 0 <= a ->
    fee w unit p bc a = Some q <-> (Fg p bc a < 2 ^ w /\ Dg p bc a <= Fg p bc a /\ q = Ng p bc a).
  Proof.
    intros Hp Ha. pose proof (factor_of_nonneg p bc Hp) as Hf. pose proof (disc_of_nonneg p Hp) as Hd.
    pose proof (Fg_nonneg p bc a Hp Ha) as HF. pose proof (Dg_nonneg p bc a Hp Ha) as HD.
    unfold fee. rewrite obind_some. split.
    - intros (f & H1 & H2). apply apply_factor_exact in H1; [|assumption..]. destruct H1 as [-> H1].
      fold (Fg p bc a) in *. apply obind_some in H2. destruct H2 as (d & H2 & H3).
      apply apply_factor_exact in H2; [|assumption..]. destruct H2 as [-> _]. fold (Dg p bc a) in *.
      apply usub_some in H3. unfold Ng. lia.
    - intros (H1 & H2 & ->). exists (Fg p bc a). rewrite apply_factor_exact, obind_some by assumption.
      split; [split; [reflexivity|exact H1]|]. exists (Dg p bc a).
      rewrite apply_factor_exact, usub_some by assumption. unfold Ng.
      split; [split; [reflexivity|lia]|lia].
  Qed.

  Theorem fee_none p bc a : wf_params p -> 0 <= a ->
    fee w unit p bc a = None <-> (2 ^ w <= Fg p bc a \/ Fg p bc a < Dg p bc a).
  Proof.
    intros Hp Ha. rewrite (none_iff _ _ (fun q => fee_some p bc a q Hp Ha)). split.
    - intros N. specialize (N (Ng p bc a)). lia.
    - intros H q. lia.
  Qed.

  Theorem fee_le_gross p bc a q : wf_params p -> 0 <= a ->
    fee w unit p bc a = Some q -> 0 <= q <= Fg p bc a /\ (factor_of p bc <= unit -> q <= a).
  Proof.
    intros Hp Ha H. apply fee_some in H; [|assumption..]. destruct H as (H1 & H2 & ->).
    pose proof (Dg_nonneg p bc a Hp Ha). unfold Ng. split; [lia|]. intros Hf.
    pose proof (factor_of_nonneg p bc Hp). pose proof (mul_div_le_self a (factor_of p bc) unit).
    unfold Fg in *. lia.
  Qed.

  Lemma wf_with_disc p d : wf_params p -> 0 <= d -> wf_params (with_disc p (Some d)).
  Proof. intros (A & B & C & _) Hd. repeat split; assumption. Qed.

  Theorem discount_monotone p bc a d1 d2 q1 q2 : wf_params p -> 0 <= a -> 0 <= d1 <= d2 ->
    fee w unit (with_disc p (Some d1)) bc a = Some q1 ->
    fee w unit (with_disc p (Some d2)) bc a = Some q2 -> q2 <= q1.
  Proof.
    intros Hp Ha Hd H1 H2.
    apply fee_some in H1; [|apply wf_with_disc; [exact Hp|lia]|exact Ha].
    apply fee_some in H2; [|apply wf_with_disc; [exact Hp|lia]|exact Ha].
    destruct H1 as (_ & _ & ->). destruct H2 as (_ & _ & ->).
    (* only the discount differs: Ng = F - F * d / unit for the common undiscounted fee F *)
    change (Fg p bc a - Fg p bc a * d2 / unit <= Fg p bc a - Fg p bc a * d1 / unit).
    pose proof (Fg_nonneg p bc a Hp Ha).
    assert (Fg p bc a * d1 / unit <= Fg p bc a * d2 / unit) by (apply div_mono_num; nia). lia.
  Qed.

  (* no discount is a discount of zero *)
  Theorem discount_never_raises p bc a d q0 q : wf_params p -> 0 <= a -> 0 <= d ->
    fee w unit (with_disc p None) bc a = Some q0 ->
    fee w unit (with_disc p (Some d)) bc a = Some q -> q <= q0.
  Proof.
    intros Hp Ha Hd H1 H2. change (fee w unit (with_disc p (Some 0)) bc a = Some q0) in H1.
    exact (discount_monotone p bc a 0 d q0 q Hp Ha ltac:(lia) H1 H2).
  Qed.

  Theorem apply_fees_some p bc a n pl r : wf_params p -> 0 <= a < 2 ^ w ->
    apply_fees w unit p bc a = Some (n, pl, r) <->
    (Fg p bc a < 2 ^ w /\ Dg p bc a <= Fg p bc a /\ Rg p bc a <= Ng p bc a /\ Ng p bc a <= a /\
     n = a - Ng p bc a /\ pl = Ng p bc a - Rg p bc a /\ r = Rg p bc a).
  Proof.
    intros Hp Ha. pose proof Hp as (_ & _ & Hr & _).
    pose proof (Dg_nonneg p bc a Hp ltac:(lia)) as HD.
    unfold apply_fees, receiver_fee. rewrite obind_some. split.
    - intros (fa & H1 & H2). apply fee_some in H1; [|assumption|lia]. destruct H1 as (H1 & H1' & ->).
      apply obind_some in H2. destruct H2 as (rc & H2 & H3).
      apply apply_factor_exact in H2; [|unfold Ng; lia..]. destruct H2 as [-> _]. fold (Rg p bc a) in *.
      apply obind_some in H3. destruct H3 as (pl' & H3 & H4). apply usub_some in H3. destruct H3 as [H3 ->].
      apply obind_some in H4. destruct H4 as (n' & H4 & H5). apply usub_some in H4. destruct H4 as [H4 ->].
      injection H5 as <- <- <-. lia.
    - intros (H1 & H2 & H3 & H4 & -> & -> & ->). pose proof (Rg_nonneg p bc a Hp H2).
      exists (Ng p bc a). split; [apply fee_some; auto; lia|].
      rewrite obind_some. exists (Rg p bc a). rewrite apply_factor_exact by (unfold Ng; lia).
      split; [split; [reflexivity|lia]|].
      rewrite obind_some. exists (Ng p bc a - Rg p bc a). rewrite usub_some. split; [lia|].
      rewrite obind_some. exists (a - Ng p bc a). rewrite usub_some. split; [lia|reflexivity].
  Qed.

  Theorem apply_fees_split p bc a n pl r : wf_params p -> 0 <= a < 2 ^ w ->
    apply_fees w unit p bc a = Some (n, pl, r) ->
    n + pl + r = a /\ 0 <= n /\ 0 <= pl /\ 0 <= r /\
    fee w unit p bc a = Some (pl + r) /\ pl + r <= a /\
    receiver_fee w unit p (pl + r) = Some r.
  Proof.
    intros Hp Ha H. apply apply_fees_some in H; [|assumption..].
    destruct H as (H1 & H2 & H3 & H4 & -> & -> & ->). pose proof Hp as (_ & _ & Hr & _).
    pose proof (Dg_nonneg p bc a Hp ltac:(lia)) as HD. pose proof (Rg_nonneg p bc a Hp H2).
    replace (Ng p bc a - Rg p bc a + Rg p bc a) with (Ng p bc a) by lia.
    repeat split; try lia.
    - apply fee_some; auto; lia.
    - apply apply_factor_exact; [unfold Ng; lia..|]. split; [reflexivity|lia].
  Qed.

  Theorem apply_fees_none p bc a : wf_params p -> 0 <= a < 2 ^ w ->
    apply_fees w unit p bc a = None <->
    (2 ^ w <= Fg p bc a \/ Fg p bc a < Dg p bc a \/ Ng p bc a < Rg p bc a \/ a < Ng p bc a).
  Proof.
    intros Hp Ha. destruct (apply_fees w unit p bc a) as [[[n pl] r]|] eqn:E.
    - apply apply_fees_some in E; [|assumption..]. split; [discriminate|lia].
    - split; [intros _|reflexivity].
      assert (~ (Fg p bc a < 2 ^ w /\ Dg p bc a <= Fg p bc a /\ Rg p bc a <= Ng p bc a /\ Ng p bc a <= a)) as N; [|lia].
      intros (A & B & C & D).
      assert (apply_fees w unit p bc a = Some (a - Ng p bc a, Ng p bc a - Rg p bc a, Rg p bc a))
        by (apply apply_fees_some; auto 10).
      congruence.
  Qed.

  Theorem apply_fees_valid_total p bc a : wf_params p -> valid_params p -> 0 <= a < 2 ^ w ->
    exists n pl r, apply_fees w unit p bc a = Some (n, pl, r).
  Proof.
    intros Hp (V1 & V2 & V3 & V4) Ha. pose proof Hp as (W1 & W2 & W3 & W4).
    pose proof (Fg_nonneg p bc a Hp ltac:(lia)) as HF. pose proof (Dg_nonneg p bc a Hp ltac:(lia)) as HD.
    assert (Fg p bc a <= a) by (apply mul_div_le_self; [lia|destruct bc; simpl; lia|exact Hunit]).
    assert (Dg p bc a <= Fg p bc a) by (apply mul_div_le_self; [lia|unfold disc_of in *; lia|exact Hunit]).
    assert (Rg p bc a <= Ng p bc a) by (apply mul_div_le_self; [unfold Ng; lia|lia|exact Hunit]).
    exists (a - Ng p bc a), (Ng p bc a - Rg p bc a), (Rg p bc a).
    apply apply_fees_some; auto. unfold Ng in *. repeat split; lia.
  Qed.

  Theorem invalid_factor_fails p bc a : wf_params p -> 0 <= a < 2 ^ w ->
    a < Ng p bc a -> apply_fees w unit p bc a = None.
  Proof. intros Hp Ha H. apply apply_fees_none; auto. Qed.
  Theorem invalid_discount_fails p bc a : wf_params p -> 0 <= a < 2 ^ w ->
    Fg p bc a < Dg p bc a -> apply_fees w unit p bc a = None.
  Proof. intros Hp Ha H. apply apply_fees_none; auto. Qed.
  Theorem invalid_receiver_fails p bc a : wf_params p -> 0 <= a < 2 ^ w ->
    Ng p bc a < Rg p bc a -> apply_fees w unit p bc a = None.
  Proof. intros Hp Ha H. apply apply_fees_none; auto. Qed.

  (* order_fees step by step; the arithmetic of the steps is left to the two theorems below *)
  Lemma order_fees_some p pmin pmax size bc pl r fv :
    order_fees w unit p pmin pmax size bc = Ok (pl, r, fv) <->
    (pmin <> 0 /\ pmax <> 0 /\ fee w unit p bc size = Some fv /\
     receiver_fee w unit p (fv / pmin) = Some r /\ usub w (fv / pmin) r = Some pl).
  Proof.
    unfold order_fees. destruct (Z.eqb_spec pmin 0), (Z.eqb_spec pmax 0); cbn [orb]; try (split; [discriminate|tauto]).
    rewrite rbind_of_opt_ok. setoid_rewrite rbind_of_opt_ok. setoid_rewrite rbind_of_opt_ok.
    setoid_rewrite rbind_of_opt_ok. setoid_rewrite udiv_some. split.
    - intros (fv' & H1 & fa & [_ ->] & rc & H3 & pl' & H4 & [= <- <- <-]). auto.
    - intros (_ & _ & H1 & H3 & H4). exists fv. split; [exact H1|]. exists (fv / pmin). split; [auto|].
      exists r. split; [exact H3|]. exists pl. auto.
  Qed.

  Theorem order_fees_ok p pmin pmax size bc pl r fv : wf_params p -> 0 <= size -> 0 <= pmin -> 0 <= pmax ->
    order_fees w unit p pmin pmax size bc = Ok (pl, r, fv) ->
    pmin <> 0 /\ pmax <> 0 /\ fee w unit p bc size = Some fv /\
    pl + r = fv / pmin /\ 0 <= pl /\ 0 <= r /\
    receiver_fee w unit p (fv / pmin) = Some r /\
    (factor_of p bc <= unit -> fv <= size).
  Proof.
    intros Hp Hs Hmin Hmax H. apply order_fees_some in H. destruct H as (N1 & N2 & H1 & H3 & H4).
    apply usub_some in H4. destruct H4 as [H4 ->].
    pose proof (fee_le_gross p bc size fv Hp Hs H1) as [Hq Hle]. pose proof Hp as (_ & _ & Hr & _).
    assert (0 <= fv / pmin) by (apply div_nonneg; lia).
    pose proof H3 as H3'. apply apply_factor_exact in H3'; [|lia..].
    assert (0 <= r) by (destruct H3' as [-> _]; apply mul_div_nonneg; lia).
    repeat split; try assumption; lia.
  Qed.

  Theorem order_fees_valid_total p pmin pmax size bc : wf_params p -> valid_params p ->
    0 <= size < 2 ^ w -> 0 < pmin -> 0 < pmax ->
    exists pl r fv, order_fees w unit p pmin pmax size bc = Ok (pl, r, fv).
  Proof.
    intros Hp Hv Hs Hmin Hmax. pose proof Hv as (_ & _ & V3 & _). pose proof Hp as (_ & _ & W3 & _).
    destruct (apply_fees_valid_total p bc size Hp Hv Hs) as (n & pl0 & r0 & H).
    apply apply_fees_split in H; [|assumption..]. destruct H as (_ & _ & _ & Hr0 & Hfee & Hle & _).
    generalize dependent (pl0 + r0). intros fv Hfee Hle.
    assert (0 <= fv) by (apply fee_le_gross in Hfee; [lia|assumption|lia]).
    (* the fee amount fa = fv / pmin is at most fv, and its receiver share at most fa *)
    assert (Hfa : 0 <= fv / pmin <= fv) by (split; [apply div_nonneg|apply div_le_self]; lia).
    enough (exists r pl, receiver_fee w unit p (fv / pmin) = Some r /\ usub w (fv / pmin) r = Some pl)
      as (r & pl & Hr & Hpl) by (exists pl, r, fv; apply order_fees_some; repeat split; auto; lia).
    revert Hfa. generalize (fv / pmin). intros fa Hfa.
    pose proof (mul_div_nonneg fa (fp_recv p) unit). pose proof (mul_div_le_self fa (fp_recv p) unit).
    exists (fa * fp_recv p / unit), (fa - fa * fp_recv p / unit). split.
    - apply apply_factor_exact; [lia..|]. split; [reflexivity|lia].
    - apply usub_some. lia.
  Qed.

  Theorem liq_fee_ok lp size pmin fv fa r : 0 <= lp_factor lp -> 0 <= lp_recv lp -> 0 <= size -> 0 <= pmin ->
    liq_fee w unit lp size pmin = Ok (fv, fa, r) ->
    (lp_factor lp = 0 /\ fv = 0 /\ fa = 0 /\ r = 0) \/
    (lp_factor lp <> 0 /\ pmin <> 0 /\ fv = size * lp_factor lp / unit /\
     pmin * (fa - 1) < fv <= pmin * fa /\ r = fa * lp_recv lp / unit /\ 0 <= fa /\
     (lp_factor lp <= unit -> fv <= size) /\ (lp_recv lp <= unit -> r <= fa)).
  Proof.
    intros Hf Hr Hs Hp. unfold liq_fee. destruct (Z.eqb_spec (lp_factor lp) 0).
    - intros [= <- <- <-]. auto.
    - rewrite rbind_of_opt_ok. intros (fv' & H1 & H2). apply apply_factor_exact in H1; [|lia..].
      destruct H1 as [-> _]. pose proof (mul_div_nonneg size (lp_factor lp) unit Hs Hf Hunit).
      rewrite rbind_of_opt_ok in H2. destruct H2 as (fa' & H2 & H3). apply round_up_div_sound in H2; [|lia..].
      destruct H2 as [Hp0 Hceil]. assert (0 <= fa') by nia.
      rewrite rbind_of_opt_ok in H3. destruct H3 as (r' & H3 & H4). apply apply_factor_exact in H3; [|lia..].
      destruct H3 as [-> _]. injection H4 as <- <- <-.
      right. repeat split; try lia; intros Hle; apply mul_div_le_self; lia.
  Qed.

  Theorem position_fees_ok p lp brf pmin pmax size bc is_liq bval funding f :
    position_fees w unit p lp brf pmin pmax size bc is_liq bval funding = Ok f ->
    order_fees w unit p pmin pmax size bc = Ok (pf_pool f, pf_recv f, pf_fee_value f) /\
    (if is_liq then exists x, liq_fee w unit lp size pmin = Ok x /\ pf_liq f = Some x else pf_liq f = None) /\
    udiv w bval pmin = Some (pf_bamount f) /\
    apply_factor w unit (pf_bamount f) brf = Some (pf_brecv f) /\
    uadd w (pf_fee_value f) bval = Some (pf_paid f) /\ pf_funding f = funding.
  Proof.
    unfold position_fees. rewrite rbind_ok. intros (lq & H1 & H2).
    rewrite rbind_ok in H2. destruct H2 as ([[pl r] fv] & H2 & H3).
    rewrite rbind_of_opt_ok in H3. destruct H3 as (ba & H3 & H4).
    rewrite rbind_of_opt_ok in H4. destruct H4 as (paid & H4 & H5).
    rewrite rbind_of_opt_ok in H5. destruct H5 as (br & H5 & H6).
    injection H6 as <-. cbn [pf_pool pf_recv pf_fee_value pf_liq pf_bamount pf_brecv pf_paid pf_funding].
    repeat split; auto.
    destruct is_liq.
    - rewrite rbind_ok in H1. destruct H1 as (x & H1 & [= <-]). eauto.
    - injection H1 as <-. reflexivity.
  Qed.
End P.

Section Totals.
  Variable w : Z.

  Lemma for_receiver_ok f x : for_receiver w f = Ok x ->
    x = pf_recv f + pf_brecv f + match pf_liq f with Some (_, _, lr) => lr | None => 0 end.
  Proof.
    unfold for_receiver. rewrite of_opt_ok, obind_some. intros (t & H1 & H2). apply uadd_some in H1.
    destruct (pf_liq f) as [[[lv la] lr]|]; [apply uadd_some in H2|injection H2 as <-]; lia.
  Qed.

  Lemma for_pool_ok f y : for_pool w f = Ok y ->
    y = pf_pool f + (pf_bamount f - pf_brecv f) +
        match pf_liq f with Some (_, la, lr) => la - lr | None => 0 end.
  Proof.
    unfold for_pool. rewrite rbind_of_opt_ok. intros (bp & H1 & H2). apply usub_some in H1.
    rewrite rbind_of_opt_ok in H2. destruct H2 as (t & H2 & H3). apply uadd_some in H2.
    destruct (pf_liq f) as [[[lv la] lr]|]; [|injection H3 as <-; lia].
    rewrite rbind_of_opt_ok in H3. destruct H3 as (lpool & H3 & H4). apply usub_some in H3.
    apply of_opt_ok, uadd_some in H4. lia.
  Qed.

  Lemma total_cost_excl_ok f t : total_cost_excl w f = Ok t ->
    t = pf_pool f + pf_recv f + pf_bamount f + match pf_liq f with Some (_, la, _) => la | None => 0 end.
  Proof.
    unfold total_cost_excl. rewrite of_opt_ok, obind_some. intros (a & H1 & H2). apply uadd_some in H1.
    rewrite obind_some in H2. destruct H2 as (b & H2 & H3). apply uadd_some in H2.
    destruct (pf_liq f) as [[[lv la] lr]|]; [apply uadd_some in H3|injection H3 as <-]; lia.
  Qed.

  Theorem totals_conserved f x y t :
    for_receiver w f = Ok x -> for_pool w f = Ok y -> total_cost_excl w f = Ok t -> x + y = t.
  Proof.
    intros Hx Hy Ht. apply for_receiver_ok in Hx. apply for_pool_ok in Hy. apply total_cost_excl_ok in Ht.
    destruct (pf_liq f) as [[[lv la] lr]|]; lia.
  Qed.

  Theorem total_cost_ok f t : total_cost w f = Ok t ->
    exists t0, total_cost_excl w f = Ok t0 /\ t = t0 + pf_funding f.
  Proof.
    unfold total_cost. rewrite rbind_ok. intros (t0 & H1 & H2). exists t0. split; [exact H1|].
    apply of_opt_ok, uadd_some in H2. lia.
  Qed.
End Totals.
