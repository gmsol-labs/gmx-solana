(* C04 — history form: every action, successful or not, is a [moved] step; histories compose them. *)
From GV Require Import lib.Base MK.Market MK.Swap MK.Liquidity MK.MarketProofs MK.SwapProofs MK.LiquidityProofs
  C04.History C04.Proofs.
Open Scope Z_scope.

Section P.
  Variable w : Z.
  Hypothesis Hw : 1 <= w.
  Variable unit : Z.
  Hypothesis Hunit : 0 < unit.
  Variable cfg : config.

  Definition wf_action (x : action) : Prop :=
    match x with
    | ASwap _ a ps => in_range w a /\ wf_prices w ps
    | ADeposit l sh ps => in_range w l /\ in_range w sh /\ wf_prices w ps
    | AWithdraw a ps => in_range w a /\ wf_prices w ps
    end.

  (* [s'] is [s] with [din il] more tokens of each side in the vault, [dm] more market tokens
     and nothing else changed *)
  Definition moved (s s' : mstate) (din : bool -> Z) (dm : Z) : Prop :=
    (forall il, holdings s' il = holdings s il + din il) /\ total_supply s' = total_supply s + dm /\
    same_rest s s' /\ vi_follows s s' /\ wf_state w s'.

  Lemma moved_refl s : wf_state w s -> moved s s (fun _ => 0) 0.
  Proof.
    intros Hs. split; [intros; lia|]. split; [lia|]. split; [apply same_rest_refl|]. split; [apply vi_follows_refl|exact Hs].
  Qed.

  Lemma moved_trans a b c d1 m1 d2 m2 :
    moved a b d1 m1 -> moved b c d2 m2 -> moved a c (fun il => d1 il + d2 il) (m1 + m2).
  Proof.
    intros (A & B & C & D & _) (A' & B' & C' & D' & F').
    split; [intros il; rewrite A', A; lia|]. split; [lia|]. split; [eapply same_rest_trans; eassumption|].
    split; [eapply vi_follows_trans; eassumption|exact F'].
  Qed.

  Lemma step_ledger s x : wf_state w s -> 0 <= value_to_amount_divisor s -> wf_action x ->
    moved s (step w unit cfg s x) (net_in w unit cfg s x) (net_mint w unit cfg s x).
  Proof.
    intros Hs Hdv Hx. pose proof (moved_refl s Hs) as Hid. unfold moved in *.
    destruct x as [sil a ps|l sh ps|a ps]; cbn [step net_in net_mint wf_action] in *.
    - destruct Hx as [Ha Hps]. destruct (swap_exec w unit cfg s sil a ps) as [[s' r]|e] eqn:E; [|exact Hid].
      app swap_ledger E. destruct E as (A & B & C & D & F). cbn [fst snd].
      split; [|split; [lia|exact F]].
      intros il. destruct (Bool.eqb il sil) eqn:Eb.
      + apply Bool.eqb_prop in Eb. subst. exact A.
      + assert (il = negb sil) by (destruct il, sil; cbn in *; congruence). subst. rewrite B. lia.
    - destruct Hx as (Hl & Hsh & Hps). destruct (deposit_exec w unit cfg s l sh ps) as [[s' r]|e] eqn:E; [|exact Hid].
      apply fst_bind_inv in E. destruct E as [t E]. app deposit_exec_trace_ok E. destruct E. cbn [fst snd].
      split; [|tauto]. intros [|]; assumption.
    - destruct Hx as (Ha & Hps). destruct (withdraw_exec w unit cfg s a ps) as [[s' r]|e] eqn:E; [|exact Hid].
      apply fst_bind_inv in E. destruct E as [t E]. app withdraw_exec_trace_ok E. destruct E. cbn [fst snd].
      split; [|split; [lia|tauto]]. intros [|]; lia.
  Qed.

  Theorem history_ledger xs : forall s, wf_state w s -> 0 <= value_to_amount_divisor s -> Forall wf_action xs ->
    moved s (fold_left (step w unit cfg) xs s) (ledger w unit cfg s xs) (mint_ledger w unit cfg s xs).
  Proof.
    induction xs as [|x xs IH]; intros s Hs Hdv Hxs.
    - exact (moved_refl s Hs).
    - inversion Hxs as [|? ? Hx Hxs']; subst.
      pose proof (step_ledger s x Hs Hdv Hx) as S1. pose proof S1 as (_ & _ & R & _ & Hs1).
      rewrite (same_rest_divisor _ _ R) in Hdv. exact (moved_trans _ _ _ _ _ _ _ S1 (IH _ Hs1 Hdv Hxs')).
  Qed.
End P.
