(* C06 — the markets and requests of the refutation witnesses for the three known classes. *)
From GV Require Import lib.Base C01.Model MK.Market MK.Swap MK.Liquidity MK.Examples.
Open Scope Z_scope.

(* the known classes are real (Props: c06_*_refuted): classes 1 and 2 on the default u64/9 market
   with zero swap fees *)
Definition cfg64_nofee : config :=
  mkConfig (c_swap_impact cfg64) (mkFP 0 0 0 0)
    (c_position cfg64) (c_position_impact cfg64) (c_order_fee cfg64) (c_distribution cfg64)
    (c_borrowing cfg64) (c_kink cfg64) (c_funding cfg64) (c_reserve_factor cfg64) (c_oi_reserve_factor cfg64)
    (c_max_pnl cfg64) (c_min_pnl_after_adl cfg64) (c_max_pool_amount cfg64) (c_max_pool_value_for_deposit cfg64)
    (c_max_open_interest cfg64) (c_min_collateral_factor_for_oi cfg64) (c_ignore_oi_for_usage cfg64) (c_liquidation cfg64).
Definition ps120 : prices := mkPrices (mkPrice 120 120) (mkPrice 120 120) (mkPrice 1 1).

(* class 1, FundedPositiveImpact: the state after LP1 deposited 10^9 long tokens at 120 into the empty
   market (DESIGN.md section 7).  LP2 then deposits 6*10^10 short tokens (value 6*10^10), earns positive
   impact funded by the long impact pool, withdraws everything: 60000043120 > 60000000000 *)
Definition rt_state1 : mstate :=
  match deposit_exec 64 (10 ^ 9) cfg64_nofee (ex_state 0 pool0 pool0 pool0) 1000000000 0 ps120 with
  | Ok r => fst r | Err _ => ex_state 0 pool0 pool0 pool0 end.

(* class 2, ResidualValueAtZeroSupply: a market whose supply is zero but which still holds
   10^6 long tokens (e.g. fees left behind after every LP withdrew): the next depositor of 1000
   short tokens withdraws the residue as well *)
Definition residual_state : mstate := ex_state 0 (mkPool 1000000 0) pool0 pool0.

(* class 3, StalePendingBorrowingFees (dilution clause of a deposit): u128/20 market with short
   open interest whose borrowing clock is 50000 s behind; a deposit enlarges the pool, lowers
   the utilisation and with it the pending-fee estimate inside pool_value: the value per market
   token falls although the deposit itself is priced fairly.  State and request are the ones
   the c06 driver produced on vmarket::TestMarket (seed 31). *)
Definition cfg128_w3 : config :=
  mkConfig (mkIP 200000000000000000000 0 0) (mkFP 0 0 0 0)
    (mkPP 100000000000000000000 100000000000000000000 1000000000000000000 None 500000000000000000 500000000000000000 250000000000000000)
    (mkIP 200000000000000000000 100000000000 200000000000) (mkFP 50000000000000000 70000000000000000 37000000000000000000 0)
    (mkDP 100000000000000000000 1000000000)
    (mkBP 37000000000000000000 100000000000000000000 100000000000000000000 2800000000000 2800000000000 true)
    (mkKP 75000000000000000000 1902587519025 4756468797564)
    (mkFuP 100000000000000000000 2000000000000 1000000000000 0 1000000000000 100000000000 5000000000000000000 0)
    100000000000000000000 100000000000000000000
    (mkPnlF 60000000000000000000 30000000000000000000 50000000000000000000 50000000000000000000) 0
    100000000000000000000000000000 10000000000000000000000 340282366920938463463374607431768211455 6024096385 false
    (mkLQ 200000000000000000 37000000000000000000).
Definition state_w3 : mstate :=
  mkState 1000001575 100000000000 10000000000 (mkPool 0 500000788) pool0 pool0 pool0
    (mkPool 90000141840000000000 0) pool0 (mkPool 7500 0) pool0 pool0 0 pool0 pool0 pool0 pool0 pool0 pool0 pool0
    1000000 None (Some 950000) None None None.
Definition prices_w3 : prices :=
  mkPrices (mkPrice 6000000000000003 6000000000000003) (mkPrice 6000000000000003 6000000000000003)
           (mkPrice 200000000000 200000000000).

