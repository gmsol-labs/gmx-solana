(* C41 — the size estimate against the (hand-modelled) serialized size: they are equal. *)
From GV Require Import lib.Base lib.Checked C41.Model.
From Coq Require Import Permutation.
Open Scope Z_scope.

Lemma memz_in x l : memz x l = true <-> In x l.
Proof. apply existsb_Zeqb_In. Qed.
Lemma memz_not_in x l : memz x l = false <-> ~ In x l.
Proof. rewrite <- memz_in. destruct (memz x l); split; intros; congruence. Qed.

Lemma dedup_in l x : In x (dedup l) <-> In x l.
Proof.
  induction l as [|y l IH]; [tauto|]. cbn. destruct (memz y l) eqn:E.
  - rewrite IH. apply memz_in in E. split; [auto|]. intros [->|H]; auto.
  - cbn. rewrite IH. tauto.
Qed.
Lemma dedup_nodup l : NoDup (dedup l).
Proof.
  induction l as [|y l IH]; [constructor|]. cbn. destruct (memz y l) eqn:E; [exact IH|].
  constructor; [|exact IH]. rewrite dedup_in. apply memz_not_in. exact E.
Qed.

Lemma filter_len_split {A} (f : A -> bool) l : lenZ (filter f l) + lenZ (filter (fun x => negb (f x)) l) = lenZ l.
Proof. unfold lenZ. induction l as [|x l IH]; [reflexivity|]. cbn. destruct (f x); cbn [negb length]; lia. Qed.

Lemma filter_len_le {A} (f : A -> bool) l : lenZ (filter f l) <= lenZ l.
Proof. pose proof (filter_len_split f l) as H. unfold lenZ in *. lia. Qed.

Lemma nodup_app {A} (a b : list A) : NoDup a -> NoDup b -> (forall x, In x a -> ~ In x b) -> NoDup (a ++ b).
Proof.
  induction 1 as [|x a Hx Ha IH]; intros Hb Hd; [exact Hb|]. cbn. constructor.
  - intros H. apply in_app_or in H. destruct H as [H|H]; [contradiction | apply (Hd x); [left; reflexivity | exact H]].
  - apply IH; [exact Hb | intros y Hy; apply Hd; right; exact Hy].
Qed.

(* [acc] is split by [keep]; [rest] is part of the kept half and [sp] is the other half (as sets):
   without duplicates, [rest ++ sp] has the length of [rest] plus that of the other half *)
Lemma dedup_split_len (keep : Z -> bool) acc rest sp :
  NoDup acc -> NoDup rest -> (forall x, In x rest -> keep x = true) ->
  (forall x, In x sp <-> In x acc /\ keep x = false) ->
  lenZ (dedup (rest ++ sp)) = lenZ rest + lenZ (filter (fun k => negb (keep k)) acc).
Proof.
  intros Hacc Hrest Hk Hsp. unfold lenZ. rewrite <- Nat2Z.inj_add, <- app_length. f_equal.
  apply Permutation_length, NoDup_Permutation.
  - apply dedup_nodup.
  - apply nodup_app; [exact Hrest | apply NoDup_filter, Hacc|].
    intros x Hx Ho. apply filter_In in Ho. rewrite (Hk x Hx) in Ho. destruct Ho. discriminate.
  - intros x. rewrite dedup_in, !in_app_iff, filter_In, negb_true_iff, Hsp. reflexivity.
Qed.

Lemma c16_ge1 n : 1 <= c16 n.
Proof. unfold c16. destruct (n <=? 127); [lia|]. destruct (n <=? 16383); lia. Qed.
Lemma c16_small n : n <= 127 -> c16 n = 1.
Proof. intros H. unfold c16. replace (n <=? 127) with true by (symmetry; apply Z.leb_le; lia). reflexivity. Qed.

Lemma existsb_filter_nil {A} (f : A -> bool) l : existsb f l = false <-> filter f l = [].
Proof.
  induction l as [|x l IH]; [tauto|]. cbn. destruct (f x); cbn; [split; discriminate | exact IH].
Qed.

Lemma lookup_pass_cons k addrs r can :
  lookup_pass can ((k, addrs) :: r) =
  let rest := lookup_pass (filter (fun k0 => negb (memz k0 addrs)) can) r in
  (fst rest, if existsb (fun k0 => memz k0 addrs) can then snd rest + 1 else snd rest).
Proof. cbn [lookup_pass table_take]. destruct (lookup_pass _ r). reflexivity. Qed.

Lemma lookup_pass_incl ts : forall can x, In x (fst (lookup_pass can ts)) -> In x can.
Proof.
  induction ts as [|[k addrs] r IH]; intros can x H; [exact H|].
  rewrite lookup_pass_cons in H. apply IH, filter_In in H. tauto.
Qed.

Lemma lookup_pass_nodup ts : forall can, NoDup can -> NoDup (fst (lookup_pass can ts)).
Proof.
  induction ts as [|[k addrs] r IH]; intros can H; [exact H|].
  rewrite lookup_pass_cons. apply IH, NoDup_filter, H.
Qed.

Lemma lookup_pass_count ts : forall can, 0 <= snd (lookup_pass can ts) <= lenZ ts.
Proof.
  unfold lenZ. induction ts as [|[k addrs] r IH]; intros can; [cbn; lia|].
  rewrite lookup_pass_cons. cbn [snd length].
  specialize (IH (filter (fun k0 => negb (memz k0 addrs)) can)).
  destruct (existsb (fun k0 => memz k0 addrs) can); lia.
Qed.

(* the serialized tables = the looked-up index bytes + what the estimator adds per table *)
Lemma real_tables_spec payer l ts : forall can,
  real_tables payer l can ts = (lenZ can - lenZ (fst (lookup_pass can ts))) + est_tables payer l can ts.
Proof.
  induction ts as [|[k addrs] r IH]; intros can; [cbn; lia|].
  cbn [real_tables est_tables]. rewrite lookup_pass_cons, IH. cbn [fst].
  pose proof (filter_len_split (fun k0 => memz k0 addrs) can) as Hsplit.
  destruct (filter (fun k0 => memz k0 addrs) can); [cbn in Hsplit|]; lia.
Qed.

Lemma signers_in_accounts payer l x : In x (signers_of payer l) -> In x (accounts_of payer l).
Proof.
  unfold signers_of, accounts_of. rewrite !dedup_in. intros [->|H]; [left; reflexivity|]. right.
  apply in_flat_map in H. destruct H as [i [Hi Hx]]. apply in_flat_map. exists i. split; [exact Hi|].
  right. apply in_map_iff in Hx. destruct Hx as [a [<- Ha]]. apply filter_In in Ha. apply in_map. tauto.
Qed.
Lemma programs_in_accounts payer l x : In x (programs_of l) -> In x (accounts_of payer l).
Proof.
  unfold programs_of, accounts_of. rewrite !dedup_in. intros H. right.
  apply in_map_iff in H. destruct H as [i [<- Hi]]. apply in_flat_map. exists i. split; [exact Hi | left; reflexivity].
Qed.

(* the accounts that stay in the message whatever the tables hold are the signers and the programs *)
Lemma static_keys payer l x :
  In x (signers_of payer l ++ programs_of l) <->
  In x (accounts_of payer l) /\ negb (memz x (programs_of l)) && negb (memz x (signers_of payer l)) = false.
Proof.
  rewrite in_app_iff, <- negb_orb, negb_false_iff, orb_true_iff, !memz_in.
  pose proof (signers_in_accounts payer l x). pose proof (programs_in_accounts payer l x). tauto.
Qed.

Theorem estimate_eq_real payer l ts : estimate payer l ts = real_size payer l ts.
Proof.
  unfold real_size, estimate.
  set (accounts := accounts_of payer l). set (signers := signers_of payer l). set (programs := programs_of l).
  set (keep := fun k => negb (memz k programs) && negb (memz k signers)). set (can := filter keep accounts).
  pose proof (real_tables_spec payer l ts can) as Hrt.
  pose proof (lookup_pass_incl ts can) as Hinc.
  pose proof (lookup_pass_nodup ts can (NoDup_filter _ (dedup_nodup _))) as Hnd.
  destruct (lookup_pass can ts) as [rest tables]. cbn [fst] in *.
  set (other := filter (fun k => negb (keep k)) accounts).
  assert (Hsplit : lenZ can + lenZ other = lenZ accounts) by apply filter_len_split.
  replace (lenZ accounts - (lenZ can - lenZ rest)) with (lenZ rest + lenZ other) by lia.
  rewrite (dedup_split_len keep accounts), Hrt; [fold other; lia | apply dedup_nodup | exact Hnd | |].
  - intros x Hx. apply Hinc, filter_In in Hx. tauto.
  - intros x. exact (static_keys payer l x).
Qed.
