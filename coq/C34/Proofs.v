(* C34 — array-level lemmas about the fixed-map model (stdlib only).
   Everything is stated with Z indices: [znth d i] for 0 <= i < zlen d. *)
From GV Require Import lib.Base lib.Checked C34.Model.
Open Scope Z_scope.

Section FM.
  Context {V : Type}.
  Variable dv : V.
  Variable cap : Z.
  Hypothesis Hcap : 0 <= cap < 2 ^ 32.

  Notation entry := (@entry V).
  Notation fmap := (@fmap V).
  Notation dflt := (dflt dv).
  Notation znth := (znth dv).
  Notation rd := (rd dv).
  Notation key_at d i := (fst (znth d i)).

  Lemma zlen_nonneg (d : list entry) : 0 <= zlen d.
  Proof. unfold zlen. lia. Qed.

  Lemma upd_length (d : list entry) n e : length (upd d n e) = length d.
  Proof. revert n. induction d as [|x r IH]; intros [|n]; cbn; auto. Qed.

  Lemma zlen_upd (d : list entry) n e : zlen (upd d n e) = zlen d.
  Proof. unfold zlen. now rewrite upd_length. Qed.

  Lemma nth_upd (d : list entry) n e j :
    (n < length d)%nat -> nth j (upd d n e) dflt = if Nat.eqb j n then e else nth j d dflt.
  Proof.
    revert n j. induction d as [|x r IH]; intros n j Hn; cbn in Hn; [lia|].
    destruct n as [|n]; destruct j as [|j]; cbn; auto.
    apply IH. lia.
  Qed.

  Lemma znth_upd (d : list entry) i e j :
    0 <= i < zlen d -> 0 <= j ->
    znth (upd d (Z.to_nat i) e) j = if j =? i then e else znth d j.
  Proof.
    intros Hi Hj. unfold Model.znth, zlen in *. rewrite nth_upd by lia.
    destruct (Nat.eqb_spec (Z.to_nat j) (Z.to_nat i)) as [E|E];
      destruct (Z.eqb_spec j i) as [E'|E']; auto; lia.
  Qed.

  Lemma rd_ok (d : list entry) i : 0 <= i < zlen d -> rd d i = Ok (znth d i).
  Proof.
    intros H. unfold Model.rd.
    destruct (Z.leb_spec 0 i); destruct (Z.ltb_spec i (zlen d)); cbn; auto; lia.
  Qed.

  Lemma wr_ok (d : list entry) i e : 0 <= i < zlen d -> wr d i e = Ok (upd d (Z.to_nat i) e).
  Proof.
    intros H. unfold wr.
    destruct (Z.leb_spec 0 i); destruct (Z.ltb_spec i (zlen d)); cbn; auto; lia.
  Qed.

  Lemma slice_to_ok (d : list entry) n : 0 <= n <= zlen d -> slice_to d n = Ok (firstn (Z.to_nat n) d).
  Proof.
    intros H. unfold slice_to.
    destruct (Z.leb_spec 0 n); destruct (Z.leb_spec n (zlen d)); cbn; auto; lia.
  Qed.

  Lemma list_ext_z (a b : list entry) :
    zlen a = zlen b -> (forall i, 0 <= i < zlen a -> znth a i = znth b i) -> a = b.
  Proof.
    unfold zlen, Model.znth. intros Hl H.
    apply nth_ext with (d := dflt) (d' := dflt); [lia|].
    intros n Hn. specialize (H (Z.of_nat n)). rewrite Nat2Z.id in H. apply H. lia.
  Qed.

  Lemma zlen_firstn (d : list entry) n : 0 <= n <= zlen d -> zlen (firstn (Z.to_nat n) d) = n.
  Proof. unfold zlen. intros H. rewrite firstn_length. lia. Qed.

  Lemma znth_firstn (d : list entry) n i : 0 <= i < n -> znth (firstn (Z.to_nat n) d) i = znth d i.
  Proof.
    intros H. unfold Model.znth.
    rewrite <- (firstn_skipn (Z.to_nat n) d) at 2.
    destruct (Z_lt_le_dec n (zlen d)) as [L|L].
    - rewrite app_nth1; auto. rewrite firstn_length. unfold zlen in L. lia.
    - rewrite firstn_all2 by (unfold zlen in L; lia).
      rewrite skipn_all2 by (unfold zlen in L; lia). now rewrite app_nil_r.
  Qed.

  Lemma zlen_skipn (d : list entry) n : 0 <= n <= zlen d -> zlen (skipn (Z.to_nat n) d) = zlen d - n.
  Proof. unfold zlen. intros H. rewrite skipn_length. lia. Qed.

  Lemma znth_skipn (d : list entry) n i : 0 <= n -> 0 <= i -> znth (skipn (Z.to_nat n) d) i = znth d (n + i).
  Proof.
    intros Hn Hi. unfold Model.znth.
    replace (Z.to_nat (n + i)) with (Z.to_nat n + Z.to_nat i)%nat by lia.
    generalize (Z.to_nat n) as a. generalize (Z.to_nat i) as b. clear.
    intros b a. revert d. induction a as [|a IH]; intros [|x r]; cbn; auto.
    destruct b; reflexivity.
  Qed.

  Lemma zlen_app (a b : list entry) : zlen (a ++ b) = zlen a + zlen b.
  Proof. unfold zlen. rewrite app_length. lia. Qed.

  Lemma znth_app (a b : list entry) i :
    0 <= i -> znth (a ++ b) i = if i <? zlen a then znth a i else znth b (i - zlen a).
  Proof.
    intros Hi. unfold Model.znth, zlen.
    destruct (Z.ltb_spec i (Z.of_nat (length a))) as [L|L].
    - apply app_nth1. lia.
    - rewrite app_nth2 by lia. f_equal. lia.
  Qed.

  Lemma zlen_repeat (e : entry) n : zlen (repeat e n) = Z.of_nat n.
  Proof. unfold zlen. now rewrite repeat_length. Qed.

  Lemma znth_repeat n i : znth (repeat dflt n) i = dflt.
  Proof.
    unfold Model.znth. generalize (Z.to_nat i) as k. induction n as [|n IH]; intros [|k]; cbn; auto.
  Qed.

  Lemma zseq_snoc lo n : zseq lo (S n) = zseq lo n ++ [lo + Z.of_nat n].
  Proof.
    revert lo. induction n as [|n IH]; intros lo.
    - cbn. f_equal. lia.
    - change (zseq lo (S (S n))) with (lo :: zseq (lo + 1) (S n)). rewrite IH. cbn. do 3 f_equal. lia.
  Qed.

  Lemma rev_zseq_S lo n : rev (zseq lo (S n)) = (lo + Z.of_nat n) :: rev (zseq lo n).
  Proof. rewrite zseq_snoc, rev_app_distr. reflexivity. Qed.

  (* for i in (lo..lo+n).rev() { d[i+1] = d[i] } *)
  Lemma shift_right_spec n : forall (d : list entry) lo,
    0 <= lo -> lo + Z.of_nat n < zlen d ->
    exists d', shift_right dv d (rev (zseq lo n)) = Ok d' /\ zlen d' = zlen d /\
      forall j, 0 <= j ->
        znth d' j = if (lo + 1 <=? j) && (j <=? lo + Z.of_nat n) then znth d (j - 1) else znth d j.
  Proof.
    induction n as [|n IH]; intros d lo Hlo Hhi.
    - exists d. cbn. repeat split; auto. intros j Hj.
      destruct (Z.leb_spec (lo + 1) j); destruct (Z.leb_spec j (lo + 0)); cbn; auto; lia.
    - rewrite rev_zseq_S. cbn [shift_right].
      rewrite rd_ok by lia. cbn [rbind].
      rewrite wr_ok by lia. cbn [rbind].
      set (d1 := upd d (Z.to_nat (lo + Z.of_nat n + 1)) (znth d (lo + Z.of_nat n))).
      assert (L1 : zlen d1 = zlen d) by apply zlen_upd.
      destruct (IH d1 lo Hlo) as (d' & E & L & H); [lia|].
      exists d'. split; [exact E|]. split; [lia|].
      intros j Hj. rewrite H by auto. subst d1.
      destruct (Z.leb_spec (lo + 1) j) as [A|A]; destruct (Z.leb_spec j (lo + Z.of_nat n)) as [B|B]; cbn [andb];
        rewrite znth_upd by lia.
      + destruct (Z.eqb_spec (j - 1) (lo + Z.of_nat n + 1)); [lia|].
        destruct (Z.leb_spec j (lo + Z.of_nat (S n))); [reflexivity|lia].
      + destruct (Z.eqb_spec j (lo + Z.of_nat n + 1)) as [E1|E1].
        * destruct (Z.leb_spec j (lo + Z.of_nat (S n))); [|lia]. f_equal. lia.
        * destruct (Z.leb_spec j (lo + Z.of_nat (S n))); [lia|reflexivity].
      + destruct (Z.eqb_spec j (lo + Z.of_nat n + 1)); [lia|reflexivity].
      + destruct (Z.eqb_spec j (lo + Z.of_nat n + 1)); [lia|reflexivity].
  Qed.

  Lemma rev_range_shift (d : list entry) lo hi :
    0 <= lo <= hi -> hi < zlen d ->
    exists d', shift_right dv d (rev_range lo hi) = Ok d' /\ zlen d' = zlen d /\
      forall j, 0 <= j -> znth d' j = if (lo + 1 <=? j) && (j <=? hi) then znth d (j - 1) else znth d j.
  Proof.
    intros H1 H2. unfold rev_range.
    destruct (shift_right_spec (Z.to_nat (hi - lo)) d lo) as (d' & E & L & H); [lia|lia|].
    exists d'. repeat split; auto. intros j Hj. rewrite H by auto.
    replace (lo + Z.of_nat (Z.to_nat (hi - lo))) with hi by lia. reflexivity.
  Qed.

  (* for i in lo..lo+n { d[i] = default } *)
  Lemma clear_loop_spec n : forall (d : list entry) lo,
    0 <= lo -> lo + Z.of_nat n <= zlen d ->
    exists d', clear_loop dv d (zseq lo n) = Ok d' /\ zlen d' = zlen d /\
      forall j, 0 <= j -> znth d' j = if (lo <=? j) && (j <? lo + Z.of_nat n) then dflt else znth d j.
  Proof.
    induction n as [|n IH]; intros d lo Hlo Hhi.
    - exists d. cbn. repeat split; auto. intros j Hj.
      destruct (Z.leb_spec lo j); destruct (Z.ltb_spec j (lo + 0)); cbn; auto; lia.
    - cbn [zseq clear_loop]. rewrite wr_ok by lia. cbn [rbind].
      set (d1 := upd d (Z.to_nat lo) dflt).
      assert (L1 : zlen d1 = zlen d) by apply zlen_upd.
      destruct (IH d1 (lo + 1)) as (d' & E & L & H); [lia|lia|].
      exists d'. split; [exact E|]. split; [lia|].
      intros j Hj. rewrite H by auto. subst d1. rewrite znth_upd by lia.
      destruct (Z.leb_spec (lo + 1) j); destruct (Z.ltb_spec j (lo + 1 + Z.of_nat n));
        destruct (Z.leb_spec lo j); destruct (Z.ltb_spec j (lo + Z.of_nat (S n)));
        destruct (Z.eqb_spec j lo); cbn [andb]; auto; lia.
  Qed.

  (* copy_within(s..e, dest) as a memmove *)
  Lemma copy_within_spec (d : list entry) s e dest :
    0 <= s <= e -> e <= zlen d -> 0 <= dest -> dest + (e - s) <= zlen d ->
    exists d', copy_within d s e dest = Ok d' /\ zlen d' = zlen d /\
      forall j, 0 <= j < zlen d ->
        znth d' j = if (dest <=? j) && (j <? dest + (e - s)) then znth d (s + (j - dest)) else znth d j.
  Proof.
    intros Hs He Hd Hde. unfold copy_within.
    replace ((0 <=? s) && (s <=? e) && (e <=? zlen d) && (0 <=? dest) && (dest <=? zlen d - (e - s))) with true.
    2:{ symmetry. repeat (apply andb_true_intro; split); apply Z.leb_le; lia. }
    eexists. split; [reflexivity|].
    assert (La : zlen (firstn (Z.to_nat dest) d) = dest) by (apply zlen_firstn; lia).
    assert (Lb : zlen (firstn (Z.to_nat (e - s)) (skipn (Z.to_nat s) d)) = e - s).
    { apply zlen_firstn. rewrite zlen_skipn by lia. lia. }
    assert (Lc : zlen (skipn (Z.to_nat (dest + (e - s))) d) = zlen d - (dest + (e - s))) by (apply zlen_skipn; lia).
    split.
    - rewrite !zlen_app. lia.
    - intros j Hj. rewrite znth_app by lia. rewrite La.
      destruct (Z.ltb_spec j dest) as [A|A].
      + rewrite znth_firstn by lia.
        destruct (Z.leb_spec dest j); [lia|reflexivity].
      + rewrite znth_app by lia. rewrite Lb.
        destruct (Z.leb_spec dest j); [|lia].
        destruct (Z.ltb_spec (j - dest) (e - s)) as [B|B]; destruct (Z.ltb_spec j (dest + (e - s))); try lia; cbn [andb].
        * rewrite znth_firstn by lia. rewrite znth_skipn by lia. reflexivity.
        * rewrite znth_skipn by lia. f_equal. lia.
  Qed.

  Definition sorted_upto (d : list entry) (n : Z) : Prop :=
    forall i j, 0 <= i -> i < j -> j < n -> key_at d i < key_at d j.

  Lemma sorted_le (d : list entry) n i j :
    sorted_upto d n -> 0 <= i -> i <= j -> j < n -> key_at d i <= key_at d j.
  Proof.
    intros S Hi Hij Hj. destruct (Z.eq_dec i j) as [->|N]; [lia|].
    specialize (S i j Hi). lia.
  Qed.

  Lemma bs_loop_spec fuel : forall (s : list entry) k base size,
    sorted_upto s (zlen s) ->
    0 <= base -> 1 <= size -> base + size <= zlen s -> (Z.to_nat size <= fuel)%nat ->
    (base = 0 \/ key_at s base <= k) ->
    (forall j, base + size <= j -> j < zlen s -> k < key_at s j) ->
    exists b, bs_loop dv fuel s k base size = Ok b /\ 0 <= b < zlen s /\
      (b = 0 \/ key_at s b <= k) /\ (forall j, b + 1 <= j -> j < zlen s -> k < key_at s j).
  Proof.
    induction fuel as [|f IH]; intros s k base size S Hb Hs Hbs Hf Hlo Hhi.
    - exfalso. lia.
    - cbn [bs_loop]. destruct (Z.leb_spec size 1) as [L|L].
      + exists base. split; [reflexivity|]. split; [lia|]. split; [exact Hlo|].
        intros j A B. apply Hhi; lia.
      + assert (Hh : 1 <= size / 2 /\ 2 * (size / 2) <= size).
        { split; [apply Z.div_le_lower_bound; lia | apply Z.mul_div_le; lia]. }
        rewrite rd_ok by lia. cbn [rbind].
        destruct (Z.ltb_spec k (key_at s (base + size / 2))) as [G|G].
        * apply IH; auto; try lia.
          intros j A B.
          assert (key_at s (base + size / 2) <= key_at s j) by (apply (sorted_le s (zlen s)); auto; lia).
          lia.
        * apply IH; auto; try lia.
          intros j A B. apply Hhi; lia.
  Qed.

  Lemma slice_search_spec (s : list entry) k :
    sorted_upto s (zlen s) ->
    (exists i, slice_search dv s k = Ok (Found i) /\ 0 <= i < zlen s /\ key_at s i = k) \/
    (exists i, slice_search dv s k = Ok (Missing i) /\ 0 <= i <= zlen s /\
       (forall j, 0 <= j -> j < i -> key_at s j < k) /\ (forall j, i <= j -> j < zlen s -> k < key_at s j)).
  Proof.
    intros S. unfold slice_search.
    destruct (Z.eqb_spec (zlen s) 0) as [E|E].
    - right. exists 0. split; [reflexivity|]. split; [lia|]. split; intros; lia.
    - pose proof (zlen_nonneg s).
      destruct (bs_loop_spec (length s) s k 0 (zlen s)) as (b & Eb & Hb & Hlo & Hhi);
        auto; try lia; try (unfold zlen; lia); try (intros; lia).
      rewrite Eb. cbn [rbind]. rewrite rd_ok by lia. cbn [rbind].
      destruct (Z.eqb_spec (key_at s b) k) as [Ek|Ek].
      + left. exists b. auto.
      + right. destruct (Z.ltb_spec (key_at s b) k) as [Lt|Ge].
        * exists (b + 1). split; [reflexivity|]. split; [lia|]. split.
          -- intros j A B. assert (key_at s j <= key_at s b) by (apply (sorted_le s (zlen s)); auto; lia). lia.
          -- intros j A B. apply Hhi; lia.
        * assert (b = 0) by (destruct Hlo; [auto|lia]). subst b.
          exists 0. split; [f_equal; f_equal; lia|]. split; [lia|]. split; [intros; lia|].
          intros j A B. assert (key_at s 0 <= key_at s j) by (apply (sorted_le s (zlen s)); auto; lia). lia.
  Qed.

  Record wf (m : fmap) : Prop := {
    wf_len : zlen (data m) = cap;
    wf_cnt : 0 <= count m <= cap;
    wf_sorted : sorted_upto (data m) (count m);
    wf_tail : forall i, count m <= i -> i < cap -> znth (data m) i = dflt }.

  Lemma wf_empty : wf (empty dv cap).
  Proof.
    split; cbn.
    - rewrite zlen_repeat. lia.
    - lia.
    - intros i j; lia.
    - intros. apply znth_repeat.
  Qed.

  Lemma search_spec (m : fmap) k : wf m ->
    (exists i, binary_search dv m k = Ok (Found i) /\ 0 <= i < count m /\ key_at (data m) i = k) \/
    (exists i, binary_search dv m k = Ok (Missing i) /\ 0 <= i <= count m /\
       (forall j, 0 <= j -> j < i -> key_at (data m) j < k) /\
       (forall j, i <= j -> j < count m -> k < key_at (data m) j)).
  Proof.
    intros [Hl Hc Hs Ht]. unfold binary_search, len. rewrite slice_to_ok by lia. cbn [rbind].
    set (s := firstn (Z.to_nat (count m)) (data m)).
    assert (Ls : zlen s = count m) by (apply zlen_firstn; lia).
    assert (Ns : forall i, 0 <= i < count m -> znth s i = znth (data m) i) by (intros; apply znth_firstn; lia).
    assert (Ss : sorted_upto s (zlen s)).
    { intros i j A B C. rewrite !Ns by lia. apply Hs; lia. }
    destruct (slice_search_spec s k Ss) as [(i & E & B & K)|(i & E & B & Lo & Hi)].
    - left. exists i. rewrite <- Ns by lia. split; [exact E|]. split; [lia|exact K].
    - right. exists i. split; [exact E|]. split; [lia|]. split.
      + intros j A C. rewrite <- Ns by lia. apply Lo; lia.
      + intros j A C. rewrite <- Ns by lia. apply Hi; lia.
  Qed.

  Lemma get_found (m : fmap) k i : wf m ->
    binary_search dv m k = Ok (Found i) -> 0 <= i < count m ->
    get dv m k = Ok (Some (snd (znth (data m) i))).
  Proof.
    intros W E B. unfold get. rewrite E. cbn [rbind].
    rewrite rd_ok by (destruct W; lia). reflexivity.
  Qed.

  Lemma get_missing (m : fmap) k i : binary_search dv m k = Ok (Missing i) -> get dv m k = Ok None.
  Proof. intros E. unfold get. now rewrite E. Qed.

  (* value replacement at a found index (get_mut write, or insert over an existing key) *)
  Definition replaced (m : fmap) i v : fmap :=
    mk (upd (data m) (Z.to_nat i) (key_at (data m) i, v)) (count m).

  Lemma wf_replaced (m : fmap) i v : wf m -> 0 <= i < count m -> wf (replaced m i v).
  Proof.
    intros [Hl Hc Hs Ht] B. split; unfold replaced; cbn [data count].
    - rewrite zlen_upd. exact Hl.
    - exact Hc.
    - intros a b A1 A2 A3. rewrite !znth_upd by lia.
      destruct (Z.eqb_spec a i) as [->|]; destruct (Z.eqb_spec b i) as [->|]; cbn [fst]; apply Hs; lia.
    - intros j A1 A2. rewrite znth_upd by lia. destruct (Z.eqb_spec j i); [lia|]. apply Ht; lia.
  Qed.

  Lemma set_value_found (m : fmap) k v i : wf m ->
    binary_search dv m k = Ok (Found i) -> 0 <= i < count m ->
    set_value dv m k v = Ok (replaced m i v, Some (snd (znth (data m) i))).
  Proof.
    intros W E B. unfold set_value. rewrite E. cbn [rbind].
    rewrite rd_ok by (destruct W; lia). cbn [rbind].
    rewrite wr_ok by (destruct W; lia). reflexivity.
  Qed.

  Lemma set_value_missing (m : fmap) k v i :
    binary_search dv m k = Ok (Missing i) -> set_value dv m k v = Ok (m, None).
  Proof. intros E. unfold set_value. now rewrite E. Qed.

  Lemma insert_found (m : fmap) k v new i : wf m ->
    binary_search dv m k = Ok (Found i) -> 0 <= i < count m ->
    insert_with_options dv cap m k v new =
      if new then Ok (m, Err E_EXIST) else Ok (replaced m i v, Ok (Some (snd (znth (data m) i)))).
  Proof.
    intros W E B. unfold insert_with_options. rewrite E. cbn [rbind].
    destruct new; [reflexivity|].
    rewrite rd_ok by (destruct W; lia). cbn [rbind].
    rewrite wr_ok by (destruct W; lia). reflexivity.
  Qed.

  Lemma insert_full (m : fmap) k v new i :
    binary_search dv m k = Ok (Missing i) -> cap <= count m ->
    insert_with_options dv cap m k v new = Ok (m, Err E_FULL).
  Proof.
    intros E F. unfold insert_with_options, len. rewrite E. cbn [rbind].
    destruct (Z.leb_spec cap (count m)); [reflexivity|lia].
  Qed.

  Definition inserted_at (d d' : list entry) (n i k : Z) (v : V) : Prop :=
    zlen d' = zlen d /\
    forall j, 0 <= j ->
      znth d' j = if j <? i then znth d j else if j =? i then (k, v)
                  else if j <=? n then znth d (j - 1) else znth d j.

  Lemma insert_new (m : fmap) k v new i : wf m ->
    binary_search dv m k = Ok (Missing i) -> 0 <= i <= count m -> count m < cap ->
    exists d', insert_with_options dv cap m k v new = Ok (mk d' (count m + 1), Ok None) /\
               inserted_at (data m) d' (count m) i k v.
  Proof.
    intros [Hl Hc Hs Ht] E B F. unfold insert_with_options, len. rewrite E. cbn [rbind].
    destruct (Z.leb_spec cap (count m)); [lia|].
    destruct (rev_range_shift (data m) i (count m)) as (d1 & E1 & L1 & H1); [lia|lia|].
    rewrite E1. cbn [rbind]. rewrite wr_ok by lia. cbn [rbind].
    rewrite (proj2 (uadd_some 32 (count m) 1 (count m + 1))) by lia.
    cbn [of_opt rbind]. eexists. split; [reflexivity|].
    split; [rewrite zlen_upd; exact L1|].
    intros j Hj. rewrite znth_upd by lia. rewrite H1 by auto.
    destruct (Z.ltb_spec j i); destruct (Z.eqb_spec j i); destruct (Z.leb_spec (i + 1) j);
      destruct (Z.leb_spec j (count m)); cbn [andb]; auto; lia.
  Qed.

  Lemma wf_inserted (m : fmap) d' i k v : wf m ->
    0 <= i <= count m -> count m < cap ->
    (forall j, 0 <= j -> j < i -> key_at (data m) j < k) ->
    (forall j, i <= j -> j < count m -> k < key_at (data m) j) ->
    inserted_at (data m) d' (count m) i k v ->
    wf (mk d' (count m + 1)).
  Proof.
    intros [Hl Hc Hs Ht] B F Lo Hi [L H]. split; cbn [data count].
    - lia.
    - lia.
    - intros a b A1 A2 A3. rewrite !H by lia.
      destruct (Z.ltb_spec a i); destruct (Z.eqb_spec a i); destruct (Z.leb_spec a (count m)); try lia;
        destruct (Z.ltb_spec b i); destruct (Z.eqb_spec b i); destruct (Z.leb_spec b (count m));
        cbn [fst]; try lia.
      + apply Hs; lia.
      + apply Lo; lia.
      + apply Hs; lia.
      + apply Hi; lia.
      + apply Hs; lia.
    - intros j A1 A2. rewrite H by lia.
      destruct (Z.ltb_spec j i); destruct (Z.eqb_spec j i); destruct (Z.leb_spec j (count m)); try lia.
      apply Ht; lia.
  Qed.

  Definition removed_at (d d' : list entry) (n i : Z) : Prop :=
    zlen d' = zlen d /\
    forall j, 0 <= j < zlen d ->
      znth d' j = if j <? i then znth d j else if j <? n - 1 then znth d (j + 1)
                  else if j =? n - 1 then dflt else znth d j.

  Lemma remove_found (m : fmap) k i : wf m ->
    binary_search dv m k = Ok (Found i) -> 0 <= i < count m ->
    exists d', remove dv m k = Ok (mk d' (count m - 1), Some (snd (znth (data m) i))) /\
               removed_at (data m) d' (count m) i.
  Proof.
    intros [Hl Hc Hs Ht] E B. unfold remove, len. rewrite E. cbn [rbind].
    rewrite rd_ok by lia. cbn [rbind]. rewrite wr_ok by lia. cbn [rbind].
    set (d0 := upd (data m) (Z.to_nat i) (key_at (data m) i, dv)).
    assert (L0 : zlen d0 = zlen (data m)) by apply zlen_upd.
    destruct (copy_within_spec d0 (i + 1) (count m) i) as (d1 & E1 & L1 & H1); try lia.
    rewrite E1. cbn [rbind]. rewrite wr_ok by lia. cbn [rbind].
    rewrite (proj2 (usub_some 32 (count m) 1 (count m - 1))) by lia.
    cbn [of_opt rbind]. eexists. split; [reflexivity|].
    split; [rewrite zlen_upd; lia|].
    intros j Hj. rewrite znth_upd by lia.
    destruct (Z.eqb_spec j (count m - 1)) as [Ej|Ej].
    - destruct (Z.ltb_spec j i); [lia|]. destruct (Z.ltb_spec j (count m - 1)); [lia|reflexivity].
    - rewrite H1 by lia. subst d0.
      destruct (Z.leb_spec i j); destruct (Z.ltb_spec j (i + (count m - (i + 1))));
        destruct (Z.ltb_spec j i); destruct (Z.ltb_spec j (count m - 1)); cbn [andb]; try lia.
      + rewrite znth_upd by lia. destruct (Z.eqb_spec (i + 1 + (j - i)) i); [lia|]. f_equal. lia.
      + rewrite znth_upd by lia. destruct (Z.eqb_spec j i); [lia|reflexivity].
      + rewrite znth_upd by lia. destruct (Z.eqb_spec j i); [lia|reflexivity].
  Qed.

  Lemma wf_removed (m : fmap) d' i : wf m -> 0 <= i < count m ->
    removed_at (data m) d' (count m) i -> wf (mk d' (count m - 1)).
  Proof.
    intros [Hl Hc Hs Ht] B [L H]. split; cbn [data count].
    - lia.
    - lia.
    - intros a b A1 A2 A3. rewrite !H by lia.
      destruct (Z.ltb_spec a i); destruct (Z.ltb_spec a (count m - 1));
        destruct (Z.ltb_spec b i); destruct (Z.ltb_spec b (count m - 1)); try lia; apply Hs; lia.
    - intros j A1 A2. rewrite H by lia.
      destruct (Z.ltb_spec j i); [lia|]. destruct (Z.ltb_spec j (count m - 1)); [lia|].
      destruct (Z.eqb_spec j (count m - 1)); [reflexivity|]. apply Ht; lia.
  Qed.

  Lemma remove_missing (m : fmap) k i :
    binary_search dv m k = Ok (Missing i) -> remove dv m k = Ok (m, None).
  Proof. intros E. unfold remove. now rewrite E. Qed.

  Lemma clear_spec (m : fmap) : wf m -> clear dv m = Ok (empty dv cap).
  Proof.
    (* [wf] gives all that is needed of [cap]; without this, [lia] would pick up [Hcap] *)
    clear Hcap. intros [Hl Hc Hs Ht]. unfold clear, len.
    destruct (clear_loop_spec (Z.to_nat (count m)) (data m) 0) as (d' & E & L & H); [lia|lia|].
    rewrite E. cbn [rbind]. unfold empty. do 2 f_equal.
    apply list_ext_z.
    - rewrite zlen_repeat. lia.
    - intros j Hj. rewrite H by lia. rewrite znth_repeat.
      destruct (Z.leb_spec 0 j); destruct (Z.ltb_spec j (0 + Z.of_nat (Z.to_nat (count m)))); cbn [andb]; auto; try lia.
      apply Ht; lia.
  Qed.

  Lemma get_entry_by_index_spec (m : fmap) idx : wf m -> 0 <= idx ->
    get_entry_by_index dv m idx = Ok (if idx <? count m then Some (znth (data m) idx) else None).
  Proof.
    intros [Hl Hc Hs Ht] Hi. unfold get_entry_by_index, len.
    destruct (Z.ltb_spec idx (count m)); [|reflexivity].
    rewrite rd_ok by lia. reflexivity.
  Qed.
End FM.
