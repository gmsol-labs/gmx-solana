From GV Require Import lib.Base C01.Model C12.Model C12.Proofs C12.History.
Open Scope Z_scope.

(* Adaptive (increase/decrease) mode: for every open interest, elapsed time, stored factor and
   parameter set for which the computation returns, the rate applied for the period is within
   [min, max] and the factor stored for the next period is within the maximum. *)
Theorem c12_adaptive_rate_in_bounds : forall w, 1 <= w -> forall unit, 0 < unit -> forall p cur dur long short m lps nx,
  wf_params p -> in_s w cur = true -> f_inc p <> 0 ->
  next_ffps w unit p cur dur long short = Ok (m, lps, nx) ->
  f_min p <= f_max p /\ f_min p <= m <= f_max p /\ Z.abs nx <= f_max p /\ in_s w nx = true.
Proof. intros w Hw unit Hu. exact (adaptive_rate_in_bounds w Hw unit). Qed.

(* Non-adaptive mode: rate within [0, max], nothing is stored, the larger side pays
   (longs_pay_shorts = (short < long)); equal sides -> rate 0. *)
Theorem c12_fallback_rate_le_max_larger_side_pays : forall w, 1 <= w -> forall unit, 0 < unit -> forall p cur dur long short m lps nx,
  f_inc p = 0 -> 0 <= f_max p ->
  next_ffps w unit p cur dur long short = Ok (m, lps, nx) ->
  0 <= m <= f_max p /\ nx = 0 /\ (long <> short -> lps = (short <? long)) /\ (long = short -> m = 0).
Proof. intros w Hw unit Hu. exact (fallback_rate w Hw unit). Qed.

(* The property's bound  min <= |rate| <= max  holds for every input outside the class of the
   known deviation (non-adaptive mode with a result below the configured minimum) ... *)
Theorem c12_rate_in_bounds_outside_class : forall w, 1 <= w -> forall unit, 0 < unit -> forall p cur dur long short m lps nx,
  wf_params p -> in_s w cur = true ->
  next_ffps w unit p cur dur long short = Ok (m, lps, nx) ->
  nonadaptive_min_class p m = false ->
  f_min p <= m <= f_max p /\ Z.abs nx <= f_max p.
Proof.
  intros w Hw unit Hu p cur dur long short m lps nx Hp Hc H Hk. destruct (Z.eq_dec (f_inc p) 0) as [Hi|Hi].
  - unfold nonadaptive_min_class in Hk. rewrite Hi in Hk. cbn in Hk. apply Z.ltb_ge in Hk.
    destruct Hp as [Hmn Hmx]. apply (fallback_rate w Hw) in H; [|assumption..]. lia.
  - apply (adaptive_rate_in_bounds w Hw) in H; try assumption. lia.
Qed.

(* ... and inside the class it is violated by the code: both sides open, min <= max, rate < min. *)
Theorem c12_NonAdaptiveMin_refuted :
  exists p cur dur long short m lps nx,
    0 < long /\ 0 < short /\ f_inc p = 0 /\ f_min p <= f_max p /\
    next_ffps 64 (10 ^ 9) p cur dur long short = Ok (m, lps, nx) /\ ~ (f_min p <= m).
Proof. exact fallback_min_refuted. Qed.

(* "min > max" is reported only for a mis-configured pair *)
Theorem c12_rate_err_min_gt_max : forall w, 1 <= w -> forall unit, 0 < unit -> forall p cur dur long short,
  wf_params p -> next_ffps w unit p cur dur long short = Err 4 -> f_max p < f_min p.
Proof. intros w Hw unit Hu p cur dur long short Hp H. apply (next_ffps_errs w Hw) in H; [lia|exact Hp]. Qed.

(* One executed update: every funding-per-size and claimable-funding-per-size index is >= its
   previous value (the report's deltas are unsigned), stays in the number type. *)
Theorem c12_update_indices_monotone : forall w, 1 <= w -> forall unit, 0 < unit ->
  forall p adj s now pl ps rep s', 0 <= pl -> 0 <= ps ->
  execute w unit p adj s now pl ps = Ok (rep, s') ->
  q4_le (s_fa s) (s_fa s') /\ q4_le (s_cfa s) (s_cfa s') /\ q4_in w (s_fa s') /\ q4_in w (s_cfa s') /\
  s_oi s' = s_oi s /\ s_clock s' = now /\ s_ffps s' = r_next rep.
Proof. intros w Hw unit Hu. exact (execute_monotone w Hw unit). Qed.

(* only one side pays (index level) *)
Theorem c12_update_one_payer : forall w, 1 <= w -> forall unit, 0 < unit -> forall p adj s dur pl ps rep,
  next_report w unit p adj s dur pl ps = Ok rep ->
  (q_sl (r_dfa rep) = 0 /\ q_ss (r_dfa rep) = 0 /\ q_ll (r_dcfa rep) = 0 /\ q_ls (r_dcfa rep) = 0) \/
  (q_ll (r_dfa rep) = 0 /\ q_ls (r_dfa rep) = 0 /\ q_sl (r_dcfa rep) = 0 /\ q_ss (r_dcfa rep) = 0).
Proof.
  intros w Hw unit Hu p adj s dur pl ps rep H. apply (next_report_ok w Hw) in H.
  destruct H as [[_ ->]|(_ & _ & f & lps & nx & d1 & c1 & d2 & c2 & _ & _ & _ & ->)].
  - left. cbn. auto.
  - destruct lps; cbn; [left|right]; auto.
Qed.

(* in non-adaptive mode the payer is the larger side *)
Theorem c12_fallback_larger_side_pays_indices : forall w, 1 <= w -> forall unit, 0 < unit -> forall p adj s dur pl ps rep,
  f_inc p = 0 -> 0 <= f_max p ->
  next_report w unit p adj s dur pl ps = Ok rep ->
  let lo := q_ll (s_oi s) + q_ls (s_oi s) in
  let so := q_sl (s_oi s) + q_ss (s_oi s) in
  (so < lo -> q_sl (r_dfa rep) = 0 /\ q_ss (r_dfa rep) = 0 /\ q_ll (r_dcfa rep) = 0 /\ q_ls (r_dcfa rep) = 0) /\
  (lo < so -> q_ll (r_dfa rep) = 0 /\ q_ls (r_dfa rep) = 0 /\ q_sl (r_dcfa rep) = 0 /\ q_ss (r_dcfa rep) = 0) /\
  r_next rep = 0.
Proof.
  intros w Hw unit Hu p adj s dur pl ps rep Hinc Hmx H lo so. apply (next_report_ok w Hw) in H. fold lo so in H.
  destruct H as [[_ ->]|(_ & _ & f & lps & nx & d1 & c1 & d2 & c2 & E & _ & _ & ->)].
  - cbn. intuition.
  - apply (fallback_rate w Hw) in E; try assumption. destruct E as (_ & -> & Hl & _).
    split; [|split; [|reflexivity]]; intros Hlt; rewrite Hl by lia.
    + replace (so <? lo) with true by lia. cbn. auto.
    + replace (so <? lo) with false by lia. cbn. auto.
Qed.

(* the factor stored by an executed update (adaptive mode, both sides open) is within the maximum *)
Theorem c12_update_stored_factor_bounded : forall w, 1 <= w -> forall unit, 0 < unit -> forall p adj s now pl ps rep s',
  wf_params p -> in_s w (s_ffps s) = true -> f_inc p <> 0 ->
  0 < q_ll (s_oi s) + q_ls (s_oi s) -> 0 < q_sl (s_oi s) + q_ss (s_oi s) ->
  execute w unit p adj s now pl ps = Ok (rep, s') ->
  Z.abs (s_ffps s') <= f_max p /\ in_s w (s_ffps s') = true.
Proof. intros w Hw unit Hu. exact (execute_stored_factor_bounded w Hw unit). Qed.

(* Histories: any interleaving of updates (any times, any non-negative prices), open-interest
   changes and position settlements keeps every index >= its initial value and keeps every
   position's indices <= the market's. *)
Theorem c12_funding_indices_monotone : forall w, 1 <= w -> forall unit, 0 < unit -> forall p adj ops,
  Forall op_ok ops -> forall st, inv w st ->
  let st' := hrun w unit p adj st ops in
  inv w st' /\ q4_le (s_fa (fst st)) (s_fa (fst st')) /\ q4_le (s_cfa (fst st)) (s_cfa (fst st')).
Proof. intros w Hw unit Hu. exact (history_indices_monotone w Hw unit). Qed.

(* A position's pending funding fee (and its two claimable amounts): the index subtractions never
   fail, the amounts are the exact ceil / floor products, hence never negative; the only failure
   is an overflow of the product or of adjustment * unit. *)
Theorem c12_pending_funding_nonneg : forall w, 1 <= w -> forall unit, 0 < unit -> forall adj s x,
  q4_in w (s_fa s) -> q4_in w (s_cfa s) -> pos_ok s x -> 0 <= p_size x -> 0 <= adj ->
  match pending_funding w unit adj s x with
  | Ok (a, cl, cs) =>
      adj * unit <> 0 /\
      a = ceil_div (p_size x * (qget (s_fa s) (p_long x) (p_coll x) - p_fa x)) (adj * unit) /\
      cl = p_size x * (qget (s_cfa s) (p_long x) true - p_cl x) / (adj * unit) /\
      cs = p_size x * (qget (s_cfa s) (p_long x) false - p_cs x) / (adj * unit) /\
      0 <= a /\ 0 <= cl /\ 0 <= cs
  | Err e =>
      e = 1 /\
      (adj * unit = 0 \/ 2 ^ w <= adj * unit \/
       2 ^ w <= ceil_div (p_size x * (qget (s_fa s) (p_long x) (p_coll x) - p_fa x)) (adj * unit) \/
       2 ^ w <= p_size x * (qget (s_cfa s) (p_long x) true - p_cl x) / (adj * unit) \/
       2 ^ w <= p_size x * (qget (s_cfa s) (p_long x) false - p_cs x) / (adj * unit))
  end.
Proof. intros w Hw unit Hu. exact (pending_funding_nonneg w Hw unit Hu). Qed.

Theorem c12_history_pending_funding_nonneg : forall w, 1 <= w -> forall unit, 0 < unit -> forall p adj ops st x,
  Forall op_ok ops -> inv w st -> 0 <= adj ->
  let st' := hrun w unit p adj st ops in
  In x (snd st') -> 0 <= p_size x ->
  match pending_funding w unit adj (fst st') x with
  | Ok (a, cl, cs) => 0 <= a /\ 0 <= cl /\ 0 <= cs
  | Err e => e = 1 /\
      (adj * unit = 0 \/ 2 ^ w <= adj * unit \/
       2 ^ w <= ceil_div (p_size x * (qget (s_fa (fst st')) (p_long x) (p_coll x) - p_fa x)) (adj * unit) \/
       2 ^ w <= p_size x * (qget (s_cfa (fst st')) (p_long x) true - p_cl x) / (adj * unit) \/
       2 ^ w <= p_size x * (qget (s_cfa (fst st')) (p_long x) false - p_cs x) / (adj * unit))
  end.
Proof.
  intros w Hw unit Hu p adj ops st x Ho Hi Hadj st' Hin Hsz.
  destruct (history_indices_monotone w Hw unit p adj ops Ho st Hi) as ((I1 & I2 & I3) & _). fold st' in I1, I2, I3.
  rewrite Forall_forall in I3.
  pose proof (pending_funding_nonneg w Hw unit Hu adj (fst st') x I1 I2 (I3 x Hin) Hsz Hadj) as HP.
  destruct (pending_funding w unit adj (fst st') x) as [[[a cl] cs]|e]; [tauto|exact HP].
Qed.

(* non-vacuity: a history on the default u64 test parameters *)
Definition ex_params : fparams := FP (10 ^ 9) 20 10 0 10 1 50000000 0.
Definition ex_state : fstate :=
  FS 0 (Q4 (600 * 10 ^ 9) (400 * 10 ^ 9) (300 * 10 ^ 9) (200 * 10 ^ 9)) (Q4 5 0 7 0) (Q4 0 0 0 3) 1000.
Definition ex_pos : fpos := POS true true (500 * 10 ^ 9) 5 0 0.
Definition ex_ops : list (fop) := [OUpd 1100 120 1; OSettle 0%nat (700 * 10 ^ 9); OSetOI (Q4 (100 * 10 ^ 9) (100 * 10 ^ 9) (900 * 10 ^ 9) 0); OUpd 1300 125 1].

Example c12_ex_rate : next_ffps 64 (10 ^ 9) ex_params 0 100 (1000 * 10 ^ 9) (500 * 10 ^ 9) = Ok (10, true, 10).
Proof. vm_compute. reflexivity. Qed.
Example c12_ex_inv : inv 64 (ex_state, [ex_pos]).
Proof. unfold inv, q4_in, pos_ok; cbn. repeat split; try lia. repeat constructor; cbn; lia. Qed.
Example c12_ex_hist :
  hrun 64 (10 ^ 9) ex_params 10000 (ex_state, [ex_pos]) ex_ops
  = (FS (-10) (Q4 (100 * 10 ^ 9) (100 * 10 ^ 9) (900 * 10 ^ 9) 0) (Q4 83339 10000000 160007 0) (Q4 720000 0 100000 8000003) 1300,
     [POS true true (700 * 10 ^ 9) 83339 0 0]).
Proof. vm_compute. reflexivity. Qed.
Example c12_ex_pending :
  pending_funding 64 (10 ^ 9) 10000 (fst (hrun 64 (10 ^ 9) ex_params 10000 (ex_state, [ex_pos]) ex_ops)) ex_pos
  = Ok (4167, 36000, 0).
Proof. vm_compute. reflexivity. Qed.
