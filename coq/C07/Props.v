(* C07 — Open interest and collateral totals always match the open positions.
   Statements only; proofs in C07/Proofs.v (effect of one action) and C07/Inv.v (worlds, histories).
   [world_ok] / [removed_ok] are the predicates the oracle of C07/Corr.v evaluates on the states of the
   implementation; [step] / [run] execute the model of PS/Actions.v on a world = market state + list of
   positions, a failed operation (or one on an unknown position id) leaving the world unchanged. *)
From GV Require Import lib.Base C01.Model PS.Model PS.Actions PS.Hist C07.Corr C07.Proofs C07.Inv.
Open Scope Z_scope.

(* 1. one operation — increase, partial or full decrease, liquidation order, ADL order, fee-state update,
      successful or failed — preserves: every side's open interest in USD and in tokens and every collateral
      total equal the sums over the stored positions, and every stored position is open on both size
      dimensions or completely empty *)
Theorem c07_step_preserves_totals : forall w, 1 <= w -> forall unit cfg wd o,
  world_ok wd = true -> world_ok (step w unit cfg wd o) = true.
Proof. intros w Hw unit cfg wd o H. apply world_ok_iff. apply step_inv; [exact Hw|]. apply world_ok_iff. exact H. Qed.

(* 2. any history (any interleaving over any number of positions, any prices and configurations) *)
Theorem c07_history_preserves_totals : forall w, 1 <= w -> forall unit cfg wd ops,
  world_ok wd = true -> world_ok (run w unit cfg wd ops) = true.
Proof. intros w Hw unit cfg wd ops H. apply world_ok_iff. apply history_inv; [exact Hw|]. apply world_ok_iff. exact H. Qed.

(* 3. a position reported as removed has zero size and zero collateral *)
Theorem c07_removed_is_empty : forall w, 1 <= w -> forall unit cfg wd o,
  world_ok wd = true -> op_valid (snd wd) o = true -> removed_ok (run_op w unit cfg wd o) = true.
Proof. intros w Hw unit cfg wd o H V. apply removed_is_empty; [exact Hw| |exact V]. apply world_ok_iff. exact H. Qed.

(* 4. effect of a successful increase on the position and on the pools (exactly the deltas of the report) *)
Theorem c07_increase_effect : forall w, 1 <= w -> forall unit p m pr ci sd acc p1 m' rep,
  increase w unit p m pr ci sd acc = Ok (p1, m', rep) ->
  is_long p1 = is_long p /\ coll_long p1 = coll_long p /\
  size_usd p1 = size_usd p + sd /\
  size_tok p1 = (if size_usd p =? 0 then 0 else size_tok p) + ir_sdt rep /\
  coll p1 = coll p + ir_coll_delta rep /\
  0 < size_usd p1 /\ 0 < size_tok p1 /\ 0 <= coll p1 /\
  m_cfg m' = m_cfg m /\
  (forall l c, oi_amt m' l c = oi_amt m l c + hit (is_long p) (coll_long p) l c sd) /\
  (forall l c, oit_amt m' l c = oit_amt m l c + hit (is_long p) (coll_long p) l c (ir_sdt rep)) /\
  (forall l c, cs_amt m' l c = cs_amt m l c + hit (is_long p) (coll_long p) l c (ir_coll_delta rep)).
Proof. intros w Hw unit p m pr ci sd acc p1 m' rep H. exact (proj2 (increase_spec w Hw unit _ _ _ _ _ _ _ _ _ H)). Qed.

(* 5. effect of a successful decrease; in particular a removal is a close that is full on BOTH size
      dimensions (the lemma the source comment in decrease_position/mod.rs argues informally):
      dr_remove -> size_usd p1 = 0 = size_usd p - dr_size_delta and size_tok p1 = 0 = size_tok p - dr_sdt *)
Theorem c07_decrease_effect : forall w, 1 <= w -> forall unit p m pr sd0 acc cw fl p1 m' rep,
  0 < size_usd p -> 0 < size_tok p -> 0 <= coll p ->
  decrease w unit p m pr sd0 acc cw fl = Ok (p1, m', rep) ->
  is_long p1 = is_long p /\ coll_long p1 = coll_long p /\
  size_usd p1 = size_usd p - dr_size_delta rep /\ size_tok p1 = size_tok p - dr_sdt rep /\
  0 <= coll p1 <= coll p /\
  (dr_remove rep = true -> size_usd p1 = 0 /\ size_tok p1 = 0 /\ coll p1 = 0) /\
  (dr_remove rep = false -> 0 < size_usd p1 /\ 0 < size_tok p1) /\
  m_cfg m' = m_cfg m /\
  (forall l c, oi_amt m' l c = oi_amt m l c + hit (is_long p) (coll_long p) l c (- dr_size_delta rep)) /\
  (forall l c, oit_amt m' l c = oit_amt m l c + hit (is_long p) (coll_long p) l c (- dr_sdt rep)) /\
  (forall l c, cs_amt m' l c = cs_amt m l c + hit (is_long p) (coll_long p) l c (- (coll p - coll p1))).
Proof.
  intros w Hw unit p m pr sd0 acc cw fl p1 m' rep HS HT HC H.
  exact (proj2 (decrease_spec w Hw unit _ _ _ _ _ _ _ _ _ _ HS HT HC H)).
Qed.

Theorem c07_promoted_full_close : forall w, 1 <= w -> forall unit p m pr sd0 acc cw fl p1 m' rep,
  0 < size_usd p -> 0 < size_tok p -> 0 <= coll p ->
  decrease w unit p m pr sd0 acc cw fl = Ok (p1, m', rep) -> dr_remove rep = true ->
  dr_size_delta rep = size_usd p /\ dr_sdt rep = size_tok p.
Proof.
  intros w Hw unit p m pr sd0 acc cw fl p1 m' rep HS HT HC H R.
  destruct (decrease_spec w Hw unit _ _ _ _ _ _ _ _ _ _ HS HT HC H) as (_ & _ & _ & U & T & _ & Rm & _).
  destruct (Rm R) as (Z1 & Z2 & _). lia.
Qed.

(* 6. the invariant holds initially: no open interest, empty positions *)
Theorem c07_init : forall prim si fee imp bf tb fal fas cfal cfas vs vp n l c,
  let z := MkPool 0 0 in
  world_ok (MkMState prim si fee z z z z imp bf tb fal fas cfal cfas z z vs vp, repeat (MkPos l c 0 0 0 0 0 0 0) n) = true.
Proof.
  intros. apply world_ok_iff. split.
  - intros l' c'. cbn [fst snd].
    rewrite !sum_over_zero by (intros q Hq; apply repeat_spec in Hq; subst q; reflexivity).
    destruct l', c'; repeat split; reflexivity.
  - cbn [snd]. apply Forall_forall. intros x Hx. apply repeat_spec in Hx. subst x. right. repeat split; reflexivity.
Qed.

(* non-vacuity: a concrete history (u64/9, the crate's test configuration): two increases, a partial
   decrease with collateral withdrawal, a full close, a rejected over-sized decrease *)
Definition ex_cfg : config :=
  MkConfig (MkPosParams 1000000000 1000000000 10000000 None 5000000 5000000 2500000) (MkImpactParams 2000000000 1 2)
           (MkFeeParams 500000 700000 370000000 None) 370000000 2000000 370000000 1000000000 1000000000
           500000000 500000000 0 18446744073709551615 0 10000.
Definition ex_s0 : mstate :=
  let z := MkPool 0 0 in MkMState (MkPool 1000000000 1000000000) z z z z z z z z z z z z z z z None None.
Definition ex_ps0 := [MkPos true true 0 0 0 0 0 0 0; MkPos false false 0 0 0 0 0 0 0].
Definition pr123 := MkPrices (MkPrice 123 123) (MkPrice 123 123) (MkPrice 1 1).
Definition pr125 := MkPrices (MkPrice 125 125) (MkPrice 125 125) (MkPrice 1 1).
Definition ex_ops := [OpInc 0 pr123 100000000 80000000000 None; OpInc 1 pr123 20000000000 40000000000 None;
                      OpDec 0 pr125 40000000000 None 100000000 (MkFlags false false false);
                      OpDec 1 pr125 40000000000 None 0 (MkFlags false false false);
                      OpDec 0 pr125 50000000000 None 0 (MkFlags false false false)].
Example c07_ex_init : world_ok (ex_s0, ex_ps0) = true.
Proof. vm_compute. reflexivity. Qed.
Example c07_ex_run :
  let wd := run 64 (10 ^ 9) ex_cfg (ex_s0, ex_ps0) ex_ops in
  size_usd (get_pos (snd wd) 0) = 40000000000 /\ size_tok (get_pos (snd wd) 0) = 325203199 /\
  coll (get_pos (snd wd) 0) = 99544716 /\ s_oi_long (fst wd) = MkPool 40000000000 0 /\
  size_usd (get_pos (snd wd) 1) = 0 /\ world_ok wd = true.
Proof. vm_compute. repeat split; reflexivity. Qed.
