(* C10 — open-then-close: lemmas about the two mechanisms the property names
   (token rounding against the trader; impact caps). *)
From GV Require Import lib.Base lib.DivLemmas C01.Model C01.Proofs PS.Model PS.Lemmas PS.Actions C11.Proofs C07.Proofs C08.Proofs.
Open Scope Z_scope.

Definition price_ordered (p : price) : Prop := 0 < pmin p <= pmax p.

Section P.
  Variable w : Z.
  Hypothesis Hw : 1 <= w.
  Variable unit : Z.
  Hypothesis Hunit : 0 < unit.

  (* the tokens bought by an increase, given the (capped) impact value [piv] *)
  Definition tokens_ok (long : bool) (index : price) (sd piv sdt : Z) : Prop :=
    if long then sdt * pmin index - sd <= piv else sd - sdt * pmax index <= piv.

  Lemma increase_tokens (long : bool) (index : price) (sd piv pia base sdt : Z) :
    price_ordered index -> 0 <= sd ->
    (if 0 <? piv then (pm <-- rsigned w (pmax index) ;; of_opt E_COMP (sdiv w piv pm))
     else of_opt E_COMP (round_up_mag_div w (pmin index) piv)) = Ok pia ->
    (if long then udiv w sd (pmax index) else round_up_div w sd (pmin index)) = Some base ->
    (if long then add_with_signed w base pia else sub_with_signed w base pia) = Some sdt ->
    tokens_ok long index sd piv sdt.
  Proof.
    intros [Hmin Hmax] Hsd Hpia Hbase Hsdt. unfold tokens_ok.
    (* the impact amount rounds against the trader whichever of the two prices values it *)
    assert (Hp : pia * pmin index <= piv /\ pia * pmax index <= piv).
    { destruct (Z.ltb_spec 0 piv) as [E|E].
      - bind_ok Hpia as pm Epm. apply rsigned_ok in Epm. destruct Epm as [_ ->].
        ok_inj Hpia. apply sdiv_some in Hpia. destruct Hpia as (_ & _ & ->). rewrite quot_nonneg_div by lia.
        pose proof (div_floor_spec piv (pmax index) ltac:(lia)) as Hf.
        assert (H0 : 0 <= piv / pmax index) by (apply div_nonneg; lia).
        revert Hf H0. generalize (piv / pmax index). clear - Hmin Hmax. intros q Hf H0. nia.
      - ok_inj Hpia. apply round_up_mag_div_sound in Hpia; [|lia..]. destruct Hpia as (_ & Hb & _ & Hn).
        clear - Hmin Hmax E Hb Hn. destruct (Z.eq_dec piv 0) as [->|Hne]; [assert (pia = 0) by nia; subst pia; lia|].
        specialize (Hn ltac:(lia)). nia. }
    destruct Hp as [Hp1 Hp2]. destruct long.
    - apply udiv_some in Hbase. destruct Hbase as [_ ->].
      apply add_with_signed_exact in Hsdt; [|lia|apply div_nonneg; lia]. destruct Hsdt as [-> _].
      pose proof (div_floor_spec sd (pmax index) ltac:(lia)) as Hf.
      assert (H0 : 0 <= sd / pmax index) by (apply div_nonneg; lia).
      revert Hf H0. generalize (sd / pmax index). clear - Hmin Hmax Hp1. intros q Hf H0. nia.
    - apply round_up_div_sound in Hbase; [|lia..]. destruct Hbase as [_ Hc0].
      apply sub_with_signed_exact in Hsdt; [|lia|nia]. destruct Hsdt as [-> _].
      clear - Hmin Hmax Hsd Hp2 Hc0. nia.
  Qed.

  (* the tokens bought on open and the price picked on close round against the trader, so the
     total pnl of a freshly opened position at the SAME prices is at most the impact value it received *)
  Theorem open_pnl_le_impact p m pr ci sd acc p1 m' rep :
    size_usd p = 0 -> price_ordered (p_index pr) -> 0 <= sd ->
    increase w unit p m pr ci sd acc = Ok (p1, m', rep) ->
    size_usd p1 = sd /\ size_tok p1 = ir_sdt rep /\ exact_total p1 pr <= ir_impact_value rep.
  Proof.
    intros Hempty Hord Hsd H.
    destruct (increase_spec w Hw unit _ _ _ _ _ _ _ _ _ H) as (_ & L & _ & S1 & T1 & _ & S0 & _).
    rewrite Hempty in S1, T1. cbn in S1, T1. split; [exact S1|]. split; [exact T1|].
    destruct (increase_inv w Hw unit _ _ _ _ _ _ _ _ _ H) as (change & tc & fr & fpl & m1 & m2 & cs & m4 & m5 & Par & _).
    unfold inc_params in Par. replace (sd =? 0) with false in Par by (symmetry; apply Z.eqb_neq; lia).
    destruct Par as (base & _ & F3 & F4 & F5).
    pose proof (increase_tokens _ _ _ _ _ _ _ Hord Hsd F3 F4 F5) as HT.
    unfold exact_total, tokens_ok in *. rewrite L, S1, T1. destruct (is_long p); exact HT.
  Qed.

  Lemma decrease_parts p m pr sd0 acc cw fl p1 m' rep :
    decrease w unit p m pr sd0 acc cw fl = Ok (p1, m', rep) ->
    pnl_value w unit p m pr (dr_size_delta rep) = Ok (dr_pnl rep, dr_uncapped_pnl rep, dr_sdt rep) /\
    ((dr_size_delta rep = 0 /\ dr_impact_value rep = 0 /\ dr_impact_diff rep = 0) \/
     (dr_size_delta rep <> 0 /\ exists change,
        capped_impact w unit p m (p_index pr) (- dr_size_delta rep) = Ok (dr_impact_value rep, change, dr_impact_diff rep))).
  Proof.
    intros H. destruct (decrease_inv w Hw unit _ _ _ _ _ _ _ _ _ _ H)
      as (sd1 & change & fs & st & rc & o1 & m2 & nc & o2 & cs & _ & _ & (Ecap & Epnl & _) & _).
    split; [exact Epnl|]. destruct (Z.eqb_spec (dr_size_delta rep) 0) as [E0|E0].
    - left. exact (conj E0 Ecap).
    - right. split; [exact E0|]. exists change. exact Ecap.
  Qed.

  (* the caps.  A negative impact passes the positive cap unchanged; a non-negative one is cut to the value
     of the impact pool and to the max positive factor of the size *)
  Lemma cap_positive_spec m index sd raw v :
    0 <= pp_max_pos_impact (c_pos (m_cfg m)) ->
    cap_positive_impact w unit m index sd raw = Ok v ->
    (raw < 0 -> v = raw) /\
    (0 <= raw -> 0 <= v <= raw /\ v <= pl (m_impact m) * pmin index /\
                 v <= Z.abs sd * pp_max_pos_impact (c_pos (m_cfg m)) / unit).
  Proof.
    intros Hf H. unfold cap_positive_impact in H. destruct (Z.ltb_spec raw 0) as [Er|Er].
    - injection H as <-. split; [reflexivity|lia].
    - bind_ok H as mx F1. apply umul_some in F1. destruct F1 as [R1 ->].
      bind_ok H as mx' F2. apply rsigned_ok in F2. destruct F2 as [_ ->].
      bind_ok H as mf F3. apply af_ok in F3; [|lia..]. destruct F3 as [-> R3].
      bind_ok H as mf' F4. apply rsigned_ok in F4. destruct F4 as [_ ->]. injection H as <-.
      split; [lia|]. intros _. revert R1 R3.
      generalize (pl (m_impact m) * pmin index) (Z.abs sd * pp_max_pos_impact (c_pos (m_cfg m)) / unit).
      clear - Er. intros A B R1 R3.
      destruct (Z.ltb_spec A raw); [destruct (Z.ltb_spec B A)|destruct (Z.ltb_spec B raw)]; lia.
  Qed.

  (* a negative impact is cut at the max negative factor of the size; the excess is the impact diff *)
  Lemma cap_negative_spec m sd v i2 diff :
    0 <= pp_max_neg_impact (c_pos (m_cfg m)) ->
    cap_negative_impact w unit m sd false v = Ok (i2, diff) ->
    diff = i2 - v /\ (0 <= v -> i2 = v) /\
    (v < 0 -> i2 = Z.max v (- (Z.abs sd * pp_max_neg_impact (c_pos (m_cfg m)) / unit))).
  Proof.
    intros Hf H. unfold cap_negative_impact in H. destruct (Z.ltb_spec v 0) as [Ev|Ev].
    - bind_ok H as lim G1. apply af_ok in G1; [|lia..]. destruct G1 as [-> R1].
      bind_ok H as mn G2. apply ropp_val in G2. subst mn. revert H.
      generalize (Z.abs sd * pp_max_neg_impact (c_pos (m_cfg m)) / unit). clear - Ev. intros CN H.
      destruct (Z.ltb_spec v (- CN)).
      + bind_ok H as d G3. apply ssub_some in G3. destruct G3 as [_ ->]. injection H as <- <-. lia.
      + injection H as <- <-. lia.
    - injection H as <- <-. lia.
  Qed.

  Lemma capped_impact_bounds p m index sd v change diff :
    0 <= pp_max_pos_impact (c_pos (m_cfg m)) -> 0 <= pp_max_neg_impact (c_pos (m_cfg m)) ->
    capped_impact w unit p m index sd = Ok (v, change, diff) ->
    - (Z.abs sd * pp_max_neg_impact (c_pos (m_cfg m)) / unit) <= v /\
    v <= Z.max 0 (Z.min (pl (m_impact m) * pmin index) (Z.abs sd * pp_max_pos_impact (c_pos (m_cfg m)) / unit)) /\
    0 <= diff /\
    (exists raw, position_price_impact w unit p m sd = Ok (raw, change) /\ (diff <> 0 -> v - diff = raw /\ raw < v <= 0)).
  Proof.
    intros Hpos Hneg H. unfold capped_impact in H.
    bind_ok H as imp E1. unfold capped_positive_impact in E1. bind_ok E1 as raw E2. destruct raw as [raw ch].
    bind_ok E1 as v1 E3. injection E1 as <-. cbn [fst snd] in *.
    bind_ok H as c E4. destruct c as [v2 d2]. injection H as <- <- <-. cbn [fst snd].
    apply cap_positive_spec in E3; [|assumption]. apply cap_negative_spec in E4; [|assumption].
    assert (H0 : 0 <= Z.abs sd * pp_max_neg_impact (c_pos (m_cfg m)) / unit) by (apply mul_div_nonneg; [apply Z.abs_nonneg|assumption..]).
    enough (G : - (Z.abs sd * pp_max_neg_impact (c_pos (m_cfg m)) / unit) <= v2 /\
                v2 <= Z.max 0 (Z.min (pl (m_impact m) * pmin index) (Z.abs sd * pp_max_pos_impact (c_pos (m_cfg m)) / unit)) /\
                0 <= d2 /\ (d2 <> 0 -> v2 - d2 = raw /\ raw < v2 <= 0))
      by (destruct G as (G1 & G2 & G3 & G4); repeat split; try assumption; exists raw; split; assumption).
    revert E3 E4 H0.
    generalize (pl (m_impact m) * pmin index) (Z.abs sd * pp_max_pos_impact (c_pos (m_cfg m)) / unit)
               (Z.abs sd * pp_max_neg_impact (c_pos (m_cfg m)) / unit). clear. lia.
  Qed.

  (* open on an empty position, then close it entirely at the same prices: the pnl credited by the close is
     at most the (capped) impact value received when opening *)
  Theorem roundtrip_pnl_le_open_impact p m pr ci sd acc p1 m1 ir sd' acc' cw fl p2 m2 dr :
    size_usd p = 0 -> price_ordered (p_index pr) -> 0 <= sd -> prices_nonneg pr -> pnl_market_nonneg m1 ->
    increase w unit p m pr ci sd acc = Ok (p1, m1, ir) ->
    decrease w unit p1 m1 pr sd' acc' cw fl = Ok (p2, m2, dr) -> dr_remove dr = true ->
    dr_size_delta dr = sd /\ dr_sdt dr = ir_sdt ir /\
    dr_pnl dr <= dr_uncapped_pnl dr /\ dr_uncapped_pnl dr = exact_total p1 pr /\ exact_total p1 pr <= ir_impact_value ir.
  Proof.
    intros Hempty Hord Hsd Hpr Hm Hinc Hdec Hrm.
    pose proof (open_pnl_le_impact _ _ _ _ _ _ _ _ _ Hempty Hord Hsd Hinc) as (S1 & T1 & Htot).
    pose proof (increase_spec w Hw unit _ _ _ _ _ _ _ _ _ Hinc) as (_ & _ & _ & _ & _ & _ & P1 & P2 & P3 & _).
    pose proof (decrease_spec w Hw unit _ _ _ _ _ _ _ _ _ _ P1 P2 P3 Hdec) as (_ & _ & _ & U & T & _ & R1 & _).
    destruct (R1 Hrm) as (Z1 & Z2 & _).
    assert (HD : dr_size_delta dr = size_usd p1) by lia. assert (HT : dr_sdt dr = size_tok p1) by lia.
    destruct (decrease_parts _ _ _ _ _ _ _ _ _ _ Hdec) as [Hpnl _].
    assert (Hpos : pos_nonneg p1) by (split; lia).
    assert (Hd0 : 0 <= dr_size_delta dr) by lia.
    pose proof (pnl_le_uncapped w Hw unit Hunit _ _ _ _ _ _ _ Hpos Hpr Hm Hd0 Hpnl) as (L1 & _).
    destruct (pnl_value_spec w Hw unit Hunit _ _ _ _ _ _ _ Hpos Hpr Hm Hd0 Hpnl) as (tc & _ & _ & _ & _ & _ & Hb & _).
    rewrite HT in Hb. rewrite Z.mul_comm, Z.quot_mul in Hb by lia.
    repeat split; lia.
  Qed.
End P.
