(* C13 — proofs: the per-second factor is unsigned; the cumulative factors only grow; every step
   keeps total_borrowing = sum of the per-position floors. *)
From GV Require Import lib.Base lib.DivLemmas C01.Proofs C13.Model.
Open Scope Z_scope.

(* sums over the positions of one side: [contrib] is a position's rounded share of total_borrowing,
   [exact] the same product before rounding, [one] counts the side's positions (rounding bound) *)
Definition contrib (unit : Z) (l : bool) (x : bpos) : Z :=
  if Bool.eqb (x_long x) l then x_size x * x_bf x / unit else 0.
Definition sizeof (l : bool) (x : bpos) : Z := if Bool.eqb (x_long x) l then x_size x else 0.
Definition exact (l : bool) (x : bpos) : Z := if Bool.eqb (x_long x) l then x_size x * x_bf x else 0.
Definition one (l : bool) (x : bpos) : Z := if Bool.eqb (x_long x) l then 1 else 0.
Fixpoint zsum (f : bpos -> Z) (xs : list bpos) : Z :=
  match xs with [] => 0 | x :: r => f x + zsum f r end.

Lemma zsum_set_nth f xs i x x' : nth_error xs i = Some x ->
  zsum f (set_nth xs i x') = zsum f xs - f x + f x'.
Proof.
  revert i. induction xs as [|y r IH]; intros i H.
  - destruct i; discriminate.
  - destruct i; cbn in *.
    + injection H as ->. lia.
    + rewrite (IH _ H). lia.
Qed.

Lemma Forall_set_nth {A} (P : A -> Prop) l i v : Forall P l -> P v -> Forall P (set_nth l i v).
Proof.
  intros H Hv. revert i. induction H as [|x l Hx Hl IH]; intros i; cbn.
  - destruct i; constructor.
  - destruct i; constructor; auto.
Qed.

Section P.
  Variable w : Z.
  Hypothesis Hw : 1 <= w.
  Variable unit : Z.
  Hypothesis Hunit : 0 < unit.

  Lemma kink_range c e l reserved pv f : kink w unit c e l reserved pv = Ok (Some f) -> 0 <= f < 2 ^ w.
  Proof.
    unfold kink. destruct ((if l then k_opt_l c else k_opt_s c) =? 0); [discriminate|].
    intros H. bind_ok H as usage E1. bind_ok H as b E2. apply apply_factor_range in E2.
    destruct (((if l then k_opt_l c else k_opt_s c) <? usage) && ((if l then k_opt_l c else k_opt_s c) <? unit)).
    - bind_ok H as df E3. bind_ok H as add E4. bind_ok H as divisor E5. bind_ok H as r E6. injection H as <-.
      apply obind_some in E6. destruct E6 as (a & _ & E6). apply uadd_some in E6. lia.
    - injection H as <-. exact E2.
  Qed.

  Lemma bfps_range c e l f : bfps w unit c e l = Ok f -> 0 <= f < 2 ^ w.
  Proof.
    unfold bfps. intros H. bind_ok H as reserved E1.
    destruct (reserved =? 0); [injection H as <-; lia|].
    destruct (b_skip c && ((l && (e_oi_l e <? e_oi_s e)) || (negb l && (e_oi_s e <? e_oi_l e)))); [injection H as <-; lia|].
    bind_ok H as pv E2. destruct (pv =? 0); [discriminate|].
    bind_ok H as k E3. destruct k as [g|].
    - injection H as <-. eapply kink_range; eassumption.
    - bind_ok H as rae E4. bind_ok H as rtp E5. apply of_opt_ok in H. eapply apply_factor_range; eassumption.
  Qed.

  Lemma next_cum_spec c e s l dur nx d : 0 <= dur ->
    next_cum w unit c e s l dur = Ok (nx, d) ->
    0 <= d < 2 ^ w /\ nx = cum s l + d /\ 0 <= cum s l + d < 2 ^ w.
  Proof.
    intros Hd. unfold next_cum. intros H. bind_ok H as f E1. apply bfps_range in E1.
    bind_ok H as delta E2. apply umul_some in E2. bind_ok H as n E3. apply uadd_some in E3.
    injection H as <- <-. lia.
  Qed.

  Lemma pool_apply_ok p d r : pool_apply w p d = Ok r -> r = p + d /\ 0 <= r < 2 ^ w.
  Proof.
    unfold pool_apply. destruct (Z.ltb_spec 0 d) as [L|L]; intros H; apply of_opt_ok in H;
      [apply uadd_some in H|apply usub_some in H]; lia.
  Qed.

  Lemma exec_side_spec c e s l dur n s' : 0 <= dur ->
    exec_side w unit c e s l dur = Ok (n, s') ->
    exists d, 0 <= d /\ n = cum s l + d /\ n < 2 ^ w /\ s' = set_cum s l n.
  Proof.
    intros Hd. unfold exec_side. intros H. bind_ok H as r E1. destruct r as [nx d].
    apply next_cum_spec in E1; [|assumption]. destruct E1 as (D1 & -> & D3). cbn [fst snd] in *.
    bind_ok H as ds E2. apply to_signed_some in E2. destruct E2 as [E2 ->].
    bind_ok H as v E3. apply pool_apply_ok in E3. injection H as <- <-.
    exists d. repeat split; try lia. f_equal. lia.
  Qed.

  Definition cum_ok (s : bstate) : Prop := 0 <= cum_l s < 2 ^ w /\ 0 <= cum_s s < 2 ^ w.

  Theorem execute_monotone c e s now d nl ns s' : cum_ok s ->
    execute w unit c e s now = Ok (d, nl, ns, s') ->
    cum_l s <= cum_l s' /\ cum_s s <= cum_s s' /\ cum_ok s' /\
    tb_l s' = tb_l s /\ tb_s s' = tb_s s /\ b_clock s' = now /\
    nl = cum_l s' /\ ns = cum_s s' /\ d = Z.max 0 (now - b_clock s).
  Proof.
    intros [Cl Cs]. unfold execute. intros H.
    bind_ok H as r1 E1. destruct r1 as [n1 s1]. cbn [fst snd] in *.
    bind_ok H as r2 E2. destruct r2 as [n2 s2]. cbn [fst snd] in *. injection H as <- <- <- <-.
    apply exec_side_spec in E1; [|unfold elapsed; lia].
    destruct E1 as (d1 & D1 & -> & R1 & ->). cbn [cum set_cum cum_l cum_s tb_l tb_s b_clock] in *.
    apply exec_side_spec in E2; [|unfold elapsed; lia].
    destruct E2 as (d2 & D2 & -> & R2 & ->). cbn [cum set_cum cum_l cum_s tb_l tb_s b_clock] in *.
    unfold cum_ok, elapsed; cbn. repeat split; lia.
  Qed.

  Lemma pos_change_spec s x n s' x' : 0 <= x_size x -> 0 <= x_bf x -> 0 <= n -> 0 <= cum s (x_long x) ->
    pos_change w unit s x n = Ok (s', x') ->
    x' = BP (x_long x) n (cum s (x_long x)) /\
    s' = set_tb s (x_long x) (tb s (x_long x) + n * cum s (x_long x) / unit - x_size x * x_bf x / unit) /\
    0 <= tb s' (x_long x) < 2 ^ w.
  Proof.
    intros Hs Hb Hn Hc. unfold pos_change. intros H.
    bind_ok H as prev E1. apply apply_factor_exact in E1; [|lia..]. destruct E1 as [-> _].
    bind_ok H as nxt E2. apply apply_factor_exact in E2; [|lia..]. destruct E2 as [-> _].
    bind_ok H as delta E3.
    assert (0 <= x_size x * x_bf x / unit) by (apply div_nonneg; nia).
    assert (0 <= n * cum s (x_long x) / unit) by (apply div_nonneg; nia).
    apply signed_sub_exact in E3; [|lia..]. destruct E3 as [-> _].
    bind_ok H as t E4. apply pool_apply_ok in E4. destruct E4 as [-> Ht]. injection H as <- <-.
    split; [reflexivity|]. split; [f_equal; lia|]. unfold tb, set_tb in *. destruct (x_long x); cbn in *; lia.
  Qed.

  Definition pos_wf (s : bstate) (x : bpos) : Prop := 0 <= x_size x /\ 0 <= x_bf x <= cum s (x_long x).

  Definition inv (st : bstate * list bpos) : Prop :=
    let '(s, xs) := st in
    tb_l s = zsum (contrib unit true) xs /\ tb_s s = zsum (contrib unit false) xs /\
    Forall (pos_wf s) xs /\ cum_ok s.

  Definition op_ok (o : bop) : Prop := match o with OPos _ n => 0 <= n | OUpd _ _ => True end.

  Lemma cum_set_tb s l v l' : cum (set_tb s l v) l' = cum s l'.
  Proof. unfold cum, set_tb. destruct l, l'; reflexivity. Qed.

  Lemma pos_wf_mono s s' x : cum_l s <= cum_l s' -> cum_s s <= cum_s s' -> pos_wf s x -> pos_wf s' x.
  Proof. unfold pos_wf, cum. destruct (x_long x); lia. Qed.

  Theorem hstep_inv c st o : op_ok o -> inv st ->
    let st' := hstep w unit c st o in
    inv st' /\ cum_l (fst st) <= cum_l (fst st') /\ cum_s (fst st) <= cum_s (fst st').
  Proof.
    intros Ho Hi. destruct st as [s xs].
    assert (Same : inv (s, xs) /\ cum_l s <= cum_l s /\ cum_s s <= cum_s s) by (split; [exact Hi|lia]).
    destruct Hi as (T1 & T2 & F & C). cbn [fst].
    destruct o as [now e|i n]; cbn [hstep].
    - destruct (execute w unit c e s now) as [[[[d nl] ns] s']|k] eqn:E; [|exact Same].
      apply execute_monotone in E; [|assumption].
      destruct E as (M1 & M2 & C' & B1 & B2 & _). cbn [fst]. split; [|lia].
      unfold inv. rewrite B1, B2. split; [exact T1|]. split; [exact T2|]. split; [|exact C'].
      eapply Forall_impl; [|exact F]. intros x Hx. eapply pos_wf_mono; eassumption.
    - destruct (nth_error xs i) as [x|] eqn:En; [|exact Same].
      destruct (pos_change w unit s x n) as [[s' x']|k] eqn:E; [|exact Same].
      pose proof (proj1 (Forall_forall _ _) F x (nth_error_In _ _ En)) as (Hs & Hb1 & Hb2).
      destruct C as [Cl Cs].
      apply pos_change_spec in E; try assumption; [|unfold cum; destruct (x_long x); lia].
      destruct E as (-> & -> & _). cbn [fst]. set (t := tb s (x_long x) + _ - _).
      pose proof (cum_set_tb s (x_long x) t true) as K1. pose proof (cum_set_tb s (x_long x) t false) as K2.
      cbn [cum] in K1, K2.
      split; [|lia]. unfold inv.
      rewrite !(zsum_set_nth _ _ _ _ _ En).
      set (Z1 := zsum (contrib unit true) xs) in *. set (Z2 := zsum (contrib unit false) xs) in *.
      split; [|split; [|split]].
      + unfold t, contrib, set_tb, tb, cum; cbn [x_long x_size x_bf]. destruct (x_long x); cbn; lia.
      + unfold t, contrib, set_tb, tb, cum; cbn [x_long x_size x_bf]. destruct (x_long x); cbn; lia.
      + apply Forall_set_nth.
        * eapply Forall_impl; [|exact F]. intros y Hy. unfold pos_wf in *. rewrite cum_set_tb. exact Hy.
        * unfold pos_wf; cbn [x_long x_size x_bf]. rewrite cum_set_tb. cbn in Ho. lia.
      + unfold cum_ok. rewrite K1, K2. split; assumption.
  Qed.
End P.
