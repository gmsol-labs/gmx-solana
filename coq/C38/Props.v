(* C38 — LP staking: the time-weighted APY is the per-second average, rewards are exact and monotone,
   unstaking is a partial withdrawal or a full exit, and histories keep the vault covered. *)
From GV Require Import lib.Base C38.Model C38.Proofs.
Open Scope Z_scope.

(* Vocabulary: [twa start now grad] = compute_time_weighted_apy (None = arithmetic panic);
   [sec_sum grad n] = sum over the first n elapsed seconds t of the weekly bucket of that second,
   bucket index min(t / 604800, 52) ("weeks past the last bucket use the last one");
   [reward_amount] = calculate_gt_reward_amount; [step] = instruction semantics returning the new
   state and the requested effects (GT minted, LP tokens moved vault -> owner, vault closed). *)

(* time-weighted APY = floor(per-second sum / T), under the no-saturation bound T * cap <= u128::MAX,
   for gradients within the cap (the program keeps them there: c38_gradient_stays_capped) *)
Theorem c38_apy_is_average : forall grad, length grad = 53%nat -> (forall x, In x grad -> 0 <= x <= APY_MAX) ->
  forall start now, start < now -> (now - start) * APY_MAX <= U128MAX ->
  twa start now grad = Some (sec_sum grad (Z.to_nat (now - start)) / (now - start)).
Proof. exact twa_is_average. Qed.

(* beyond the bound the code deviates (known finding class 1) *)
Theorem c38_apy_saturation_refuted :
  exists start now grad, length grad = 53%nat /\ (forall x, In x grad -> 0 <= x <= APY_MAX) /\
    start < now /\ now - start <= I64MAX /\
    twa start now grad <> Some (sec_sum grad (Z.to_nat (now - start)) / (now - start)).
Proof. exact apy_saturation_refuted. Qed.

Theorem c38_reward_exact : forall value duration aps integral r,
  0 <= value -> 0 <= aps -> 0 <= integral ->
  reward_amount value duration aps integral = Ok r <->
  (0 <= duration /\ value * aps / UNIT < 2 ^ 128 /\ (value * aps / UNIT) * integral / UNIT < 2 ^ 128 /\
   r = Z.min ((value * aps / UNIT) * integral / UNIT) U64MAX).
Proof. exact reward_exact. Qed.

Theorem c38_reward_monotone : forall v1 v2 d a i1 i2 r1 r2,
  0 <= v1 <= v2 -> 0 <= a -> 0 <= i1 <= i2 ->
  reward_amount v1 d a i1 = Ok r1 -> reward_amount v2 d a i2 = Ok r2 -> r1 <= r2.
Proof. exact reward_monotone. Qed.

(* unstake: partial returns exactly the requested tokens and keeps the proportional rounded-down
   value; a full exit (requested, or promoted because the remaining value falls below the minimum)
   sweeps the whole vault and closes it *)
Theorem c38_unstake_cases : forall s amount now cum s' e,
  step s (Unstake amount now cum) = Ok (s', e) ->
  exists p reward cum_now, s_pos s = Some p /\ compute_reward s p now cum = Ok (reward, cum_now) /\
    e_mint e = reward /\ 0 < amount <= p_amount p /\
    (s_claim s = false -> amount = p_amount p) /\
    ((s_pos s' = None /\ e_transfer e = s_vault s /\ e_close e = true /\ s_vault s' = 0 /\ s_npos s' = s_npos s - 1 /\
      (amount = p_amount p \/
       (amount < p_amount p /\ p_value p * (p_amount p - amount) / p_amount p < s_min s))) \/
     (exists nv, s_pos s' = Some (mkpos (p_amount p - amount) nv (p_start p) cum_now) /\
      amount < p_amount p /\ nv = p_value p * (p_amount p - amount) / p_amount p /\ s_min s <= nv /\
      e_transfer e = amount /\ e_close e = false /\ s_vault s' = s_vault s - amount /\ s_npos s' = s_npos s)) /\
    s_grad s' = s_grad s /\ s_min s' = s_min s /\ s_claim s' = s_claim s.
Proof. exact unstake_cases. Qed.

Theorem c38_claims_disabled_only_full : forall s, s_claim s = false ->
  (forall now cum, exists k, step s (Claim now cum) = Err k) /\
  (forall amount now cum s' e, step s (Unstake amount now cum) = Ok (s', e) ->
     s_pos s' = None /\ e_transfer e = s_vault s /\ e_close e = true).
Proof. exact claims_disabled_only_full. Qed.

(* histories: the gradient stays within the cap, the vault covers the staked amount, the recorded
   value never exceeds the proportional share of the initially staked value *)
Theorem c38_history_invariant : forall A0 V0 ops, 0 < A0 -> 0 <= V0 -> forall s, Inv A0 V0 s -> Forall op_wf ops ->
  Inv A0 V0 (run s ops).
Proof. exact run_Inv. Qed.

Theorem c38_gradient_stays_capped : forall A0 V0 ops s, 0 < A0 -> 0 <= V0 -> Inv A0 V0 s -> Forall op_wf ops ->
  length (s_grad (run s ops)) = 53%nat /\ forall x, In x (s_grad (run s ops)) -> 0 <= x <= APY_MAX.
Proof. intros A0 V0 ops s HA HV I F. apply (i_grad _ _ _ (run_Inv A0 V0 ops HA HV s I F)). Qed.

(* tokens: vault balance + everything returned = initial balance + everything sent to the vault *)
Theorem c38_token_conservation : forall ops s,
  s_vault (run s ops) + returned s ops = s_vault s + dust_of ops.
Proof. exact token_conservation. Qed.

Example c38_ex_twa :
  twa 1000 (1000 + 604800 * 2 + 100) (150 * 10 ^ 18 :: 100 * 10 ^ 18 :: repeat (50 * 10 ^ 18) 51)
  = Some ((150 * 10 ^ 18 * 604800 + 100 * 10 ^ 18 * 604800 + 50 * 10 ^ 18 * 100) / (604800 * 2 + 100)).
Proof. vm_compute. reflexivity. Qed.

Example c38_ex_unstake :
  let s := mkstate (repeat (10 ^ 20) 53) 500 true false 2000000 (3 * 10 ^ 24) 1 (Some (mkpos 1000 9999 1000000 (10 ^ 24))) 1007 in
  (exists s' e, step s (Unstake 400 0 0) = Ok (s', e) /\ e_transfer e = 400 /\
      s_pos s' = Some (mkpos 600 5999 1000000 (3 * 10 ^ 24)) /\ s_vault s' = 607) /\
  (exists s' e, step s (Unstake 960 0 0) = Ok (s', e) /\ e_transfer e = 1007 /\ s_pos s' = None /\ e_close e = true).
Proof. split; eexists; eexists; vm_compute; repeat split; reflexivity. Qed.

(* total on all inputs *)
Theorem c38_apy_total : forall start now grad, exists r, twa start now grad = Some r.
Proof. intros start now grad. unfold twa. destruct (now <=? start); eauto. Qed.
