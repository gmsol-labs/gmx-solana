(* C24 — property theorems only.  [tok_range] / [env_range] are the Rust field types (u8 / u32 / u64 /
   i64 / u128) of the token config, the feed account, the clock and the store limits. *)
From GV Require Import lib.Base C26.Model C27.Model C29.Model C29.Proofs C24.Model C24.Proofs.
Open Scope Z_scope.

(* Everything established about one token when it is accepted (one loop iteration of
   set_prices_from_remaining_accounts): known enabled token, program-owned feed account of the expected
   provider with the configured feed id, openness, heartbeat, adjusted timestamp, age, future excess,
   and the price is the C29 pipeline applied to the C26 conversions of the feed prices. *)
Theorem c24_process_ok : forall e ac t a,
  process e ac t = Ok a ->
  match t with
  | Tok in_map enabled td prec heartbeat allow ratio adj policy expected owner_ok provider feed_ok
        dec_ pflags status lud ts price mn mx slot =>
      in_map = true /\ enabled = true /\ owner_ok = true /\ provider = 0 /\ expected = provider /\ feed_ok = true /\
      a_open a = is_market_open status pflags lud ts (now e) heartbeat policy /\
      (ac = false -> a_open a = true) /\
      (ts < now e -> now e - ts <= heartbeat) /\
      a_ts a = ts - adj /\ - 2 ^ 63 <= ts - adj /\ ts - adj + max_age e < 2 ^ 63 /\
      now e <= ts - adj + max_age e /\ ts <= sat_add_u64 (now e) (max_future e) /\
      a_slot a = slot /\
      exists pr rf adjusted,
        try_to_price mn mx dec_ td prec = Ok pr /\
        try_from_price price dec_ td prec = Ok rf /\
        pipeline allow (factor_of ratio) pr (Some rf) = Ok (adjusted, (a_mult a, a_min a, a_max a))
  end.
Proof. exact process_ok. Qed.

(* well-formed: 0 < min <= max, one multiplier (the record has a single one), representable *)
Theorem c24_accepted_wellformed : forall e ac t a, tok_range t -> process e ac t = Ok a ->
  0 < a_min a <= a_max a /\ a_max a < 2 ^ 32 /\ 0 <= a_mult a <= 20.
Proof. exact accepted_wellformed. Qed.

Theorem c24_accepted_expected_source : forall e ac t a, process e ac t = Ok a ->
  match t with Tok in_map enabled _ _ _ _ _ _ _ expected owner_ok provider feed_ok _ _ _ _ _ _ _ _ _ =>
    in_map = true /\ enabled = true /\ owner_ok = true /\ provider = expected /\ feed_ok = true end.
Proof. exact accepted_expected_source. Qed.

(* fresh, on unbounded integers (the saturating addition is eliminated) *)
Theorem c24_accepted_fresh : forall e ac t a, tok_range t -> env_range e -> process e ac t = Ok a ->
  a_ts a = tok_ts t - tok_adj t /\
  now e <= tok_ts t - tok_adj t + max_age e /\
  tok_ts t <= now e + max_future e /\
  match t with Tok _ _ _ _ heartbeat _ _ _ _ _ _ _ _ _ _ _ _ ts _ _ _ _ => now e - ts <= heartbeat end.
Proof. exact accepted_fresh. Qed.

Theorem c24_accepted_open : forall e ac t a, process e ac t = Ok a ->
  match t with Tok _ _ _ _ heartbeat _ _ _ policy _ _ _ _ _ pflags status lud ts _ _ _ _ =>
    a_open a = is_market_open status pflags lud ts (now e) heartbeat policy end /\ (ac = false -> a_open a = true).
Proof. exact accepted_open. Qed.

(* deviation: inside reference +- configured deviation, OR one of the two known situations
   (class 2: the computed deviation is 0 and the check is skipped; class 1: inside the deviation rounded
   up to the precision step, < dev + step).  This is the complement statement of the known classes. *)
Theorem c24_accepted_in_band_partial : forall e ac t a,
  tok_range t -> process e ac t = Ok a -> tok_ratio t <> 0 ->
  let r := tok_ref t in let dev := tok_dev t in
  let umin := a_min a * 10 ^ a_mult a in let umax := a_max a * 10 ^ a_mult a in
  (r - dev <= umin /\ umax <= r + dev) \/
  dev = 0 \/
  (0 < dev /\ abs_diff umax r <= rounded_dev dev (a_mult a) /\ abs_diff umin r <= rounded_dev dev (a_mult a)
   /\ rounded_dev dev (a_mult a) < dev + 10 ^ a_mult a).
Proof. exact accepted_in_band. Qed.

(* the literal clause is refuted on both classes (same inputs as the real replays in corpus/C24) *)
Theorem c24_rounded_tolerance_refuted :
  let e := mkEnv 1700000000 3600 3600 10 in
  let t := Tok true true 8 4 60 false 1000000 0 0 0 true 0 true 4 1 0 0 1699999999 100001 100001 101002 5 in
  exists a, process e false t = Ok a /\ tok_ref t + tok_dev t < a_max a * 10 ^ a_mult a.
Proof. eexists. split; [vm_compute; reflexivity|vm_compute; reflexivity]. Qed.
Theorem c24_zero_deviation_refuted :
  let e := mkEnv 1700000000 3600 3600 10 in
  let t := Tok true true 2 18 60 false 1 0 0 0 true 0 true 18 1 0 0 1699999999 50000000 50000000 4000000000 5 in
  exists a, process e false t = Ok a /\ tok_dev t = 0 /\ 80 * tok_ref t <= a_max a * 10 ^ a_mult a.
Proof. eexists. split; [vm_compute; reflexivity|split; vm_compute; [reflexivity|discriminate]]. Qed.

(* what the wrapped operation sees: all tokens accepted, exact min / max of the adjusted timestamps,
   spread within the allowed range, result = the operation's result, cleared afterwards *)
Theorem c24_run_inside : forall st0 e ac ff n ts r st l after, 0 <= max_age e ->
  run st0 e ac ff n ts = (r, Some (st, l), after) ->
  o_cleared st0 = true /\ Forall2 (fun t a => process e ac t = Ok a) ts l /\ l <> [] /\
  o_cleared st = false /\ o_len st = Z.of_nat (length l) /\
  (forall a, In a l -> o_min_ts st <= a_ts a <= o_max_ts st /\ o_min_slot st <= a_slot a) /\
  (exists a, In a l /\ a_ts a = o_min_ts st) /\ (exists a, In a l /\ a_ts a = o_max_ts st) /\
  (exists a, In a l /\ a_slot a = o_min_slot st) /\
  0 <= o_max_ts st - o_min_ts st <= max_range e /\
  (forall a b, In a l -> In b l -> Z.abs (a_ts a - a_ts b) <= max_range e) /\
  r = (if ff then Err 7777 else Ok tt) /\ after = cleared_state.
Proof. intros st0 e ac ff n ts r st l after _. apply run_inside. Qed.

Theorem c24_operation_runs_only_on_accepted_prices : forall st0 e ac ff n ts r after,
  run st0 e ac ff n ts = (r, None, after) -> exists x, r = Err x /\ x <> 7777.
Proof. exact run_not_inside. Qed.

(* cleared after use on every path; the only early return leaves the oracle untouched *)
Theorem c24_oracle_cleared_both_paths : forall st0 e ac ff n ts,
  let '(r, _, after) := run st0 e ac ff n ts in
  (r = Err 14 /\ after = st0) \/ (r <> Err 14 /\ after = cleared_state).
Proof. exact run_clears. Qed.

Theorem c24_history_cleared : forall cs : list call, fold_left after_call cs cleared_state = cleared_state.
Proof. exact history_cleared. Qed.

Theorem c24_uncleared_start_is_rejected : forall st0 e ac ff n ts,
  o_cleared st0 = false -> Z.of_nat (length ts) <= n ->
  run st0 e ac ff n ts = (Err 15, None, cleared_state).
Proof. exact uncleared_start_is_rejected. Qed.

(* Oracle::validate_time (time.rs) *)
Theorem c24_validate_time_ok : forall st a b s,
  validate_time st a b s = Ok tt <->
  o_min_ts st <= o_max_ts st /\ o_cleared st = false /\
  (forall x, s = Some x -> x <= o_min_slot st) /\
  (forall x, a = Some x -> x <= o_min_ts st) /\
  (forall x, b = Some x -> o_max_ts st <= x).
Proof. exact validate_time_ok. Qed.

(* non-vacuity: a two-token call with an adjusted price *)
Example c24_ex1 :
  run cleared_state (mkEnv 1700000000 3600 10 10) false false 2
    [ Tok true true 8 4 60 true 1000000 5 0 0 true 0 true 4 1 0 0 1699999999 10000 9000 12000 7;
      Tok true true 6 2 60 false 0 0 0 0 true 0 true 2 1 0 0 1699999990 100 99 101 3 ]
  = (Ok tt,
     Some (mkO false 2 1699999990 1699999994 3,
           [mkAcc 8 9900 10100 true 1699999994 7; mkAcc 12 99 101 true 1699999990 3]),
     cleared_state).
Proof. vm_compute. reflexivity. Qed.
