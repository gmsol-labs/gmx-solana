(* C38 — the time-weighted APY is the per-second average while nothing saturates; the reward is exact
   and monotone; case analysis of claim and unstake; the invariant and token conservation over histories. *)
From GV Require Import lib.Base lib.DivLemmas C01.Model C01.Proofs C38.Model.
Open Scope Z_scope.

Lemma sat_add_exact a b : a + b <= U128MAX -> sat_add a b = a + b.
Proof. apply Z.min_r. Qed.
Lemma sat_mul_exact a b : a * b <= U128MAX -> sat_mul a b = a * b.
Proof. apply Z.min_r. Qed.

Lemma firstn_S_nth (l : list Z) : forall m, (m < length l)%nat -> firstn (S m) l = firstn m l ++ [nth m l 0].
Proof.
  induction l as [|a l IH]; intros m Hm; [simpl in Hm; lia|].
  destruct m as [|m]; [reflexivity|]. simpl in Hm. cbn [firstn nth app]. f_equal. apply IH. lia.
Qed.

Section Twa.
  Variable grad : list Z.

  (* bucket used by elapsed second t (weeks past the last bucket use the last one) *)
  Definition G (k : Z) : Z := bucket grad (Z.min k LAST).

  (* the average the property talks about: sum over every elapsed second *)
  Fixpoint sec_sum (n : nat) : Z :=
    match n with O => 0 | S k => sec_sum k + G (Z.of_nat k / WEEK) end.

  Fixpoint wsum (m : nat) : Z :=
    match m with O => 0 | S k => wsum k + G (Z.of_nat k) end.

  Lemma sec_sum_closed n :
    sec_sum n = WEEK * wsum (Z.to_nat (Z.of_nat n / WEEK)) + (Z.of_nat n mod WEEK) * G (Z.of_nat n / WEEK).
  Proof.
    induction n as [|n IH]; [reflexivity|].
    cbn [sec_sum]. rewrite IH. clear IH.
    set (N := Z.of_nat n). replace (Z.of_nat (S n)) with (N + 1) by lia.
    assert (HW : WEEK = 604800) by reflexivity.
    assert (HN : 0 <= N) by lia.
    destruct (Z_lt_dec (N mod WEEK + 1) WEEK) as [Hlt|Hge].
    - assert (E1 : (N + 1) / WEEK = N / WEEK) by (rewrite HW in *; lia).
      assert (E2 : (N + 1) mod WEEK = N mod WEEK + 1) by (rewrite HW in *; lia).
      rewrite E1, E2. lia.
    - assert (E1 : (N + 1) / WEEK = N / WEEK + 1) by (rewrite HW in *; lia).
      assert (E2 : (N + 1) mod WEEK = 0) by (rewrite HW in *; lia).
      assert (E3 : N mod WEEK = WEEK - 1) by (rewrite HW in *; lia).
      rewrite E1, E2, E3.
      assert (Hq : 0 <= N / WEEK) by (rewrite HW; lia).
      rewrite Z2Nat.inj_add by lia. replace (Z.to_nat 1) with 1%nat by reflexivity.
      rewrite Nat.add_1_r. cbn [wsum]. rewrite Z2Nat.id by lia. lia.
  Qed.

  Lemma wsum_beyond m : (52 <= m)%nat -> wsum m = wsum 52 + (Z.of_nat m - 52) * bucket grad LAST.
  Proof.
    intros Hm. remember 52%nat as n52 eqn:En. induction Hm as [|m Hm IH].
    - subst n52. replace (Z.of_nat 52 - 52) with 0 by reflexivity. rewrite Z.mul_0_l, Z.add_0_r. reflexivity.
    - cbn [wsum]. rewrite IH. unfold G. rewrite Z.min_r by (unfold LAST; subst n52; lia). subst n52. lia.
  Qed.

  Lemma wsum_capped full : 0 <= full ->
    wsum (Z.to_nat full) = wsum (Z.to_nat (Z.min full LAST)) + (full - Z.min full LAST) * bucket grad LAST.
  Proof.
    intros Hf. destruct (Z.le_ge_cases full LAST) as [H|H].
    - rewrite Z.min_l by exact H. lia.
    - rewrite Z.min_r by exact H. rewrite wsum_beyond by (unfold LAST in H; lia). rewrite Z2Nat.id by exact Hf. reflexivity.
  Qed.

  Hypothesis Hlen : length grad = 53%nat.

  (* the bucket index is clamped on both sides (Z.to_nat below, Z.min above) *)
  Lemma G_In k : In (G k) grad.
  Proof. unfold G, bucket. apply nth_In. rewrite Hlen. unfold LAST. lia. Qed.

  Hypothesis Hpos : forall x, In x grad -> 0 <= x.

  Lemma wsum_nonneg m : 0 <= wsum m.
  Proof. induction m as [|m IH]; [reflexivity|]. cbn [wsum]. pose proof (Hpos _ (G_In (Z.of_nat m))). lia. Qed.

  Lemma sat_fold_firstn m : (m <= 52)%nat -> WEEK * wsum m <= U128MAX ->
    fold_left (fun acc v => sat_add acc (sat_mul v WEEK)) (firstn m grad) 0 = WEEK * wsum m.
  Proof.
    induction m as [|m IH]; intros Hm Hb; [reflexivity|]. cbn [wsum] in *.
    assert (Hg : 0 <= WEEK * G (Z.of_nat m)) by (apply Z.mul_nonneg_nonneg; [discriminate|apply Hpos, G_In]).
    assert (Hw : 0 <= WEEK * wsum m) by (apply Z.mul_nonneg_nonneg; [discriminate|apply wsum_nonneg]).
    rewrite firstn_S_nth by (rewrite Hlen; lia). rewrite fold_left_app, IH by lia. cbn [fold_left].
    replace (nth m grad 0) with (G (Z.of_nat m))
      by (unfold G, bucket; rewrite Z.min_l by (unfold LAST; lia); rewrite Nat2Z.id; reflexivity).
    rewrite sat_mul_exact, sat_add_exact by lia. lia.
  Qed.

  (* Every partial sum of the code is a sum of non-negative terms of the per-second sum: while that sum
     fits in a u128 no operation saturates.  (The bound on T is for the product WEEK * (full - LAST),
     which is not a term of the sum when the last bucket is 0.) *)
  Theorem twa_exact start now :
    start < now -> now - start <= U128MAX -> sec_sum (Z.to_nat (now - start)) <= U128MAX ->
    twa start now grad = Some (sec_sum (Z.to_nat (now - start)) / (now - start)).
  Proof.
    intros Hlt HTU HU. unfold twa. destruct (now <=? start) eqn:E1; [lia|].
    set (T := now - start) in *. set (full := T / WEEK). set (rem := T mod WEEK).
    assert (HW : 0 < WEEK) by reflexivity.
    assert (Hfull : 0 <= full) by (apply Z.div_pos; lia).
    assert (Hrem : 0 <= rem < WEEK) by (apply Z.mod_pos_bound; exact HW).
    assert (HTd : T = WEEK * full + rem) by (apply Z.div_mod; lia).
    f_equal. f_equal.
    rewrite sec_sum_closed, Z2Nat.id in HU |- * by lia. fold full rem in HU |- *.
    change (bucket grad (Z.min full LAST)) with (G full).
    rewrite (wsum_capped full Hfull) in HU |- *. change (bucket grad LAST) with (G LAST) in HU |- *.
    set (c := Z.min full LAST) in *.
    assert (Hc : (Z.to_nat c <= 52)%nat) by (unfold c, LAST; lia).
    assert (Hd : 0 <= full - c) by (unfold c; lia).
    assert (Hcc : if LAST <? full then c = LAST else c = full) by (unfold c; destruct (Z.ltb_spec LAST full); lia).
    pose proof (wsum_nonneg (Z.to_nat c)) as HWc. pose proof (Hpos _ (G_In full)) as Hg. pose proof (Hpos _ (G_In LAST)) as HB.
    set (Wc := wsum (Z.to_nat c)) in *. set (g := G full) in *. set (B := G LAST) in *.
    assert (HWc' : 0 <= WEEK * Wc) by (apply Z.mul_nonneg_nonneg; lia).
    assert (HdB : 0 <= WEEK * ((full - c) * B)) by (repeat apply Z.mul_nonneg_nonneg; lia).
    assert (Hrg : 0 <= rem * g) by (apply Z.mul_nonneg_nonneg; lia).
    rewrite (sat_fold_firstn _ Hc) by (fold Wc; lia).
    replace (if LAST <? full then _ else _) with (WEEK * (Wc + (full - c) * B)).
    - destruct (Z.ltb_spec 0 rem); [rewrite (sat_mul_exact g rem), sat_add_exact; lia|].
      replace rem with 0 by lia. lia.
    - clearbody c. destruct (LAST <? full); subst c; [|lia].
      unfold LAST in *. rewrite (sat_mul_exact WEEK), sat_mul_exact, sat_add_exact; lia.
  Qed.
End Twa.

Lemma sec_sum_le grad M n : (forall k, G grad k <= M) -> sec_sum grad n <= Z.of_nat n * M.
Proof. intro H. induction n as [|n IH]; [reflexivity|]. cbn [sec_sum]. specialize (H (Z.of_nat n / WEEK)). lia. Qed.

Theorem twa_is_average grad : length grad = 53%nat -> (forall x, In x grad -> 0 <= x <= APY_MAX) ->
  forall start now, start < now -> (now - start) * APY_MAX <= U128MAX ->
  twa start now grad = Some (sec_sum grad (Z.to_nat (now - start)) / (now - start)).
Proof.
  intros Hlen Hcap start now Hlt Hb.
  apply twa_exact; [exact Hlen|intros x Hx; apply Hcap, Hx|exact Hlt| |].
  - assert (0 < APY_MAX) by reflexivity. nia.
  - apply Z.le_trans with (2 := Hb). rewrite <- (Z2Nat.id (now - start)) at 2 by lia.
    apply sec_sum_le. intro k. apply Hcap, G_In, Hlen.
Qed.

Lemma UNIT_pos : 0 < UNIT. Proof. reflexivity. Qed.

Lemma factor_eq v f : 0 <= v -> 0 <= f ->
  apply_factor 128 UNIT v f = if v * f / UNIT <? 2 ^ 128 then Some (v * f / UNIT) else None.
Proof.
  intros Hv Hf. pose proof (apply_factor_exact 128 ltac:(lia) UNIT UNIT_pos v f) as X.
  destruct (Z.ltb_spec (v * f / UNIT) (2 ^ 128)) as [L|L].
  - apply X; auto.
  - destruct (apply_factor 128 UNIT v f) as [r|]; [|reflexivity]. destruct (proj1 (X r Hv Hf) eq_refl) as [-> L']. lia.
Qed.

Theorem reward_exact value duration aps integral r :
  0 <= value -> 0 <= aps -> 0 <= integral ->
  reward_amount value duration aps integral = Ok r <->
  (0 <= duration /\ value * aps / UNIT < 2 ^ 128 /\ (value * aps / UNIT) * integral / UNIT < 2 ^ 128 /\
   r = Z.min ((value * aps / UNIT) * integral / UNIT) U64MAX).
Proof.
  intros Hv Ha Hi. unfold reward_amount.
  assert (Hps : 0 <= value * aps / UNIT) by (apply mul_div_nonneg; [assumption..|exact UNIT_pos]).
  destruct (Z.ltb_spec duration 0) as [D|D]; [split; [discriminate|lia]|].
  rewrite factor_eq by assumption.
  destruct (Z.ltb_spec (value * aps / UNIT) (2 ^ 128)) as [L1|L1]; [|split; [discriminate|lia]].
  rewrite factor_eq by assumption.
  destruct (Z.ltb_spec (value * aps / UNIT * integral / UNIT) (2 ^ 128)) as [L2|L2]; [|split; [discriminate|lia]].
  split; [intros [= <-]; auto|intros (_ & _ & _ & ->); reflexivity].
Qed.

Lemma mul_div_mono a b c d u : 0 < u -> 0 <= a <= b -> 0 <= c <= d -> a * c / u <= b * d / u.
Proof. intros Hu Ha Hc. apply div_mono_num; [exact Hu|]. apply Z.mul_le_mono_nonneg; lia. Qed.

Theorem reward_mono v1 v2 d1 d2 a1 a2 i1 i2 r1 r2 :
  0 <= v1 <= v2 -> 0 <= a1 <= a2 -> 0 <= i1 <= i2 ->
  reward_amount v1 d1 a1 i1 = Ok r1 -> reward_amount v2 d2 a2 i2 = Ok r2 -> r1 <= r2.
Proof.
  intros Hv Ha Hi H1 H2.
  apply reward_exact in H1 as (_ & _ & _ & ->); [|lia..]. apply reward_exact in H2 as (_ & _ & _ & ->); [|lia..].
  apply Z.min_le_compat_r, mul_div_mono; [exact UNIT_pos| |exact Hi]. split.
  - apply mul_div_nonneg; [lia..|exact UNIT_pos].
  - apply mul_div_mono; [exact UNIT_pos|exact Hv|exact Ha].
Qed.

Theorem reward_monotone v1 v2 d a i1 i2 r1 r2 :
  0 <= v1 <= v2 -> 0 <= a -> 0 <= i1 <= i2 ->
  reward_amount v1 d a i1 = Ok r1 -> reward_amount v2 d a i2 = Ok r2 -> r1 <= r2.
Proof. intros Hv Ha. apply reward_mono; [exact Hv|lia]. Qed.

Theorem unstake_cases s amount now cum s' e :
  step s (Unstake amount now cum) = Ok (s', e) ->
  exists p reward cum_now, s_pos s = Some p /\ compute_reward s p now cum = Ok (reward, cum_now) /\
    e_mint e = reward /\ 0 < amount <= p_amount p /\
    (s_claim s = false -> amount = p_amount p) /\
    ((* full exit: everything in the vault is swept and the vault is closed *)
     (s_pos s' = None /\ e_transfer e = s_vault s /\ e_close e = true /\ s_vault s' = 0 /\ s_npos s' = s_npos s - 1 /\
      (amount = p_amount p \/
       (amount < p_amount p /\ p_value p * (p_amount p - amount) / p_amount p < s_min s))) \/
     (* partial: exactly the requested tokens; proportional, rounded-down value; position kept *)
     (exists nv, s_pos s' = Some (mkpos (p_amount p - amount) nv (p_start p) cum_now) /\
      amount < p_amount p /\ nv = p_value p * (p_amount p - amount) / p_amount p /\ s_min s <= nv /\
      e_transfer e = amount /\ e_close e = false /\ s_vault s' = s_vault s - amount /\ s_npos s' = s_npos s)) /\
    s_grad s' = s_grad s /\ s_min s' = s_min s /\ s_claim s' = s_claim s.
Proof.
  unfold step. destruct (s_pos s) as [p|] eqn:EP; [|discriminate].
  destruct (Z.ltb_spec 0 amount) as [H0|H0]; simpl; [|discriminate]. intros H.
  apply rbind_ok in H as ([reward cum_now] & HC & H).
  destruct (Z.leb_spec amount (p_amount p)) as [H1|H1]; simpl in H; [|discriminate].
  destruct (negb (s_claim s) && negb (amount =? p_amount p)) eqn:E2; [discriminate|].
  apply rbind_ok in H as (nv & HN & H).
  exists p, reward, cum_now.
  assert (Hclaim : s_claim s = false -> amount = p_amount p).
  { intros Hc. rewrite Hc in E2. destruct (Z.eqb_spec amount (p_amount p)); [assumption|discriminate]. }
  assert (HNV : amount < p_amount p -> nv = p_value p * (p_amount p - amount) / p_amount p).
  { intros Hlt. destruct (Z.eqb_spec (p_amount p - amount) 0); [lia|]. apply of_opt_ok in HN.
    unfold mul_div in HN. destruct (p_amount p =? 0); [discriminate|]. apply chk_u_some in HN as [_ ->]. reflexivity. }
  destruct ((p_amount p - amount =? 0) || (nv <? s_min s)) eqn:EF.
  - apply rbind_ok in H as (npos & HNP & [= <- <-]). apply of_opt_ok, chk_u_some in HNP as [_ ->].
    simpl. repeat split; auto. left. repeat split.
    destruct (Z.eqb_spec (p_amount p - amount) 0); [left; lia|right].
    destruct (Z.ltb_spec nv (s_min s)); [|discriminate]. rewrite <- HNV; lia.
  - injection H as <- <-. apply orb_false_elim in EF as [ER EF].
    simpl. repeat split; auto. right. exists nv. repeat split; auto; lia.
Qed.

Theorem claim_cases s now cum s' e :
  step s (Claim now cum) = Ok (s', e) ->
  s_claim s = true /\
  exists p reward cum_now, s_pos s = Some p /\ compute_reward s p now cum = Ok (reward, cum_now) /\
    e = mkeff reward 0 false /\
    s_pos s' = Some (mkpos (p_amount p) (p_value p) (p_start p) cum_now) /\
    s_vault s' = s_vault s /\ s_npos s' = s_npos s /\ s_grad s' = s_grad s /\ s_min s' = s_min s /\ s_claim s' = s_claim s.
Proof.
  unfold step. destruct (s_pos s) as [p|] eqn:EP; [|discriminate].
  destruct (s_claim s) eqn:EC; simpl; [|discriminate]. intros H.
  apply rbind_ok in H as ([reward cum_now] & HC & [= <- <-]).
  split; [reflexivity|]. exists p, reward, cum_now. simpl. repeat split; auto.
Qed.

Theorem claims_disabled_only_full s : s_claim s = false ->
  (forall now cum, exists k, step s (Claim now cum) = Err k) /\
  (forall amount now cum s' e, step s (Unstake amount now cum) = Ok (s', e) ->
     s_pos s' = None /\ e_transfer e = s_vault s /\ e_close e = true).
Proof.
  intros Hc. split.
  - intros now cum. destruct (step s (Claim now cum)) as [[s' e]|k] eqn:E; [|eauto].
    apply claim_cases in E. destruct E as [E _]. congruence.
  - intros amount now cum s' e H. apply unstake_cases in H.
    destruct H as (p & reward & cum_now & EP & _ & _ & Ha & Hfull & [(P1 & P2 & P3 & _)|(nv & _ & Hlt & _)] & _).
    + auto.
    + specialize (Hfull Hc). lia.
Qed.

Definition op_wf (o : op) : Prop :=
  match o with
  | GradSparse _ vals | GradRange _ _ vals => Forall (fun v => 0 <= v) vals
  | Dust k => 0 <= k
  | _ => True
  end.

Lemma set_nth_length l : forall i v, length (set_nth l i v) = length l.
Proof. induction l as [|a l IH]; intros [|i] v; simpl; auto. Qed.

Lemma set_nth_In l : forall i v x, In x (set_nth l i v) -> x = v \/ In x l.
Proof.
  induction l as [|a l IH]; intros [|i] v x; simpl; try tauto.
  - intros [H|H]; auto.
  - intros [H|H]; auto. destruct (IH i v x H); auto.
Qed.

Definition grad_ok (g : list Z) : Prop := length g = 53%nat /\ forall x, In x g -> 0 <= x <= APY_MAX.

Lemma set_nth_grad_ok g i v : grad_ok g -> 0 <= v <= APY_MAX -> grad_ok (set_nth g i v).
Proof.
  intros [L A] Hv. split; [rewrite set_nth_length; exact L|].
  intros x Hx. apply set_nth_In in Hx as [->|Hx]; auto.
Qed.

Lemma sparse_apply_ok : forall idx vals g g', grad_ok g -> Forall (fun v => 0 <= v) vals ->
  sparse_apply g idx vals = Ok g' -> grad_ok g'.
Proof.
  induction idx as [|i ri IH]; intros vals g g' HG HV H; simpl in H; [injection H as <-; exact HG|].
  destruct vals as [|v rv]; [injection H as <-; exact HG|].
  destruct (negb (i <? 53)); [discriminate|]. destruct (Z.ltb_spec APY_MAX v); [discriminate|].
  inversion HV; subst. apply (IH rv (set_nth g (Z.to_nat i) v)); auto. apply set_nth_grad_ok; [exact HG|lia].
Qed.

Lemma range_apply_ok : forall vals g i g', grad_ok g -> Forall (fun v => 0 <= v) vals ->
  range_apply g i vals = Ok g' -> grad_ok g'.
Proof.
  induction vals as [|v rv IH]; intros g i g' HG HV H; simpl in H; [injection H as <-; exact HG|].
  destruct (Z.ltb_spec APY_MAX v); [discriminate|]. inversion HV; subst.
  apply (IH (set_nth g (Z.to_nat i) v) (i + 1)); auto. apply set_nth_grad_ok; [exact HG|lia].
Qed.

Lemma step_config s o s' e : step s o = Ok (s', e) ->
  match o with
  | Claim _ _ | Unstake _ _ _ | Dust _ => True
  | _ => e = no_eff /\ s_pos s' = s_pos s /\ s_vault s' = s_vault s /\
         (op_wf o -> grad_ok (s_grad s) -> grad_ok (s_grad s'))
  end.
Proof.
  intros H. destruct o as [b ok|v ok|idx vals|a b vals| | |]; simpl in H; try exact I.
  - destruct ok; [|discriminate]. injection H as <- <-. auto.
  - destruct ok; [|discriminate]. injection H as <- <-. auto.
  - destruct (negb _); [discriminate|]. apply rbind_ok in H as (g & HG & [= <- <-]).
    repeat (split; [reflexivity|]). intros W G0. exact (sparse_apply_ok _ _ _ _ G0 W HG).
  - do 3 (destruct (negb _); [discriminate|]). apply rbind_ok in H as (g & HG & [= <- <-]).
    repeat (split; [reflexivity|]). intros W G0. exact (range_apply_ok _ _ _ _ G0 W HG).
Qed.

Lemma floor_share_le val amt r A0 V0 : 0 < amt -> 0 <= r -> 0 <= val -> 0 <= A0 -> val * A0 <= V0 * amt ->
  0 <= val * r / amt /\ val * r / amt * A0 <= V0 * r.
Proof.
  intros Ha Hr Hv HA H. split; [apply mul_div_nonneg; assumption|].
  pose proof (div_floor_spec (val * r) amt Ha) as [F _]. nia.
Qed.

(* invariant: the stored gradient is within the cap; the vault holds at least the staked amount;
   the recorded value never exceeds the proportional share of the value staked initially *)
Record Inv (A0 V0 : Z) (s : state) : Prop := mkInv {
  i_grad : grad_ok (s_grad s);
  i_pos : forall p, s_pos s = Some p ->
            0 < p_amount p <= s_vault s /\ p_amount p <= A0 /\ 0 <= p_value p /\ p_value p * A0 <= V0 * p_amount p
}.

Lemma step_Inv A0 V0 s o s' e : 0 < A0 -> 0 <= V0 -> Inv A0 V0 s -> op_wf o -> step s o = Ok (s', e) -> Inv A0 V0 s'.
Proof.
  intros HA HV I W H. pose proof (step_config s o s' e H) as C.
  destruct o as [b ok|v ok|idx vals|a b vals|now cum|amount now cum|k].
  1-4: destruct C as (_ & EP & EV & EG), I as [IG IP]; constructor; [exact (EG W IG)|rewrite EP, EV; exact IP].
  - apply claim_cases in H. destruct H as (_ & p & reward & cum_now & EP & _ & _ & EP' & EV & _ & EG & _).
    destruct I as [IG IP]. constructor; [rewrite EG; exact IG|].
    intros p' Hp'. rewrite EP' in Hp'. injection Hp' as <-. simpl. rewrite EV. apply IP. exact EP.
  - apply unstake_cases in H.
    destruct H as (p & reward & cum_now & EP & _ & _ & Ha & _ & [(P1 & _)|(nv & P1 & Hlt & Hnv & Hmin & _ & _ & PV & _)] & EG & _).
    + destruct I as [IG IP]. constructor; [rewrite EG; exact IG|]. intros p' Hp'. congruence.
    + destruct I as [IG IP]. constructor; [rewrite EG; exact IG|].
      intros p' Hp'. rewrite P1 in Hp'. injection Hp' as <-. simpl.
      destruct (IP p EP) as (Q1 & Q2 & Q3 & Q4). rewrite PV, Hnv.
      destruct (floor_share_le (p_value p) (p_amount p) (p_amount p - amount) A0 V0) as [N1 N2]; [lia..|]. lia.
  - simpl in H, W. injection H as <- <-. destruct I as [IG IP]. constructor; simpl; auto.
    intros p Hp. destruct (IP p Hp) as (Q1 & Q2 & Q3 & Q4). repeat split; lia.
Qed.

Theorem run_Inv A0 V0 ops : 0 < A0 -> 0 <= V0 -> forall s, Inv A0 V0 s -> Forall op_wf ops -> Inv A0 V0 (run s ops).
Proof.
  intros HA HV s I F. rewrite Forall_forall in F. unfold run. apply fold_left_inv; [|exact I].
  intros a o Ho Ia. unfold step_total. destruct (step a o) as [[s' e]|] eqn:E; [|exact Ia].
  exact (step_Inv A0 V0 a o s' e HA HV Ia (F o Ho) E).
Qed.

(* token conservation: what the vault holds plus what was returned equals the initial balance
   plus everything anybody sent to the vault *)
Fixpoint returned (s : state) (ops : list op) : Z :=
  match ops with
  | [] => 0
  | o :: r => (match step s o with Ok (_, e) => e_transfer e | Err _ => 0 end) + returned (step_total s o) r
  end.
Fixpoint dust_of (ops : list op) : Z :=
  match ops with
  | [] => 0
  | Dust k :: r => k + dust_of r          (* sending tokens to the vault never fails *)
  | _ :: r => dust_of r
  end.

Lemma step_vault s o s' e : step s o = Ok (s', e) ->
  s_vault s' + e_transfer e = s_vault s + match o with Dust k => k | _ => 0 end.
Proof.
  intros H. pose proof (step_config s o s' e H) as C.
  destruct o as [b ok|v ok|idx vals|a b vals|now cum|amount now cum|k].
  1-4: destruct C as (-> & _ & -> & _); simpl; lia.
  - apply claim_cases in H. destruct H as (_ & p & reward & cum_now & _ & _ & -> & _ & EV & _). simpl. lia.
  - apply unstake_cases in H.
    destruct H as (p & reward & cum_now & _ & _ & _ & _ & _ & [(_ & T & _ & V & _)|(nv & _ & _ & _ & _ & T & _ & V & _)] & _); lia.
  - simpl in H. injection H as <- <-. simpl. lia.
Qed.

Theorem token_conservation ops : forall s,
  s_vault (run s ops) + returned s ops = s_vault s + dust_of ops.
Proof.
  induction ops as [|o ops IH]; intros s; [simpl; lia|].
  unfold run. cbn [fold_left returned]. fold (run (step_total s o) ops). specialize (IH (step_total s o)).
  unfold step_total in *. destruct (step s o) as [[s' e]|k] eqn:E.
  - pose proof (step_vault s o s' e E) as HV. clear E. destruct o; cbn [dust_of] in *; lia.
  - destruct o; cbn [dust_of] in *; try lia. simpl in E. discriminate.
Qed.

(* the saturating accumulation deviates from the per-second average once T * APY_MAX > u128::MAX *)
Lemma apy_saturation_refuted :
  exists start now grad, length grad = 53%nat /\ (forall x, In x grad -> 0 <= x <= APY_MAX) /\
    start < now /\ now - start <= I64MAX /\
    twa start now grad <> Some (sec_sum grad (Z.to_nat (now - start)) / (now - start)).
Proof.
  exists (- 2 ^ 62), (2 ^ 62 - 1), (repeat APY_MAX 53).
  split; [reflexivity|]. split.
  { intros x Hx. apply repeat_spec in Hx. subst. unfold APY_MAX. lia. }
  split; [lia|]. split; [unfold I64MAX; lia|].
  rewrite (sec_sum_closed (repeat APY_MAX 53)).
  set (T := 2 ^ 62 - 1 - - 2 ^ 62).
  rewrite Z2Nat.id by (unfold T; lia).
  assert (HG : forall k, G (repeat APY_MAX 53) k = APY_MAX).
  { intros k. apply (repeat_spec 53), G_In. reflexivity. }
  assert (HW : forall m, wsum (repeat APY_MAX 53) m = Z.of_nat m * APY_MAX).
  { induction m as [|m IH]; [reflexivity|]. cbn [wsum]. rewrite IH, HG. lia. }
  rewrite HW, HG. rewrite Z2Nat.id by (unfold T, WEEK; lia).
  intros H. vm_compute in H. discriminate.
Qed.
