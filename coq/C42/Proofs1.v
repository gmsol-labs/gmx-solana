(* C42 — arrays, walks in the graph, predecessor chains, and the invariants [good] of a
   (distances, predecessors) pair under which a predecessor chain is a walk of the graph. *)
From GV Require Import lib.Base lib.Checked C42.Model.
Open Scope Z_scope.

Lemma set_nth_length {A} n : forall (l : list A) v, length (set_nth n l v) = length l.
Proof. induction n; intros [|x r] v; cbn; auto. Qed.

Lemma setd_length {A} (l : list A) i v : length (setd l i v) = length l.
Proof. unfold setd. destruct (i <? 0); [reflexivity | apply set_nth_length]. Qed.

Lemma nth_set_nth_eq {A} n : forall (l : list A) v d, (n < length l)%nat -> nth n (set_nth n l v) d = v.
Proof. induction n; intros [|x r] v d H; cbn in *; try lia; auto. apply IHn. lia. Qed.

Lemma nth_set_nth_neq {A} n : forall m (l : list A) v d, n <> m -> nth m (set_nth n l v) d = nth m l d.
Proof.
  induction n; intros m [|x r] v d H; cbn; auto.
  - destruct m; [lia | reflexivity].
  - destruct m; [reflexivity | apply IHn; lia].
Qed.

Lemma getd_setd_neq {A} (l : list (option A)) i j v : i <> j -> getd (setd l i v) j = getd l j.
Proof.
  intros H. unfold getd, setd. destruct (j <? 0) eqn:Ej; [reflexivity|].
  destruct (i <? 0) eqn:Ei; [reflexivity|].
  apply Z.ltb_ge in Ej, Ei. apply nth_set_nth_neq. lia.
Qed.

Lemma getd_setd {A} (l : list (option A)) i j v :
  0 <= i < Z.of_nat (length l) -> getd (setd l i v) j = if j =? i then v else getd l j.
Proof.
  intros H. destruct (Z.eqb_spec j i) as [->|Hne]; [|apply getd_setd_neq; congruence].
  unfold getd, setd. replace (i <? 0) with false by lia. apply nth_set_nth_eq. lia.
Qed.

Lemma getd_range {A} (l : list (option A)) i x : getd l i = Some x -> 0 <= i < Z.of_nat (length l).
Proof.
  unfold getd. destruct (i <? 0) eqn:E; [discriminate|]. apply Z.ltb_ge in E. intros H.
  destruct (Nat.lt_ge_cases (Z.to_nat i) (length l)) as [Hl|Hl]; [lia|].
  rewrite nth_overflow in H by lia. discriminate.
Qed.

Lemma getd_repeat_none {A} n i : getd (repeat (@None A) n) i = None.
Proof.
  unfold getd. destruct (i <? 0); [reflexivity|]. apply nth_repeat.
Qed.

Lemma memZ_in x l : memZ x l = true <-> In x l.
Proof. apply existsb_Zeqb_In. Qed.

Definition cost_of (e : edge) : Z := match e_cost e with Some w => w | None => 0 end.
Fixpoint ecost (es : list edge) : Z := match es with [] => 0 | e :: r => cost_of e + ecost r end.

Lemma ecost_app a b : ecost (a ++ b) = ecost a + ecost b.
Proof. induction a; cbn; lia. Qed.

Lemma ecost_snoc es e w : e_cost e = Some w -> ecost (es ++ [e]) = ecost es + w.
Proof. intros H. rewrite ecost_app. cbn. unfold cost_of. rewrite H. lia. Qed.

(* gwalk g u v es: es is a chain of existing, estimated edges leading from node u to node v *)
Inductive gwalk (g : graph) : Z -> Z -> list edge -> Prop :=
| gw_nil u : gwalk g u u []
| gw_snoc u i es e : gwalk g u i es -> In e (g_edges g) -> e_src e = i -> e_cost e <> None ->
    gwalk g u (e_dst e) (es ++ [e]).

Lemma gwalk_snoc g u es e w : gwalk g u (e_src e) es -> In e (g_edges g) -> e_cost e = Some w ->
  gwalk g u (e_dst e) (es ++ [e]).
Proof. intros Hw Hin Hc. apply gw_snoc with (i := e_src e); congruence. Qed.

Lemma gwalk_edges_in g u v es : gwalk g u v es -> forall e, In e es -> In e (g_edges g).
Proof.
  induction 1 as [|u i es e Hw IH Hin]; intros e0 He0; [destruct He0|].
  apply in_app_or in He0. destruct He0 as [X | [X | []]]; [auto | subst; exact Hin].
Qed.

Lemma gwalk_nil g u v : gwalk g u v [] -> v = u.
Proof. inversion 1 as [|? ? es]; [reflexivity | destruct es; discriminate]. Qed.

Definition walk_nodes (u : Z) (es : list edge) : list Z := u :: map e_dst es.

Lemma walk_nodes_snoc u es e : walk_nodes u (es ++ [e]) = walk_nodes u es ++ [e_dst e].
Proof. unfold walk_nodes. rewrite map_app. reflexivity. Qed.

(* chain pr j l r: following the predecessor entries from j visits l and stops at r, which has none *)
Inductive chain (pr : list (option (Z * Z))) : Z -> list (Z * Z) -> Z -> Prop :=
| ch_nil j : getd pr j = None -> chain pr j [] j
| ch_cons j p m l r : getd pr j = Some (p, m) -> chain pr p l r -> chain pr j ((p, m) :: l) r.

Lemma chain_root pr j l r : chain pr j l r -> getd pr r = None.
Proof. induction 1; assumption. Qed.

Lemma chain_det pr j l r : chain pr j l r -> forall l' r', chain pr j l' r' -> l = l' /\ r = r'.
Proof.
  induction 1 as [j H | j p m l r H Hc IH]; intros l' r' H'; inversion H'; subst; try congruence.
  - auto.
  - rewrite H in H0. inversion H0; subst. destruct (IH _ _ H1) as [-> ->]. auto.
Qed.

Lemma chain_suffix pr j l r : chain pr j l r ->
  forall l1 p m l2, l = l1 ++ (p, m) :: l2 -> chain pr p l2 r.
Proof.
  induction 1 as [j H | j p m l r H Hc IH]; intros l1 p' m' l2 E.
  - destruct l1; discriminate.
  - destruct l1 as [|x l1]; cbn in E; inversion E; subst; [exact Hc | eapply IH; reflexivity].
Qed.

(* a chain that came back to its first node would, being determined by that node, be a proper
   suffix of itself *)
Lemma chain_nodup pr j l r : chain pr j l r -> NoDup (j :: map fst l).
Proof.
  induction 1 as [j H | j p m l r H Hc IH].
  - constructor; [intros []| constructor].
  - constructor; [|exact IH]. pose proof (ch_cons _ _ _ _ _ _ H Hc) as Hj.
    change (p :: map fst l) with (map fst ((p, m) :: l)). intros Hin.
    apply in_map_iff in Hin. destruct Hin as [[j' m'] [E Hin]]. cbn in E. subst j'.
    apply in_split in Hin. destruct Hin as [l1 [l2 El]].
    destruct (chain_det _ _ _ _ (chain_suffix _ _ _ _ Hj _ _ _ _ El) _ _ Hj) as [E _].
    apply (f_equal (@length _)) in E. rewrite El, app_length in E. cbn in E. lia.
Qed.

(* the walk of BestSwapPaths::to follows a chain of at most max_steps entries *)
Lemma walk_chain fuel : forall k pr j steps acc path,
  walk fuel k pr (getd pr j) steps acc = Some path ->
  exists l r, chain pr j l r /\ path = rev (map snd l) ++ acc /\ steps + Z.of_nat (length l) <= Z.max k steps.
Proof.
  (* where the entry is empty the walk stops, whatever the fuel *)
  assert (Hnil : forall k pr j steps acc, getd pr j = None ->
            exists l r, chain pr j l r /\ acc = rev (map snd l) ++ acc /\
                        steps + Z.of_nat (length l) <= Z.max k steps).
  { intros k pr j steps acc E. exists [], j. split; [constructor; exact E|]. split; [reflexivity | cbn; lia]. }
  induction fuel as [|f IH]; intros k pr j steps acc path H; cbn in H;
    destruct (getd pr j) as [[p m]|] eqn:E.
  - discriminate.
  - inversion H; subst. auto.
  - destruct (k <? steps + 1) eqn:Ek; [discriminate|]. apply Z.ltb_ge in Ek.
    apply IH in H. destruct H as [l [r [Hc [Hp Hl]]]].
    exists ((p, m) :: l), r. split; [econstructor; eassumption|].
    split; [cbn; rewrite <- app_assoc; exact Hp | cbn [length]; lia].
  - inversion H; subst. auto.
Qed.

Lemma walk_nil_iff fuel k pr j steps path :
  walk fuel k pr (getd pr j) steps [] = Some path -> (path = [] <-> getd pr j = None).
Proof.
  intros H. destruct (walk_chain _ _ _ _ _ _ _ H) as [l [r [Hc [-> _]]]]. rewrite app_nil_r.
  destruct Hc as [j E | j p m l r E Hc]; cbn; [tauto|].
  rewrite E. split; [intros H'; destruct (app_cons_not_nil _ _ _ (eq_sym H')) | discriminate].
Qed.

Section Good.
  Variable g : graph.
  Variable s : Z.                          (* node index of the source *)

  (* every predecessor entry is an existing estimated edge whose tail is reached, and the head's
     distance is not below tail distance + cost *)
  Definition pred_edge (st : state) : Prop :=
    forall j i m, getd (pred st) j = Some (i, m) ->
      exists e w a b, In e (g_edges g) /\ e_src e = i /\ e_dst e = j /\ e_mkt e = m /\ e_cost e = Some w /\
                      getd (dist st) i = Some a /\ getd (dist st) j = Some b /\ a + w <= b.
  Definition reached_has_pred (st : state) : Prop :=
    forall j a, getd (dist st) j = Some a -> j = s \/ getd (pred st) j <> None.

  Definition good (st : state) : Prop := pred_edge st /\ reached_has_pred st.

  (* a chain read backwards is a walk from its root, and distances dominate its cost *)
  Lemma chain_walk st j l r : pred_edge st -> chain (pred st) j l r ->
    exists es, gwalk g r j es /\ map e_mkt es = rev (map snd l) /\ walk_nodes r es = rev (j :: map fst l) /\
      forall b, getd (dist st) j = Some b -> exists a, getd (dist st) r = Some a /\ a + ecost es <= b.
  Proof.
    intros Hpe Hc. induction Hc as [j H | j p m l r H Hc [es [Hw [Hm [Hn Hd]]]]].
    - exists []. split; [constructor|]. split; [reflexivity|]. split; [reflexivity|].
      intros b Hb. exists b. split; [exact Hb | cbn; lia].
    - destruct (Hpe _ _ _ H) as [e [w [a [b [Hin [<- [<- [<- [Hcw [Ha [Hb Hab]]]]]]]]]]].
      exists (es ++ [e]). split; [eapply gwalk_snoc; eassumption|].
      split; [rewrite map_app, Hm; reflexivity|].
      split; [rewrite walk_nodes_snoc, Hn; reflexivity|].
      intros b' Hb'. destruct (Hd _ Ha) as [a0 [Ha0 Hle]]. exists a0. split; [exact Ha0|].
      rewrite (ecost_snoc _ _ _ Hcw). assert (b' = b) by congruence. lia.
  Qed.
End Good.
