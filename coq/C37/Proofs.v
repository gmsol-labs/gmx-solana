(* C37 — lemmas: factor invariant, per-token claim arithmetic (pure induction), and the
   refinement of the bank-level claim loop to it. *)
From GV Require Import lib.Base lib.DivLemmas C01.Model C01.Proofs C37.Model.
Open Scope Z_scope.

Lemma rbind_ok {A B} (a : res A) (f : A -> res B) r :
  rbind a f = Ok r <-> exists x, a = Ok x /\ f x = Ok r.
Proof. exact (lib.Checked.rbind_ok a f r). Qed.

Lemma of_opt_ok {A} e (o : option A) x : of_opt e o = Ok x <-> o = Some x.
Proof. exact (lib.Checked.of_opt_ok e o x). Qed.

Section Cfg.
  Variable unit : Z.
  Definition cfg_inv (c : config) : Prop := c_gt c <= unit /\ c_buyback c <= unit.

  Lemma set_gt_factor_ok c f c' p : set_gt_factor unit c f = Ok (c', p) ->
    f <= unit /\ c_gt c' = f /\ c_buyback c' = c_buyback c /\ p = c_gt c /\ f <> c_gt c.
  Proof.
    unfold set_gt_factor. destruct (unit <? f) eqn:E1; [discriminate|]. destruct (c_gt c =? f) eqn:E2; [discriminate|].
    intros H; injection H as <- <-. simpl. lia.
  Qed.

  Lemma set_buyback_factor_ok c f c' p : set_buyback_factor unit c f = Ok (c', p) ->
    f <= unit /\ c_buyback c' = f /\ c_gt c' = c_gt c /\ p = c_buyback c /\ f <> c_buyback c.
  Proof.
    unfold set_buyback_factor. destruct (unit <? f) eqn:E1; [discriminate|]. destruct (c_buyback c =? f) eqn:E2; [discriminate|].
    intros H; injection H as <- <-. simpl. lia.
  Qed.

  Lemma set_factor_above_unit_rejected c f : unit < f ->
    set_gt_factor unit c f = Err 5 /\ set_buyback_factor unit c f = Err 5.
  Proof. intros H. unfold set_gt_factor, set_buyback_factor. replace (unit <? f) with true by lia. auto. Qed.

  Lemma cfg_inv_step c o : cfg_inv c -> cfg_inv (apply_cop unit c o).
  Proof.
    intros [A B]. destruct o as [f|f]; simpl.
    - destruct (set_gt_factor unit c f) as [[c' p]|e] eqn:E; [|split; assumption].
      apply set_gt_factor_ok in E. unfold cfg_inv. lia.
    - destruct (set_buyback_factor unit c f) as [[c' p]|e] eqn:E; [|split; assumption].
      apply set_buyback_factor_ok in E. unfold cfg_inv. lia.
  Qed.

  Lemma cfg_inv_history ops : forall c, cfg_inv c -> cfg_inv (fold_left (apply_cop unit) ops c).
  Proof. apply fold_left_inv. intros c o _. apply cfg_inv_step. Qed.

  Theorem factors_le_unit ops : 0 <= unit -> cfg_inv (fold_left (apply_cop unit) ops (MkC 0 0)).
  Proof. intros Hu. apply cfg_inv_history. unfold cfg_inv. simpl. lia. Qed.
End Cfg.

Definition sumZ (l : list Z) : Z := fold_right Z.add 0 l.

Lemma sum_nonneg gs : Forall (fun g => 0 <= g) gs -> 0 <= sumZ gs.
Proof. induction gs; simpl; intros H; [lia|inversion H; subst; specialize (IHgs H3); lia]. Qed.

(* invariant of the claim sequence: the balance per remaining GT never decreases *)
Definition cinv (B0 G0 B G : Z) : Prop := 0 <= B /\ 0 <= G <= G0 /\ B0 * G <= B * G0.

Lemma claim1_spec B G g : 0 <= B -> 0 <= g <= G ->
  let '(p, B', G') := claim1 B G g in
  0 <= p <= B /\ B' = B - p /\ G' = G - g /\ B * G' <= B' * G /\
  (g <> 0 -> p = B * g / G /\ (g = G -> B' = 0)).
Proof.
  intros HB Hg. unfold claim1. destruct (Z.eqb_spec g 0) as [->|E].
  - rewrite !Z.sub_0_r. repeat split; lia.
  - pose proof (div_floor_spec (B * g) G ltac:(lia)) as [HF _].
    pose proof (mul_div_nonneg B g G HB ltac:(lia) ltac:(lia)). pose proof (mul_div_le_self B g G HB Hg ltac:(lia)).
    repeat split; try lia. intros ->. rewrite Z.div_mul by lia. lia.
Qed.

Lemma floor_share_mono B0 G0 B G g : 0 < G -> 0 < G0 -> 0 <= g -> 0 <= B0 -> B0 * G <= B * G0 ->
  B0 * g / G0 <= B * g / G.
Proof.
  intros HG HG0 Hg HB0 Hinv. apply Z.div_le_lower_bound; [lia|].
  pose proof (div_floor_spec (B0 * g) G0 ltac:(lia)) as HF. set (q := B0 * g / G0) in *.
  (* q*G0 <= B0*g, hence q*G0*G <= B0*g*G <= B*g*G0 *)
  apply (Z.mul_le_mono_pos_l _ _ G0 HG0). nia.
Qed.

Lemma cinv_claim1 B0 G0 B G g : cinv B0 G0 B G -> 0 <= g <= G ->
  let '(_, B', G') := claim1 B G g in cinv B0 G0 B' G'.
Proof.
  intros (HB & HG & HI) Hg. pose proof (claim1_spec B G g HB Hg) as H.
  destruct (claim1 B G g) as [[p B'] G']. destruct H as (Hp & -> & -> & Hr & _).
  unfold cinv. split; [lia|]. split; [lia|].
  destruct (Z.eq_dec G 0) as [->|]; [assert (g = 0) by lia; subst g; nia|].
  (* B0/G0 <= B/G <= (B-p)/(G-g), as cross products *)
  apply (Z.mul_le_mono_pos_l _ _ G); [lia|]. nia.
Qed.

Theorem run_claims_spec B0 G0 : 0 <= B0 -> forall gs B G,
  cinv B0 G0 B G -> Forall (fun g => 0 <= g) gs -> sumZ gs <= G ->
  let '(ps, Bf, Gf) := run_claims B G gs in
  length ps = length gs /\
  Forall2 (fun g p => 0 <= p /\ (g <> 0 -> B0 * g / G0 <= p)) gs ps /\
  sumZ ps + Bf = B /\ 0 <= Bf <= B /\ Gf = G - sumZ gs /\
  (Gf = 0 -> 0 < sumZ gs -> Bf = 0).
Proof.
  intros HB0. induction gs as [|g r IH]; intros B G Hinv Hnn Hsum.
  - destruct Hinv as (HB & _). simpl. split; [reflexivity|]. split; [constructor|]. lia.
  - inversion Hnn as [|? ? Hg Hr]; subst. simpl in Hsum. pose proof (sum_nonneg r Hr) as Hsr.
    pose proof (cinv_claim1 B0 G0 B G g Hinv ltac:(lia)) as Hinv'. destruct Hinv as (HB & HG & HI).
    pose proof (claim1_spec B G g HB ltac:(lia)) as H1. simpl.
    destruct (claim1 B G g) as [[p B'] G']. destruct H1 as (Hp & -> & -> & _ & Hnz).
    assert (Hhead : g <> 0 -> B0 * g / G0 <= p).
    { intros Hgnz. destruct (Hnz Hgnz) as [-> _]. apply floor_share_mono; lia. }
    assert (Hlast : g <> 0 -> g = G -> B - p = 0) by (intros Hgnz; apply (Hnz Hgnz)). clear Hnz.
    specialize (IH (B - p) (G - g) Hinv' Hr ltac:(lia)).
    destruct (run_claims (B - p) (G - g) r) as [[ps Bf] Gf].
    destruct IH as (IL & IF & IS & ILe & IG & ID). simpl.
    split; [congruence|]. split; [constructor; [split; [lia|exact Hhead]|exact IF]|]. clear Hhead.
    split; [lia|]. split; [lia|]. split; [lia|].
    intros HGf Hpos. destruct (Z.eq_dec (sumZ r) 0) as [Hz|Hz]; [|apply ID; lia].
    (* this claim is the last effective one: it takes everything, and the balance never grows again *)
    lia.
Qed.

Theorem claim_sequence B0 G0 gs : 0 <= B0 -> 0 <= G0 ->
  Forall (fun g => 0 <= g) gs -> sumZ gs <= G0 ->
  let '(ps, Bf, Gf) := run_claims B0 G0 gs in
  length ps = length gs /\
  Forall2 (fun g p => 0 <= p /\ (g <> 0 -> B0 * g / G0 <= p)) gs ps /\
  sumZ ps + Bf = B0 /\ 0 <= Bf /\ Gf = G0 - sumZ gs /\
  (Gf = 0 -> 0 < sumZ gs -> Bf = 0).
Proof.
  intros HB HG Hnn Hs.
  pose proof (run_claims_spec B0 G0 HB gs B0 G0 ltac:(unfold cinv; lia) Hnn Hs) as H.
  destruct (run_claims B0 G0 gs) as [[ps Bf] Gf]. destruct H as (A & B & C & (D & _) & E & F). tauto.
Qed.

Lemma run_claims_drain B G gs : 0 <= B -> 0 < G -> Forall (fun g => 0 <= g) gs -> sumZ gs = G ->
  snd (fst (run_claims B G gs)) = 0.
Proof.
  intros HB HG Hnn Hs. pose proof (claim_sequence B G gs HB ltac:(lia) Hnn ltac:(lia)) as H.
  destruct (run_claims B G gs) as [[ps Bf] Gf]. destruct H as (_ & _ & _ & _ & HGf & HD). apply HD; lia.
Qed.

Lemma run_claims_cons_bal b R g r :
  snd (fst (run_claims b R (g :: r))) = snd (fst (run_claims (snd (fst (claim1 b R g))) (R - g) r)).
Proof.
  cbn [run_claims]. unfold claim1. destruct (g =? 0) eqn:E; cbn [fst snd].
  - replace (R - g) with R by lia. destruct (run_claims b R r) as [[ps Bf] Gf]. reflexivity.
  - destruct (run_claims (b - b * g / R) (R - g) r) as [[ps Bf] Gf]. reflexivity.
Qed.

Lemma per_token_chain R g r (L L' : list (Z * Z)) :
  Forall2 (fun kv kv' => fst kv' = fst kv /\ snd kv' = snd (fst (run_claims (snd kv) (R - g) r)))
          (map (fun kv => (fst kv, snd (fst (claim1 (snd kv) R g)))) L) L' ->
  Forall2 (fun kv kv' => fst kv' = fst kv /\ snd kv' = snd (fst (run_claims (snd kv) R (g :: r)))) L L'.
Proof.
  revert L'. induction L as [|kv l IHl]; intros L' EF; inversion EF as [|x y l1 l2 [Hk Hv] EF']; subst; constructor; auto.
  split; [exact Hk|]. rewrite run_claims_cons_bal. exact Hv.
Qed.

Section Bk.
  Variable wa : Z.
  Hypothesis Hwa : 1 <= wa.

  Definition wf_bank (st : bank) : Prop :=
    0 <= b_rem st < 2 ^ wa /\ Forall (fun kv => 0 <= snd kv < 2 ^ wa) (b_bal st).

  Lemma claim_list_spec g total l : 0 < g <= total -> Forall (fun kv => 0 <= snd kv < 2 ^ wa) l ->
    claim_list wa g total l =
      Ok (map (fun kv => (fst kv, snd kv - snd kv * g / total)) l,
          map (fun kv => (fst kv, snd kv, snd kv * g / total)) (filter (fun kv => negb (snd kv =? 0)) l)).
  Proof.
    intros Hg. induction l as [|[k b] r IH]; intros Hwf; [reflexivity|].
    inversion Hwf as [|? ? Hb Hr]; subst. simpl in Hb. specialize (IH Hr). cbn [claim_list].
    destruct (b =? 0) eqn:E.
    - rewrite IH. cbn [rbind fst snd map filter]. rewrite E. cbn [negb].
      replace b with 0 by lia. rewrite Z.mul_0_l, Z.div_0_l by lia. reflexivity.
    - pose proof (mul_div_nonneg b g total ltac:(lia) ltac:(lia) ltac:(lia)).
      pose proof (mul_div_le_self b g total ltac:(lia) ltac:(lia) ltac:(lia)).
      assert (E1 : mul_div wa b g total = Some (b * g / total)) by (apply mul_div_exact; [lia..|]; repeat split; lia).
      rewrite E1. cbn [of_opt rbind].
      assert (E2 : (if b * g / total =? 0 then Ok b else of_opt 4 (usub wa b (b * g / total))) = Ok (b - b * g / total)).
      { destruct (b * g / total =? 0) eqn:E3; [f_equal; lia|].
        assert (E4 : usub wa b (b * g / total) = Some (b - b * g / total)) by (apply chk_u_some; lia).
        rewrite E4. reflexivity. }
      rewrite E2. cbn [rbind]. rewrite IH. cbn [rbind fst snd map filter]. rewrite E. cbn [negb map fst snd]. reflexivity.
  Qed.

  Theorem claim_spec st g : wf_bank st -> 0 <= g ->
    (b_rem st < g -> claim wa st g = Err 6) /\
    (g <= b_rem st ->
       claim wa st g =
         Ok (MkB (b_conf st) (b_rem st - g)
                 (map (fun kv => (fst kv, snd (fst (claim1 (snd kv) (b_rem st) g)))) (b_bal st)),
             if g =? 0 then []
             else map (fun kv => (fst kv, snd kv, fst (fst (claim1 (snd kv) (b_rem st) g))))
                      (filter (fun kv => negb (snd kv =? 0)) (b_bal st)))).
  Proof.
    intros (Hrem & Hbal) Hg. unfold claim, claim1. split.
    - intros Hlt. replace (g =? 0) with false by lia. replace (b_rem st <? g) with true by lia. reflexivity.
    - intros Hle. destruct (g =? 0) eqn:E.
      + f_equal. f_equal. destruct st as [c r l]. simpl. f_equal; [lia|].
        (* eta for the pairs *)
        clear. induction l as [|[k b] l IH]; [reflexivity|]. simpl. f_equal. exact IH.
      + replace (b_rem st <? g) with false by lia.
        rewrite claim_list_spec by (assumption || lia). cbn [rbind fst snd].
        unfold record_claimed, with_bal. cbn [b_rem b_conf b_bal].
        assert (E1 : usub wa (b_rem st) g = Some (b_rem st - g)) by (apply chk_u_some; lia).
        rewrite E1. reflexivity.
  Qed.

  Lemma wf_after_claim st g : wf_bank st -> 0 <= g <= b_rem st ->
    wf_bank (MkB (b_conf st) (b_rem st - g)
                 (map (fun kv => (fst kv, snd (fst (claim1 (snd kv) (b_rem st) g)))) (b_bal st))).
  Proof.
    intros (Hrem & Hbal) Hg. unfold wf_bank. simpl. split; [lia|].
    apply Forall_forall. intros kv Hin. apply in_map_iff in Hin. destruct Hin as ([k b] & <- & Hin).
    rewrite Forall_forall in Hbal. specialize (Hbal _ Hin). simpl in *.
    pose proof (claim1_spec b (b_rem st) g ltac:(lia) ltac:(lia)) as H1.
    destruct (claim1 b (b_rem st) g) as [[p B'] G']. simpl. lia.
  Qed.

  (* a whole sequence of claims: succeeds iff the claims fit the remaining GT, and then every
     token's balance and payouts are those of [run_claims] *)
  Theorem bank_claims_refine gs : forall st, wf_bank st -> Forall (fun g => 0 <= g) gs -> sumZ gs <= b_rem st ->
    exists st' rows, bank_claims wa st gs = Ok (st', rows) /\
      b_rem st' = b_rem st - sumZ gs /\ b_conf st' = b_conf st /\ length rows = length gs /\
      Forall2 (fun kv kv' => fst kv' = fst kv /\
                 snd kv' = snd (fst (run_claims (snd kv) (b_rem st) gs))) (b_bal st) (b_bal st').
  Proof.
    induction gs as [|g r IH]; intros st Hwf Hnn Hsum.
    - exists st, []. simpl. repeat split; try lia.
      (* Forall2 of a reflexive relation *)
      clear. induction (b_bal st) as [|kv l IHl]; constructor; auto.
    - inversion Hnn as [|? ? Hg Hr]; subst. simpl in Hsum. pose proof (sum_nonneg r Hr) as Hsr.
      destruct (claim_spec st g Hwf Hg) as [_ Hok]. specialize (Hok ltac:(lia)).
      pose proof (wf_after_claim st g Hwf ltac:(lia)) as Hwf'.
      set (st1 := MkB (b_conf st) (b_rem st - g)
                      (map (fun kv => (fst kv, snd (fst (claim1 (snd kv) (b_rem st) g)))) (b_bal st))) in *.
      destruct (IH st1 Hwf' Hr ltac:(simpl; lia)) as (st' & rows & E & Erem & Econf & Elen & EF).
      cbn [bank_claims]. rewrite Hok. cbn [rbind fst snd]. fold st1. rewrite E. cbn [rbind fst snd].
      eexists _, _. split; [reflexivity|]. simpl in Erem, Econf. cbn [fst snd].
      split; [simpl; lia|]. split; [exact Econf|]. split; [simpl; lia|].
      subst st1. cbn [b_bal b_rem] in EF. exact (per_token_chain (b_rem st) g r (b_bal st) (b_bal st') EF).
  Qed.

  Theorem all_claims_drain st gs : wf_bank st -> Forall (fun g => 0 <= g) gs ->
    sumZ gs = b_rem st -> 0 < b_rem st ->
    exists st' rows, bank_claims wa st gs = Ok (st', rows) /\ b_rem st' = 0 /\
      Forall (fun kv => snd kv = 0) (b_bal st') /\ map fst (b_bal st') = map fst (b_bal st).
  Proof.
    intros Hwf Hnn Hsum Hpos.
    destruct (bank_claims_refine gs st Hwf Hnn ltac:(lia)) as (st' & rows & E & Erem & _ & _ & EF).
    exists st', rows. split; [exact E|]. split; [lia|].
    destruct Hwf as (Hrem & Hbal). revert EF Hbal. generalize (b_bal st'). induction (b_bal st) as [|[k b] l IH]; intros l' EF Hbal.
    - inversion EF; subst. split; constructor.
    - inversion EF as [|? y ? l2 [Hk Hv] EF']; subst. inversion Hbal as [|? ? Hb Hl]; subst. simpl in Hb.
      destruct (IH l2 EF' Hl) as [I1 I2]. split.
      + constructor; [|exact I1]. rewrite Hv. cbn [snd]. apply run_claims_drain; auto; lia.
      + simpl. f_equal; [exact Hk|exact I2].
  Qed.
End Bk.
