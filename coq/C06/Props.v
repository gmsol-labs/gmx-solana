(* C06 — "Liquidity providers cannot profit from a deposit/withdraw round trip": theorems only.
   Vocabulary (C06/Proofs.v): for a deposit trace [t], [credit_value ps t] is the USD value the
   depositor is credited with (own tokens after fees and negative impact at minimum prices +
   positive impact amounts at the maximum price of the token they are paid in),
   [funded_value ps t] the positive-impact part of it (paid out of the swap-impact pools),
   [in_value l sh ps] the deposited tokens at minimum prices, [out_value ps r] what a withdrawal
   pays at maximum prices, [gross_value ps t] the same before fees.  [dt_pool_value] /
   [wt_pool_value] are the pool values the code prices market tokens with (maximised with the
   deposit pnl factor / minimised with the withdrawal pnl factor). *)
From GV Require Import lib.Base MK.Market MK.Liquidity MK.MarketProofs MK.Examples C06.Proofs C06.NoOI
  C06.RoundTrip C06.Calm.
Open Scope Z_scope.

(* First deposit into an empty pool (supply 0, pool value 0): one USD — [value_to_amount_divisor]
   value units — per market token, each side rounded down; no positive impact is credited. *)
Theorem c06_first_deposit_unit_price : forall w, 1 <= w -> forall unit, 0 < unit -> forall cfg s l sh ps s' r t,
  wf_state w s -> wf_prices w ps -> in_range w l -> in_range w sh -> 0 <= value_to_amount_divisor s ->
  deposit_exec_trace w unit cfg s l sh ps = Ok (s', r, t) ->
  total_supply s = 0 -> dt_pool_value t = 0 ->
  dr_minted r = lg_amount (dt_long t) * pr_min (px_long ps) / value_to_amount_divisor s
              + lg_amount (dt_short t) * pr_min (px_short ps) / value_to_amount_divisor s /\
  funded_value ps t = 0.
Proof.
  intros w Hw unit Hu cfg s l sh ps s' r t Hs Hps Hl Hsh Hdv H S0 P0.
  apply (deposit_summary w Hw unit Hu cfg) in H; try assumption.
  split; [exact (ds_first _ _ _ _ _ _ _ _ _ _ H S0 P0)|exact (ds_first_no_funded _ _ _ _ _ _ _ _ _ _ H S0)].
Qed.

(* Non-empty supply: minted * pool value <= supply * credited value (never rounded up), and the
   four floors lose less than four tokens in total; the credited value never exceeds the
   deposited value plus the funded positive impact; the funded amounts never exceed the
   swap-impact pool balances they are paid from. *)
Theorem c06_deposit_mint_fair : forall w, 1 <= w -> forall unit, 0 < unit -> forall cfg s l sh ps s' r t,
  wf_state w s -> wf_prices w ps -> in_range w l -> in_range w sh -> 0 <= value_to_amount_divisor s ->
  deposit_exec_trace w unit cfg s l sh ps = Ok (s', r, t) -> 0 < total_supply s ->
  0 < dt_pool_value t /\
  dt_pool_value t * dr_minted r <= total_supply s * credit_value ps t /\
  total_supply s * credit_value ps t < dt_pool_value t * (dr_minted r + 4) /\
  lg_amount (dt_long t) <= l /\ lg_amount (dt_short t) <= sh /\
  lg_pos_amount (dt_long t) <= p_short (swap_impact s) /\ lg_pos_amount (dt_short t) <= p_long (swap_impact s).
Proof.
  intros w Hw unit Hu cfg s l sh ps s' r t Hs Hps Hl Hsh Hdv H Spos.
  apply (deposit_summary w Hw unit Hu cfg) in H; try assumption.
  destruct (ds_fair _ _ _ _ _ _ _ _ _ _ H Spos) as (A & B & C). pose proof (ds_split_long _ _ _ _ _ _ _ _ _ _ H). pose proof (ds_split_short _ _ _ _ _ _ _ _ _ _ H).
  pose proof (ds_nonneg _ _ _ _ _ _ _ _ _ _ H). pose proof (ds_funded_long _ _ _ _ _ _ _ _ _ _ H). pose proof (ds_funded_short _ _ _ _ _ _ _ _ _ _ H).
  repeat split; try assumption; lia.
Qed.

(* value paid out (before and after fees, at maximum prices) is at most the fair share
   pool value * amount / supply of the minimised pool value *)
Theorem c06_withdraw_out_le_fair : forall w, 1 <= w -> forall unit, 0 < unit -> forall cfg s a ps s' r t,
  wf_state w s -> wf_prices w ps -> in_range w a ->
  withdraw_exec_trace w unit cfg s a ps = Ok (s', r, t) ->
  out_value ps r <= gross_value ps t /\ gross_value ps t <= wt_mtv t /\
  gross_value ps t * total_supply s <= wt_pool_value t * a /\
  0 < total_supply s /\ 0 < a <= total_supply s /\ 0 < wt_pool_value t /\ 0 <= wt_mtv t /\
  total_supply s * wt_mtv t <= wt_pool_value t * a.
Proof. exact withdraw_fair. Qed.

(* Full statement wanted: for EVERY market state, deposit then withdraw all minted tokens at
   unchanged prices returns at most the deposited value (+ funded positive impact, class 1;
   + the residual pool value when the supply was zero, class 2).
   Proved here for every state under the explicit hypothesis that the pool value seen by the
   withdrawal exceeds the pool value seen by the deposit by at most the value of the tokens
   added to the liquidity pool (at minimum prices).  That hypothesis is discharged below for every
   market without open positions; with open interest it depends on the pending-borrowing-fee and
   capped-pnl terms of pool_value and is covered by the oracle only. *)
Theorem c06_round_trip_partial : forall w, 1 <= w -> forall unit, 0 < unit -> forall cfg s l sh ps s1 rd td s2 rw tw,
  wf_state w s -> wf_prices w ps -> in_range w l -> in_range w sh -> 0 <= value_to_amount_divisor s ->
  ordered (px_long ps) -> ordered (px_short ps) ->
  deposit_exec_trace w unit cfg s l sh ps = Ok (s1, rd, td) ->
  withdraw_exec_trace w unit cfg s1 (dr_minted rd) ps = Ok (s2, rw, tw) ->
  wt_pool_value tw <= dt_pool_value td + added_long rd td * pr_min (px_long ps) + added_short rd td * pr_min (px_short ps) ->
  (0 < total_supply s -> out_value ps rw <= in_value l sh ps + funded_value ps td) /\
  (total_supply s = 0 -> out_value ps rw <= in_value l sh ps + dt_pool_value td).
Proof. exact round_trip_bound. Qed.

(* Markets without open positions (no open interest, nothing borrowed), any liquidity, impact
   pools, fees, position-impact pool, clocks and configuration, prices with min <= max. *)
Theorem c06_round_trip_no_open_interest : forall w, 1 <= w -> forall unit, 0 < unit -> forall cfg s l sh ps s1 rd td s2 rw tw,
  wf_state w s -> wf_prices w ps -> in_range w l -> in_range w sh -> 0 <= value_to_amount_divisor s ->
  0 <= p_long (position_impact s) -> no_oi s -> ordered_prices ps ->
  deposit_exec_trace w unit cfg s l sh ps = Ok (s1, rd, td) ->
  withdraw_exec_trace w unit cfg s1 (dr_minted rd) ps = Ok (s2, rw, tw) ->
  (0 < total_supply s -> out_value ps rw <= in_value l sh ps + funded_value ps td) /\
  (total_supply s = 0 -> out_value ps rw <= in_value l sh ps + dt_pool_value td).
Proof.
  intros w Hw unit Hu cfg s l sh ps s1 rd td s2 rw tw Hs Hps Hl Hsh Hdv Hpi Hno Ho HD HW.
  pose proof Hno as (_ & _ & T1 & T2 & _).
  apply (round_trip_uncapped w Hw unit Hu cfg s l sh ps s1 rd td s2 rw tw); try assumption; try (rewrite ?T1, ?T2; cbn; lia).
  apply no_oi_follows; assumption.
Qed.

(* The literal property outside the two known classes: no funded positive impact, and either
   other LPs exist or the pool is empty. *)
Theorem c06_round_trip_literal_no_open_interest : forall w, 1 <= w -> forall unit, 0 < unit -> forall cfg s l sh ps s1 rd td s2 rw tw,
  wf_state w s -> wf_prices w ps -> in_range w l -> in_range w sh -> 0 <= value_to_amount_divisor s ->
  0 <= p_long (position_impact s) -> no_oi s -> ordered_prices ps ->
  deposit_exec_trace w unit cfg s l sh ps = Ok (s1, rd, td) ->
  withdraw_exec_trace w unit cfg s1 (dr_minted rd) ps = Ok (s2, rw, tw) ->
  funded_value ps td = 0 -> (0 < total_supply s \/ dt_pool_value td = 0) ->
  out_value ps rw <= in_value l sh ps.
Proof.
  intros w Hw unit Hu cfg s l sh ps s1 rd td s2 rw tw Hs Hps Hl Hsh Hdv Hpi Hno Ho HD HW F C.
  pose proof (c06_round_trip_no_open_interest w Hw unit Hu cfg s l sh ps s1 rd td s2 rw tw Hs Hps Hl Hsh Hdv Hpi Hno Ho HD HW).
  destruct Hs as ([S0 _] & _). lia.
Qed.

(* Markets WITH open interest that are "calm" (C06/Calm.v): borrowing fees accrued up to now
   (borrowing clock = now, which the store's pre_execute establishes before every deposit /
   withdrawal), and every positive pnl within min(deposit cap, withdrawal cap) times the side's
   minimised liquidity value (so no pnl cap binds).  Any open interest, borrowing factors,
   total borrowing, impact pools, position-impact pool and its clock, fees, configuration. *)
Theorem c06_round_trip_calm : forall w, 1 <= w -> forall unit, 0 < unit -> forall cfg s l sh ps s1 rd td s2 rw tw,
  wf_state w s -> wf_prices w ps -> in_range w l -> in_range w sh -> 0 <= value_to_amount_divisor s ->
  calm w unit cfg s ps -> ordered_prices ps ->
  deposit_exec_trace w unit cfg s l sh ps = Ok (s1, rd, td) ->
  withdraw_exec_trace w unit cfg s1 (dr_minted rd) ps = Ok (s2, rw, tw) ->
  (0 < total_supply s -> out_value ps rw <= in_value l sh ps + funded_value ps td) /\
  (total_supply s = 0 -> out_value ps rw <= in_value l sh ps + dt_pool_value td).
Proof.
  intros w Hw unit Hu cfg s l sh ps s1 rd td s2 rw tw Hs Hps Hl Hsh Hdv Hc Ho HD HW.
  pose proof (calm_after_deposit w Hw unit Hu cfg _ _ _ _ _ _ _ Hs Hps Hl Hsh Hdv Hc HD) as Hc1.
  destruct (calm_oit _ _ _ _ _ Hc) as (T1 & T2 & T3 & T4).
  apply (round_trip_uncapped w Hw unit Hu cfg s l sh ps s1 rd td s2 rw tw); try assumption.
  - apply calm_follows; assumption.
  - exact (calm_pi _ _ _ _ _ Hc).
Qed.

Theorem c06_round_trip_literal_calm : forall w, 1 <= w -> forall unit, 0 < unit -> forall cfg s l sh ps s1 rd td s2 rw tw,
  wf_state w s -> wf_prices w ps -> in_range w l -> in_range w sh -> 0 <= value_to_amount_divisor s ->
  calm w unit cfg s ps -> ordered_prices ps ->
  deposit_exec_trace w unit cfg s l sh ps = Ok (s1, rd, td) ->
  withdraw_exec_trace w unit cfg s1 (dr_minted rd) ps = Ok (s2, rw, tw) ->
  funded_value ps td = 0 -> (0 < total_supply s \/ dt_pool_value td = 0) ->
  out_value ps rw <= in_value l sh ps.
Proof.
  intros w Hw unit Hu cfg s l sh ps s1 rd td s2 rw tw Hs Hps Hl Hsh Hdv Hc Ho HD HW F C.
  pose proof (c06_round_trip_calm w Hw unit Hu cfg s l sh ps s1 rd td s2 rw tw Hs Hps Hl Hsh Hdv Hc Ho HD HW).
  destruct Hs as ([S0 _] & _). lia.
Qed.

(* deposit: pool value per token (deposit valuation) does not fall, provided the pool value
   grows by at least the credited value — proved for markets without open positions *)
Theorem c06_deposit_no_dilution_partial : forall w, 1 <= w -> forall unit, 0 < unit -> forall cfg s l sh ps s1 rd td P1,
  wf_state w s -> wf_prices w ps -> in_range w l -> in_range w sh -> 0 <= value_to_amount_divisor s ->
  deposit_exec_trace w unit cfg s l sh ps = Ok (s1, rd, td) -> 0 < total_supply s ->
  dt_pool_value td + credit_value ps td <= P1 ->
  dt_pool_value td * total_supply s1 <= P1 * total_supply s.
Proof. exact deposit_no_dilution. Qed.

Theorem c06_deposit_no_dilution_no_open_interest : forall w, 1 <= w -> forall unit, 0 < unit -> forall cfg s l sh ps s1 rd td P1,
  wf_state w s -> wf_prices w ps -> in_range w l -> in_range w sh -> 0 <= value_to_amount_divisor s ->
  no_oi s -> ordered_prices ps ->
  deposit_exec_trace w unit cfg s l sh ps = Ok (s1, rd, td) -> 0 < total_supply s ->
  pool_value w unit cfg s1 ps MaxAfterDeposit true = Ok P1 ->
  dt_pool_value td * total_supply s1 <= P1 * total_supply s.
Proof.
  intros w Hw unit Hu cfg s l sh ps s1 rd td P1 Hs Hps Hl Hsh Hdv Hno Ho HD Spos E1.
  apply (deposit_no_dilution_uncapped w Hw unit Hu cfg s l sh ps s1 rd td P1); try assumption.
  apply no_oi_follows; assumption.
Qed.

Theorem c06_deposit_no_dilution_calm : forall w, 1 <= w -> forall unit, 0 < unit -> forall cfg s l sh ps s1 rd td P1,
  wf_state w s -> wf_prices w ps -> in_range w l -> in_range w sh -> 0 <= value_to_amount_divisor s ->
  calm w unit cfg s ps -> ordered_prices ps ->
  deposit_exec_trace w unit cfg s l sh ps = Ok (s1, rd, td) -> 0 < total_supply s ->
  pool_value w unit cfg s1 ps MaxAfterDeposit true = Ok P1 ->
  dt_pool_value td * total_supply s1 <= P1 * total_supply s.
Proof.
  intros w Hw unit Hu cfg s l sh ps s1 rd td P1 Hs Hps Hl Hsh Hdv Hc Ho HD Spos E1.
  pose proof (calm_after_deposit w Hw unit Hu cfg _ _ _ _ _ _ _ Hs Hps Hl Hsh Hdv Hc HD) as Hc1.
  apply (deposit_no_dilution_uncapped w Hw unit Hu cfg s l sh ps s1 rd td P1); try assumption.
  apply calm_follows; assumption.
Qed.

(* withdrawal: pool value per token (withdrawal valuation) does not fall, provided the pool value
   falls by at most the gross value paid — proved for markets without open positions *)
Theorem c06_withdraw_no_dilution_partial : forall w, 1 <= w -> forall unit, 0 < unit -> forall cfg s a ps s2 rw tw P2,
  wf_state w s -> wf_prices w ps -> in_range w a ->
  withdraw_exec_trace w unit cfg s a ps = Ok (s2, rw, tw) ->
  wt_pool_value tw - gross_value ps tw <= P2 ->
  wt_pool_value tw * total_supply s2 <= P2 * total_supply s.
Proof. exact withdraw_no_dilution. Qed.

Theorem c06_withdraw_no_dilution_no_open_interest : forall w, 1 <= w -> forall unit, 0 < unit -> forall cfg s a ps s2 rw tw P2,
  wf_state w s -> wf_prices w ps -> in_range w a -> no_oi s -> ordered_prices ps ->
  withdraw_exec_trace w unit cfg s a ps = Ok (s2, rw, tw) ->
  pool_value w unit cfg s2 ps MaxAfterWithdrawal false = Ok P2 ->
  wt_pool_value tw * total_supply s2 <= P2 * total_supply s.
Proof.
  intros w Hw unit Hu cfg s a ps s2 rw tw P2 Hs Hps Ha Hno Ho HW E2.
  apply (withdraw_no_dilution_uncapped w Hw unit Hu cfg s a ps s2 rw tw P2); try assumption.
  apply no_oi_follows; assumption.
Qed.

(* calm before and after (the post-state condition is what validate_max_pnl enforces up to rounding) *)
Theorem c06_withdraw_no_dilution_calm : forall w, 1 <= w -> forall unit, 0 < unit -> forall cfg s a ps s2 rw tw P2,
  wf_state w s -> wf_prices w ps -> in_range w a ->
  calm w unit cfg s ps -> calm w unit cfg s2 ps -> ordered_prices ps ->
  withdraw_exec_trace w unit cfg s a ps = Ok (s2, rw, tw) ->
  pool_value w unit cfg s2 ps MaxAfterWithdrawal false = Ok P2 ->
  wt_pool_value tw * total_supply s2 <= P2 * total_supply s.
Proof.
  intros w Hw unit Hu cfg s a ps s2 rw tw P2 Hs Hps Ha Hc Hc2 Ho HW E2.
  apply (withdraw_no_dilution_uncapped w Hw unit Hu cfg s a ps s2 rw tw P2); try assumption.
  apply calm_follows; assumption.
Qed.

(* the known classes are real: the literal text fails there *)
(* class 1 FundedPositiveImpact: +43120 on a 6*10^10 deposit (the replay of DESIGN.md section 7) *)
Theorem c06_funded_positive_impact_refuted :
  exists s1 rd td s2 rw tw,
    deposit_exec_trace 64 (10 ^ 9) cfg64_nofee rt_state1 0 60000000000 ps120 = Ok (s1, rd, td) /\
    withdraw_exec_trace 64 (10 ^ 9) cfg64_nofee s1 (dr_minted rd) ps120 = Ok (s2, rw, tw) /\
    0 < total_supply rt_state1 /\ no_oi rt_state1 /\
    funded_value ps120 td = 43200 /\
    in_value 0 60000000000 ps120 = 60000000000 /\ out_value ps120 rw = 60000043120 /\
    ~ out_value ps120 rw <= in_value 0 60000000000 ps120.
Proof.
  eexists. eexists. eexists. eexists. eexists. eexists.
  split; [vm_compute; reflexivity|]. split; [vm_compute; reflexivity|].
  vm_compute. repeat split; try reflexivity. intros H. apply H. reflexivity.
Qed.

(* class 2 ResidualValueAtZeroSupply *)
Theorem c06_residual_value_refuted :
  exists s1 rd td s2 rw tw,
    deposit_exec_trace 64 (10 ^ 9) cfg64_nofee residual_state 0 1000 ps120 = Ok (s1, rd, td) /\
    withdraw_exec_trace 64 (10 ^ 9) cfg64_nofee s1 (dr_minted rd) ps120 = Ok (s2, rw, tw) /\
    total_supply residual_state = 0 /\ dt_pool_value td = 120000000 /\ funded_value ps120 td = 0 /\
    in_value 0 1000 ps120 = 1000 /\ out_value ps120 rw = 120001000 /\
    ~ out_value ps120 rw <= in_value 0 1000 ps120.
Proof.
  eexists. eexists. eexists. eexists. eexists. eexists.
  split; [vm_compute; reflexivity|]. split; [vm_compute; reflexivity|].
  vm_compute. repeat split; try reflexivity. intros H. apply H. reflexivity.
Qed.

(* class 3 StalePendingBorrowingFees: a deposit made while borrowing fees are pending (the
   model-crate action does not accrue them first; the store's pre_execute does) lowers the
   pending-fee estimate and with it the value per token *)
Theorem c06_stale_pending_borrowing_refuted :
  exists s1 rd td P1,
    deposit_exec_trace 128 (10 ^ 20) cfg128_w3 state_w3 1 2500787 prices_w3 = Ok (s1, rd, td) /\
    pool_value 128 (10 ^ 20) cfg128_w3 s1 prices_w3 MaxAfterDeposit true = Ok P1 /\
    0 < total_supply state_w3 /\ passed state_w3 (clk_borrowing state_w3) = 50000 /\
    dt_pool_value td = 55097104954108197016 /\ P1 = 55601571219347818588 /\
    credit_value prices_w3 td = 506157400000000003 /\
    P1 - dt_pool_value td < credit_value prices_w3 td /\
    ~ dt_pool_value td * total_supply s1 <= P1 * total_supply state_w3.
Proof.
  eexists. eexists. eexists. eexists.
  split; [vm_compute; reflexivity|]. split; [vm_compute; reflexivity|].
  vm_compute. repeat split; try reflexivity. intros H. apply H. reflexivity.
Qed.

(* non-vacuity *)
(* an ordinary round trip with fees on the default market: out < in *)
Example c06_ex_round_trip :
  exists s1 rd td s2 rw tw,
    deposit_exec_trace 64 (10 ^ 9) cfg64 ex_market 1000000 0 ex_prices = Ok (s1, rd, td) /\
    withdraw_exec_trace 64 (10 ^ 9) cfg64 s1 (dr_minted rd) ex_prices = Ok (s2, rw, tw) /\
    no_oi ex_market /\ 0 < total_supply ex_market /\
    in_value 1000000 0 ex_prices = 120000000 /\ out_value ex_prices rw < 120000000 /\ 0 < out_value ex_prices rw.
Proof.
  eexists. eexists. eexists. eexists. eexists. eexists.
  split; [vm_compute; reflexivity|]. split; [vm_compute; reflexivity|]. vm_compute. repeat split; reflexivity.
Qed.

(* a calm market with open interest: long OI 6*10^10 usd / 5*10^8 tokens (pnl 0 at 120, positive at
   121), cumulative borrowing factor 0.01, borrowed total booked, borrowing clock = now *)
Definition calm_market : mstate :=
  mkState 240000000000 1 10000 (mkPool 1000000000 100000000000) (mkPool 5000 7000) pool0
    (mkPool 60000000000 0) pool0 (mkPool 500000000 0) pool0 (mkPool 1000000 0) (mkPool 10000000 0) 0
    pool0 pool0 pool0 pool0 pool0 pool0 (mkPool 600000000 0) 1000 None (Some 1000) None None None.
Example c06_ex_calm : calm 64 (10 ^ 9) cfg64 calm_market ex_prices.
Proof.
  constructor; try (cbn; lia); try reflexivity.
  intros il mxp p E P. destruct il, mxp; vm_compute in E; injection E as <-; vm_compute; first [discriminate P | intros C; discriminate C].
Qed.
Example c06_ex_calm_round_trip :
  exists s1 rd td s2 rw tw,
    deposit_exec_trace 64 (10 ^ 9) cfg64 calm_market 1000000 0 ex_prices = Ok (s1, rd, td) /\
    withdraw_exec_trace 64 (10 ^ 9) cfg64 s1 (dr_minted rd) ex_prices = Ok (s2, rw, tw) /\
    0 < out_value ex_prices rw < in_value 1000000 0 ex_prices.
Proof.
  eexists. eexists. eexists. eexists. eexists. eexists.
  split; [vm_compute; reflexivity|]. split; [vm_compute; reflexivity|]. vm_compute. split; reflexivity.
Qed.
