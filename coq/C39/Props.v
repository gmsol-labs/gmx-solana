(* C39 — competition: the leaderboard stays a sorted top five of the latest volumes, and the end time
   only moves forward, within the cap. *)
From GV Require Import lib.Base C39.Model C39.Proofs.
Open Scope Z_scope.

(* The vocabulary (Proofs.v):
     board s            = the leaderboard of the competition account
     board_inv b        = at most 5 entries, pairwise distinct traders, [desc b]: volumes non-increasing
     top_board s        = at most 5 entries, pairwise distinct traders, volumes non-increasing
     shows_latest s     = every entry (a, w): participant a exists and its cumulative volume is w
     off_board_bounded s= a participant that is not shown has volume <= the last entry of a full
                          board, and volume 0 while the board is not full
     Inv s              = the three together + participant volumes in the u128 range
     run s ops          = fold of the instruction semantics (a failed instruction changes nothing) *)

(* update_leaderboard on ANY well-formed board (called with any trader / volume) *)
Theorem c39_update_keeps_wellformed : forall b t v, board_inv b -> board_inv (update_leaderboard b t v).
Proof. exact upd_inv. Qed.

Theorem c39_update_shows_trader_or_full : forall b t v, board_inv b ->
  In (t, v) (update_leaderboard b t v) \/
  (update_leaderboard b t v = b /\ ~ In t (addrs b) /\ length b = 5%nat /\ forall y, In y b -> v <= snd y).
Proof. exact upd_trader. Qed.

Theorem c39_update_only_drops_the_lowest : forall b t v, board_inv b -> forall x, In x b -> fst x <> t ->
  In x (update_leaderboard b t v) \/
  (length (update_leaderboard b t v) = 5%nat /\ forall y, In y (update_leaderboard b t v) -> snd x <= snd y).
Proof. exact upd_others. Qed.

(* histories of trade reports and participant creations at ARBITRARY times, from any state that
   satisfies the invariant (in particular the freshly initialised competition) *)
Theorem c39_leaderboard_history : forall s ops, Inv s -> Forall not_close ops ->
  let s' := run s ops in top_board s' /\ shows_latest s' /\ off_board_bounded s'.
Proof. exact history_no_close. Qed.

Theorem c39_init_satisfies_invariant : forall start end_ thr dur cap oi win,
  Inv (init_state start end_ thr dur cap oi win).
Proof. exact Inv_init. Qed.

(* participant volumes are monotone along such histories (the fact the last clause rests on) *)
Theorem c39_participant_volumes_monotone : forall ops s a p, Inv s -> Forall not_close ops ->
  pget (s_parts s) a = Some p -> exists p', pget (s_parts (run s ops)) a = Some p' /\ p_vol p <= p_vol p'.
Proof. exact history_volumes_monotone. Qed.

(* all three instructions (trade report, create, CLOSE participant) under a monotone clock, from
   an accepted initialize_competition at time t0: the board is always well-formed, and up to and
   including the end time it shows the latest volumes and bounds everybody who is not shown *)
Theorem c39_leaderboard_history_with_close : forall t0 start end_ thr dur cap oi win ops,
  init_rc t0 start end_ thr dur cap win = 0 -> mono_from t0 ops ->
  let s' := run (init_state start end_ thr dur cap oi win) ops in
  top_board s' /\
  (last_time t0 ops <= c_end (s_comp s') -> shows_latest s' /\ off_board_bounded s').
Proof. exact history_monotone_clock. Qed.

(* ... and once the end time has passed, the competition account (board, end time) is frozen *)
Theorem c39_frozen_after_end : forall ops s, Forall (fun o => c_end (s_comp s) < op_now o) ops ->
  s_comp (run s ops) = s_comp s.
Proof. exact run_frozen_after_end. Qed.

(* extension: one instruction *)
Theorem c39_extension_bounds : forall s o s', I64MIN <= c_end (s_comp s) -> step s o = Ok s' ->
  c_end (s_comp s) <= c_end (s_comp s') <= Z.max (c_end (s_comp s)) (op_now o + c_cap (s_comp s)) /\
  (c_end (s_comp s') <> c_end (s_comp s) -> exists t sc ev cv k x au, o = Trade t (op_now o) sc ev cv k x au).
Proof. exact step_end_bounds. Qed.

(* extension: the function itself, all integers *)
Theorem c39_extend_end_bounds : forall e d c n, I64MIN <= e ->
  e <= extend_end e d c n <= Z.max e (n + c).
Proof. exact extend_end_bounds. Qed.

(* extension: whole histories *)
Theorem c39_extension_bounds_history : forall ops s tmax, I64MIN <= c_end (s_comp s) ->
  Forall (fun o => op_now o <= tmax) ops ->
  c_end (s_comp s) <= c_end (s_comp (run s ops)) <= Z.max (c_end (s_comp s)) (tmax + c_cap (s_comp s)) /\
  c_cap (s_comp (run s ops)) = c_cap (s_comp s).
Proof. exact run_end_bounds. Qed.

(* six traders, the sixth evicts the lowest; an extension is triggered *)
Example c39_ex_history :
  let ops := [Create 1 5; Create 2 5; Create 3 5; Create 4 5; Create 5 5; Create 6 5;
              Trade 1 10 true (Some (1, 0, 50)) 0 3 2 true; Trade 2 11 true (Some (2, 0, 40)) 0 3 2 true;
              Trade 3 12 true (Some (3, 0, 30)) 0 3 2 true; Trade 4 13 true (Some (4, 0, 20)) 0 3 2 true;
              Trade 5 14 true (Some (5, 0, 10)) 0 3 2 true; Trade 6 15 true (Some (6, 0, 25)) 0 3 2 true;
              Trade 5 95 true (Some (5, 10, 210)) 0 3 2 true] in
  let s := run (init_state 10 100 100 30 60 false 5) ops in
  board s = [(5, 210); (1, 50); (2, 40); (3, 30); (6, 25)] /\ c_end (s_comp s) = 130 /\
  c_trig (s_comp s) = Some 5 /\ init_rc 0 10 100 100 30 60 5 = 0 /\ mono_from 0 ops.
Proof. vm_compute. repeat split; intros; discriminate. Qed.

Example c39_ex_cap_binds : extend_end 100 30 20 95 = 115 /\ extend_end 100 30 20 70 = 100.
Proof. vm_compute. split; reflexivity. Qed.
