(* C22 — vault solvency.  An accepted balance validation means the recorded balance covers the pools; and over
   every history of bank-layer operations every market stays covered and, per token, the markets' recorded
   balances together stay within the vault. *)
From GV Require Import lib.Base C22.Model C22.Proofs.
Open Scope Z_scope.

(* validate_market_balance_for_the_given_token: the recorded balance of that token, minus the excluded amount,
   covers liquidity + swap impact + claimable fees, and separately all position collateral (raw stored amounts;
   a pure market keeps one amount per pool and one balance).  The non-negativity hypotheses of this theorem and
   the next are not needed: Proofs.validate_token_sound and Proofs.validate_sound have none. *)
Theorem c22_validate_token_sound : forall m tok ex,
  pools_nonneg m -> 0 <= ex -> validate_token m tok ex = Ok tt ->
  exists sd, token_side m tok = Some sd /\ covers_side m sd ex.
Proof. intros m tok ex _ _. apply validate_token_sound. Qed.

Theorem c22_validate_sound : forall m ex_l ex_s,
  pools_nonneg m -> 0 <= ex_l -> 0 <= ex_s -> validate m ex_l ex_s = Ok tt ->
  if pure m then covers_side m true (ex_l + ex_s)
  else covers_side m true ex_l /\ covers_side m false ex_s.
Proof. intros m ex_l ex_s _ _ _. apply validate_sound. Qed.

Theorem c22_validate_excluding_sound : forall m t1 t2 a1 a2,
  0 <= a1 -> 0 <= a2 -> validate_excluding m t1 t2 a1 a2 = Ok tt ->
  exists l s, validate m l s = Ok tt /\ 0 <= l /\ 0 <= s /\ l + s = a1 + a2 /\
    (a1 <> 0 -> token_side m t1 <> None) /\ (a2 <> 0 -> token_side m t2 <> None).
Proof. exact validate_excluding_sound. Qed.

(* validated with the outputs excluded, then the outputs are recorded out: the market ends covered with nothing
   excluded (the shape of unchecked_withdraw / decrease orders followed by MarketTransferOut) *)
Theorem c22_validated_then_paid : forall m ol os m2 m3,
  pools_nonneg m -> 0 <= ol -> 0 <= os -> 0 <= m_bl m -> 0 <= m_bs m ->
  validate m ol os = Ok tt ->
  rec_out m (m_long m) ol = Ok m2 -> rec_out m2 (m_short m2) os = Ok m3 ->
  mok m3 /\ same_shape m m3.
Proof. exact validated_then_paid. Qed.

(* one successful operation keeps every market covered and the markets' claims within the vaults *)
Theorem c22_operation_ends_validated : forall w o w',
  winv w -> op_wf o -> step w o = Ok w' -> winv w'.
Proof. exact step_winv. Qed.

(* every history of transfers in, failed-execution round trips, moves between markets sharing a vault,
   donations, validated market operations and fee claims, starting from freshly created markets and empty
   vaults: every market is covered (both pool tokens, liquidity + impact + fees and separately collateral),
   and for every token the recorded balances of all markets together never exceed the vault *)
Theorem c22_solvent_after_every_history : forall l ops,
  Forall op_wf ops ->
  let w := run ops (mkWorld (map (fun x => fresh (fst (fst x)) (snd (fst x)) (snd x)) l) []) in
  (forall m, In m (w_markets w) -> pools_nonneg m /\ covers m /\ 0 <= m_bl m /\ 0 <= m_bs m) /\
  (forall T, total (w_markets w) T <= vault (w_vaults w) T).
Proof.
  intros l ops Hf w. destruct (run_winv ops _ (winv_fresh l) Hf) as [H1 H2]. split; auto.
Qed.

(* non-vacuity *)
Definition demo_ops : list op :=
  [ TransferIn 0 10 1000; TransferIn 0 11 800; TransferIn 1 10 500;
    Operate 0 (mkPool 900 700) (mkPool 50 0) (mkPool 20 30) (mkPool 300 100) (mkPool 100 0) 0 0;
    Operate 0 (mkPool 900 700) (mkPool 50 0) (mkPool 20 30) (mkPool 300 100) (mkPool 100 0) 31 0;   (* rejected *)
    Move 0 1 10 30 true;
    Move 0 1 10 1 true;                                                                             (* rejected *)
    Donate 10 7;
    ClaimFees 0 11;
    Operate 0 (mkPool 800 600) (mkPool 50 0) (mkPool 20 0) (mkPool 300 100) (mkPool 100 0) 100 70 ].

Example c22_demo :
  let w := run demo_ops (mkWorld [fresh 0 10 11; fresh 1 10 11] []) in
  map (fun m => (m_bl m, m_bs m)) (w_markets w) = [(870, 700); (530, 0)] /\
  vault (w_vaults w) 10 = 1407 /\ vault (w_vaults w) 11 = 700.
Proof. vm_compute. repeat split. Qed.
