(* C23 — the lifecycle model: what each instruction does to the action it addresses, the invariant kept
   over all histories, and the lifecycle properties that follow. *)
From GV Require Import lib.Base lib.Checked C23.Model.
Open Scope Z_scope.

Definition ind (c : bool) : Z := if c then 1 else 0.

Definition consumed1 (a : action) : Z := if a_state a =? 1 then a_in1 a else 0.
Definition consumed2 (a : action) : Z := if a_state a =? 1 then a_in2 a else 0.
Fixpoint sum_of (f : action -> Z) (l : list action) : Z :=
  match l with [] => 0 | a :: r => f a + sum_of f r end.

(* the possible results of process + close in step_close *)
Definition close_stage0 (a : action) : action := a.
Definition close_stage1 (a : action) : action :=
  upd_close a true (a_esc1 a) (a_esc2 a) 0 (a_lamports a)
            (a_paid1 a) (a_paid2 a) (a_paid_out a + a_esc_out a) (a_paid_lamports a).
Definition close_stage2 (a : action) : action :=
  upd_close a true 0 (a_esc2 a) 0 (a_lamports a)
            (a_paid1 a + a_esc1 a) (a_paid2 a) (a_paid_out a + a_esc_out a) (a_paid_lamports a).
Definition close_stage3 (a : action) : action :=
  upd_close a false 0 0 0 0
            (a_paid1 a + a_esc1 a) (a_paid2 a + a_esc2 a) (a_paid_out a + a_esc_out a)
            (a_paid_lamports a + a_lamports a).

Lemma state_of_byte_ok b s : state_of_byte b = Ok s -> b = byte_of_state s.
Proof.
  unfold state_of_byte. destruct (Z.eqb_spec b 0) as [->|_]; [now intros [= <-]|].
  destruct (Z.eqb_spec b 1) as [->|_]; [now intros [= <-]|].
  destruct (Z.eqb_spec b 2) as [->|_]; [now intros [= <-]|discriminate].
Qed.

Lemma hdr_completed_ok b b' : hdr_completed b = Ok b' -> b = 0 /\ b' = 1.
Proof.
  intros (s & ->%state_of_byte_ok & H)%rbind_ok. destruct s; cbn in H; try discriminate. now injection H as <-.
Qed.

Lemma hdr_cancelled_ok b b' : hdr_cancelled b = Ok b' -> b = 0 /\ b' = 2.
Proof.
  intros (s & ->%state_of_byte_ok & H)%rbind_ok. destruct s; cbn in H; try discriminate. now injection H as <-.
Qed.

(* terminal states reject every transition: the heart of "exactly once" *)
Lemma hdr_completed_terminal b : byte_terminal b = true -> exists e, hdr_completed b = Err e.
Proof.
  unfold byte_terminal. intro H. apply Bool.orb_true_iff in H as [H|H]; apply Z.eqb_eq in H; subst;
    cbn; eauto.
Qed.
Lemma hdr_cancelled_terminal b : byte_terminal b = true -> exists e, hdr_cancelled b = Err e.
Proof.
  unfold byte_terminal. intro H. apply Bool.orb_true_iff in H as [H|H]; apply Z.eqb_eq in H; subst;
    cbn; eauto.
Qed.

Lemma preprocess_ok caller owner r s b io :
  preprocess caller owner r s b = Ok io ->
  if io then caller = owner else caller <> owner /\ r = true /\ (s = true \/ byte_terminal b = true).
Proof.
  unfold preprocess. destruct (Z.eqb_spec caller owner); [now intros [= <-]|].
  destruct r; [|discriminate]. destruct s; cbn [negb]; [intros [= <-]; auto|].
  intros (st & ->%state_of_byte_ok & H)%rbind_ok. destruct st; [discriminate|..]; injection H as <-; cbn; auto.
Qed.

Lemma pay_fee_ok lam mb x lam' paid :
  pay_fee lam mb x = Ok (lam', paid) -> paid = x /\ lam' = lam - x /\ (0 < mb -> mb <= lam').
Proof.
  unfold pay_fee. destruct (Z.max 0 (lam - x) <? mb) eqn:E; [discriminate|]. apply Z.ltb_ge in E.
  intros [= <- <-]. repeat split. lia.
Qed.

Lemma execution_lamports_bounds m f : 0 <= m -> 0 <= f ->
  0 <= execution_lamports m f <= m /\ execution_lamports m f <= f.
Proof. unfold execution_lamports. lia. Qed.

Lemma nth_set_nth_eq l : forall n a x, nth_error l n = Some x -> nth_error (set_nth l n a) n = Some a.
Proof. induction l; intros [|n] b x H; cbn in *; try discriminate; eauto. Qed.

Lemma nth_set_nth_neq l : forall n m a, n <> m -> nth_error (set_nth l n a) m = nth_error l m.
Proof. induction l; intros [|n] [|m] b H; cbn in *; try congruence; auto. Qed.

Lemma length_set_nth l : forall n a, length (set_nth l n a) = length l.
Proof. induction l; intros [|n] b; cbn; auto. Qed.

Lemma get_put_eq w id a x : get w id = Some x -> get (put w id a) id = Some a.
Proof. unfold get, put. cbn. destruct (id <? 0); [discriminate|]. apply nth_set_nth_eq. Qed.

Lemma get_put_neq w id id' a x : get w id = Some x -> id <> id' -> get (put w id a) id' = get w id'.
Proof.
  unfold get, put. cbn. destruct (Z.ltb_spec id 0); [discriminate|]. intros _ Hne.
  destruct (Z.ltb_spec id' 0); [reflexivity|]. apply nth_set_nth_neq. intros Hc%Z2Nat.inj; auto.
Qed.

Lemma get_with_market w b1 b2 r id : get (with_market w b1 b2 r) id = get w id.
Proof. reflexivity. Qed.

Lemma live_ok w id a : live w id = Ok a -> get w id = Some a /\ a_open a = true.
Proof.
  unfold live. destruct (get w id) as [x|]; [|discriminate]. destruct (a_open x) eqn:Eo; [|discriminate].
  now intros [= <-].
Qed.

Lemma get_app_old w a id x :
  get w id = Some x -> get (mkWorld (w_actions w ++ [a]) (w_bal1 w) (w_bal2 w) (w_rev w)) id = Some x.
Proof.
  unfold get. cbn. destruct (id <? 0); [discriminate|]. intro H.
  rewrite nth_error_app1; auto. apply nth_error_Some. congruence.
Qed.

Record ainv (a : action) : Prop := {
  i_state : a_state a = 0 \/ a_state a = 1 \/ a_state a = 2;
  i_done : a_done a = ind (a_state a =? 1);
  i_cancel : a_cancel a = ind (a_state a =? 2);
  i_tok1 : a_funded1 a = a_esc1 a + a_paid1 a + (if a_state a =? 1 then a_in1 a else 0);
  i_tok2 : a_funded2 a = a_esc2 a + a_paid2 a + (if a_state a =? 1 then a_in2 a else 0);
  i_lam : a_lamports_in a = a_lamports a + a_fee_paid a + a_paid_lamports a;
  i_fee : 0 <= a_fee_paid a <= a_max_exec a * (a_done a + a_cancel a);
  i_closed : a_open a = false -> a_esc1 a = 0 /\ a_esc2 a = 0 /\ a_esc_out a = 0 /\ a_lamports a = 0;
  i_open : a_open a = true -> a_min_balance a <= a_lamports a;
  i_nonneg : 0 <= a_esc1 a /\ 0 <= a_esc2 a /\ 0 <= a_esc_out a /\ 0 <= a_in1 a /\ 0 <= a_in2 a /\
             0 <= a_max_exec a /\ 0 < a_min_balance a /\ 0 <= a_paid1 a /\ 0 <= a_paid2 a /\
             0 <= a_paid_out a /\ 0 <= a_paid_lamports a
}.

Record winv (w : world) : Prop := {
  wi_all : forall id a, get w id = Some a -> ainv a;
  wi_bal1 : w_bal1 w = sum_of consumed1 (w_actions w);
  wi_bal2 : w_bal2 w = sum_of consumed2 (w_actions w);
  wi_rev : 0 <= w_rev w
}.

Lemma sum_of_app f l1 l2 : sum_of f (l1 ++ l2) = sum_of f l1 + sum_of f l2.
Proof. induction l1; cbn; lia. Qed.

Lemma sum_of_set_nth f l : forall n a x, nth_error l n = Some x ->
  sum_of f (set_nth l n a) = sum_of f l - f x + f a.
Proof.
  induction l; intros [|n] b x H; cbn in *; try discriminate.
  - injection H as ->. lia.
  - rewrite (IHl _ _ _ H). lia.
Qed.

Lemma sum_put f w id a x : get w id = Some x ->
  sum_of f (w_actions (put w id a)) = sum_of f (w_actions w) - f x + f a.
Proof. unfold get, put. cbn. destruct (id <? 0); [discriminate|]. apply sum_of_set_nth. Qed.

Lemma winv_w0 : winv w0.
Proof.
  split; cbn; try lia. intros id a. unfold get. cbn.
  destruct (id <? 0); [discriminate|]. destruct (Z.to_nat id); discriminate.
Qed.

Lemma winv_put w id a x b1 b2 r :
  winv w -> get w id = Some x -> ainv a ->
  b1 = w_bal1 w - consumed1 x + consumed1 a ->
  b2 = w_bal2 w - consumed2 x + consumed2 a -> 0 <= r ->
  winv (with_market (put w id a) b1 b2 r).
Proof.
  intros [Ha H1 H2 Hr] Hg Hi Hb1 Hb2 Hr'. split; cbn [w_bal1 w_bal2 w_rev with_market]; auto.
  - intros id' a'. rewrite get_with_market. destruct (Z.eq_dec id id') as [<-|Hne].
    + rewrite (get_put_eq _ _ _ _ Hg). now intros [= <-].
    + rewrite (get_put_neq _ _ _ _ _ Hg Hne). apply Ha.
  - change (b1 = sum_of consumed1 (w_actions (put w id a))). rewrite (sum_put _ _ _ _ _ Hg). lia.
  - change (b2 = sum_of consumed2 (w_actions (put w id a))). rewrite (sum_put _ _ _ _ _ Hg). lia.
Qed.

Lemma winv_app w a :
  winv w -> ainv a -> consumed1 a = 0 -> consumed2 a = 0 ->
  winv (mkWorld (w_actions w ++ [a]) (w_bal1 w) (w_bal2 w) (w_rev w)).
Proof.
  intros [Ha H1 H2 Hr] I C1 C2. split; cbn [w_actions w_bal1 w_bal2 w_rev]; auto.
  - intros id x. unfold get. cbn [w_actions]. destruct (id <? 0) eqn:E; [discriminate|].
    destruct (Nat.lt_ge_cases (Z.to_nat id) (length (w_actions w))) as [Hlt|Hge].
    + rewrite nth_error_app1 by auto. intro Hg. apply (Ha id). unfold get. now rewrite E.
    + rewrite nth_error_app2 by auto. destruct (Z.to_nat id - length (w_actions w))%nat as [|[|n]]; cbn;
        [now intros [= <-]|discriminate..].
  - rewrite sum_of_app. cbn. lia.
  - rewrite sum_of_app. cbn. lia.
Qed.

Lemma step_create_inv w owner funder kind in1 in2 exec dl w' :
  step_create w owner funder kind in1 in2 exec dl = Ok w' ->
  0 <= in1 /\ 0 <= in2 /\ 0 <= exec /\ 0 <= dl /\ 0 <= kind <= 6 /\
  w' = mkWorld (w_actions w ++
                [mkAction true kind 0 owner (if kind =? 6 then funder else owner) in1 in2 in1 in2 0
                          (rent_min dl + exec) (rent_min dl) exec 0 0 0 0 0 0 0 in1 in2 (rent_min dl + exec)])
               (w_bal1 w) (w_bal2 w) (w_rev w).
Proof.
  unfold step_create. destruct (_ || _) eqn:E; [discriminate|]. intros [= <-].
  repeat (apply Bool.orb_false_iff in E as [E ?%Z.ltb_ge]). apply Z.ltb_ge in E. repeat split; auto; lia.
Qed.

Lemma step_execute_inv w k id oc throw fee out w' :
  step_execute w k id oc throw fee out = Ok w' ->
  exists a d st x,
    k = true /\ get w id = Some a /\ a_open a = true /\ 0 <= fee /\ 0 <= out /\
    a_in1 a <= a_esc1 a /\ a_in2 a <= a_esc2 a /\
    exec_decision oc throw = Ok d /\
    (if d then hdr_completed (a_state a) else hdr_cancelled (a_state a)) = Ok st /\
    x = execution_lamports (a_max_exec a) fee /\
    (0 < a_min_balance a -> a_min_balance a <= a_lamports a - x) /\
    w' = (if d then
            with_market (put w id (upd_exec a st (a_esc1 a - a_in1 a) (a_esc2 a - a_in2 a) (a_esc_out a + out)
                                            (a_lamports a - x) (a_done a + 1) (a_cancel a) (a_fee_paid a + x)))
                        (w_bal1 w + a_in1 a) (w_bal2 w + a_in2 a) (w_rev w + 1)
          else put w id (upd_exec a st (a_esc1 a) (a_esc2 a) (a_esc_out a) (a_lamports a - x)
                                  (a_done a) (a_cancel a + 1) (a_fee_paid a + x))).
Proof.
  unfold step_execute. intro H. destruct k; [|discriminate]. cbn [negb] in H.
  destruct (_ || _) eqn:Ef in H; [discriminate|]. apply Bool.orb_false_iff in Ef as [Ef1%Z.ltb_ge Ef2%Z.ltb_ge].
  apply rbind_ok in H as (a & [Hg Ho]%live_ok & H).
  destruct (_ || _) eqn:Ee in H; [discriminate|]. apply Bool.orb_false_iff in Ee as [Ee1%Z.ltb_ge Ee2%Z.ltb_ge].
  apply rbind_ok in H as (d & Hd & H). apply rbind_ok in H as (st & Hs & H).
  apply rbind_ok in H as ([lam' paid] & (-> & -> & Hp)%pay_fee_ok & H).
  exists a, d, st, (execution_lamports (a_max_exec a) fee). repeat split; auto. destruct d; now injection H as <-.
Qed.

Lemma step_cancel_inv w k id w' :
  step_cancel_if_no_position w k id = Ok w' ->
  exists a st, k = true /\ get w id = Some a /\ a_open a = true /\ a_kind a = 3 /\
    hdr_cancelled (a_state a) = Ok st /\
    w' = put w id (upd_exec a st (a_esc1 a) (a_esc2 a) (a_esc_out a) (a_lamports a)
                            (a_done a) (a_cancel a + 1) (a_fee_paid a)).
Proof.
  unfold step_cancel_if_no_position. intro H. destruct k; [|discriminate]. cbn [negb] in H.
  apply rbind_ok in H as (a & [Hg Ho]%live_ok & H).
  destruct (Z.eqb_spec (a_kind a) 3) as [Ek|_]; [|discriminate]. cbn [negb] in H.
  apply rbind_ok in H as (st & Hs & [= <-]). exists a, st. auto 6.
Qed.

Lemma step_close_inv w caller r id ce ao a1 a2 w' :
  step_close w caller r id ce ao a1 a2 = Ok w' ->
  exists a s io,
    get w id = Some a /\ a_open a = true /\
    (a_kind a = 6 -> r = true) /\
    state_of_byte (a_state a) = Ok s /\ (st_is_pending s = true -> ce = true) /\
    preprocess caller (a_owner a) r (skip_check (a_kind a) caller (a_funder a)) (a_state a) = Ok io /\
    (w' = w \/ w' = put w id (close_stage1 a) \/ w' = put w id (close_stage2 a) \/
     w' = put w id (close_stage3 a)).
Proof.
  unfold step_close. intro H. apply rbind_ok in H as (a & [Hg Ho]%live_ok & H).
  destruct (_ && _) eqn:Ek in H; [discriminate|]. apply rbind_ok in H as (s & Es & H).
  destruct (_ && _) eqn:Ec in H; [discriminate|]. apply rbind_ok in H as (io & Ep & H).
  exists a, s, io. split; [exact Hg|]. split; [exact Ho|].
  split; [intros Hk; rewrite Hk in Ek; now destruct r|]. split; [exact Es|].
  split; [intros Hp; rewrite Hp in Ec; now destruct ce|]. split; [exact Ep|].
  destruct (negb (xfer_ok io ao (a_esc_out a))); [injection H as <-; auto|].
  cbn [a_esc1 a_esc2 a_esc_out a_lamports a_paid1 a_paid2 a_paid_out a_paid_lamports upd_close] in H.
  destruct (negb (xfer_ok io a1 (a_esc1 a))); [injection H as <-; auto|].
  destruct (negb (xfer_ok io a2 (a_esc2 a))); injection H as <-; auto.
Qed.

Lemma ainv_created owner funder kind in1 in2 exec dl :
  0 <= in1 -> 0 <= in2 -> 0 <= exec -> 0 <= dl ->
  ainv (mkAction true kind 0 owner funder in1 in2 in1 in2 0 (rent_min dl + exec) (rent_min dl) exec
                 0 0 0 0 0 0 0 in1 in2 (rent_min dl + exec)).
Proof.
  intros. assert (0 < rent_min dl) by (unfold rent_min; lia).
  split; cbn; auto; try lia; discriminate.
Qed.

Lemma ainv_exec_done a out x :
  ainv a -> a_open a = true -> a_state a = 0 -> 0 <= out ->
  a_in1 a <= a_esc1 a -> a_in2 a <= a_esc2 a ->
  0 <= x <= a_max_exec a -> a_min_balance a <= a_lamports a - x ->
  ainv (upd_exec a 1 (a_esc1 a - a_in1 a) (a_esc2 a - a_in2 a) (a_esc_out a + out)
                 (a_lamports a - x) (a_done a + 1) (a_cancel a) (a_fee_paid a + x)).
Proof.
  intros [] Ho Hs Hout H1 H2 Hx Hl. rewrite Hs in *. unfold ind in *. cbn in *.
  split; cbn; unfold ind; cbn; auto; try lia; congruence.
Qed.

Lemma ainv_exec_cancel a lam fee :
  ainv a -> a_open a = true -> a_state a = 0 ->
  lam + fee = a_lamports a + a_fee_paid a -> a_fee_paid a <= fee <= a_fee_paid a + a_max_exec a ->
  a_min_balance a <= lam ->
  ainv (upd_exec a 2 (a_esc1 a) (a_esc2 a) (a_esc_out a) lam (a_done a) (a_cancel a + 1) fee).
Proof.
  intros [] Ho Hs Hsum Hfee Hl. rewrite Hs in *. unfold ind in *. cbn in *.
  split; cbn; unfold ind; cbn; auto; try lia; congruence.
Qed.

(* a close only moves escrowed tokens and lamports to the paid counters, and leaves a closed account empty *)
Lemma ainv_upd_close a (opn : bool) e1 e2 eo lam p1 p2 po pl :
  ainv a -> a_open a = true ->
  0 <= e1 -> 0 <= e2 -> 0 <= eo -> a_paid1 a <= p1 -> a_paid2 a <= p2 -> a_paid_out a <= po -> a_paid_lamports a <= pl ->
  e1 + p1 = a_esc1 a + a_paid1 a -> e2 + p2 = a_esc2 a + a_paid2 a -> lam + pl = a_lamports a + a_paid_lamports a ->
  (if opn then lam = a_lamports a else e1 = 0 /\ e2 = 0 /\ eo = 0 /\ lam = 0) ->
  ainv (upd_close a opn e1 e2 eo lam p1 p2 po pl).
Proof.
  intros [] Ho. intros. specialize (i_open0 Ho). destruct opn; split; cbn; auto; try lia; discriminate.
Qed.

Lemma consumed_close a :
  consumed1 (close_stage1 a) = consumed1 a /\ consumed1 (close_stage2 a) = consumed1 a /\
  consumed1 (close_stage3 a) = consumed1 a /\
  consumed2 (close_stage1 a) = consumed2 a /\ consumed2 (close_stage2 a) = consumed2 a /\
  consumed2 (close_stage3 a) = consumed2 a.
Proof. repeat split; reflexivity. Qed.

Definition same_identity (a a' : action) : Prop :=
  a_kind a' = a_kind a /\ a_owner a' = a_owner a /\ a_funder a' = a_funder a /\
  a_in1 a' = a_in1 a /\ a_in2 a' = a_in2 a /\ a_max_exec a' = a_max_exec a /\
  a_min_balance a' = a_min_balance a /\ a_funded1 a' = a_funded1 a /\ a_funded2 a' = a_funded2 a /\
  a_lamports_in a' = a_lamports_in a.

(* [evolves a a']: what can happen to an existing action in any number of successful steps *)
Definition evolves (a a' : action) : Prop :=
  same_identity a a' /\
  (* terminal states are absorbing; any change of state starts at Pending *)
  (a_state a' = a_state a \/ (a_state a = 0 /\ (a_state a' = 1 \/ a_state a' = 2))) /\
  a_done a <= a_done a' /\ a_cancel a <= a_cancel a' /\
  (a_open a = false -> a' = a).

Lemma evolves_refl a : evolves a a.
Proof. unfold evolves, same_identity. repeat split; auto; lia. Qed.

Lemma evolves_trans a b c : evolves a b -> evolves b c -> evolves a c.
Proof.
  unfold evolves, same_identity.
  intros (I1 & S1 & D1 & C1 & O1) (I2 & S2 & D2 & C2 & O2).
  destruct I1 as (?&?&?&?&?&?&?&?&?&?), I2 as (?&?&?&?&?&?&?&?&?&?).
  split; [repeat split; congruence|]. split; [|split; [lia|split; [lia|]]].
  - destruct S1 as [S1|[S1 S1']], S2 as [S2|[S2 S2']].
    + left; congruence.
    + right. split; [congruence|auto].
    + right. split; auto. destruct S1'; [left|right]; congruence.
    + exfalso. destruct S1'; lia.
  - intro Hc. pose proof (O1 Hc) as ->. auto.
Qed.

Lemma evolves_upd_exec a st e1 e2 eo lam dn cn fee :
  a_open a = true -> a_state a = 0 -> st = 1 \/ st = 2 -> a_done a <= dn -> a_cancel a <= cn ->
  evolves a (upd_exec a st e1 e2 eo lam dn cn fee).
Proof. intros Ho Hs Hst Hd Hc. unfold evolves, same_identity. cbn. repeat split; auto. congruence. Qed.

Lemma evolves_upd_close a opn e1 e2 eo lam p1 p2 po pl :
  a_open a = true -> evolves a (upd_close a opn e1 e2 eo lam p1 p2 po pl).
Proof. intros Ho. unfold evolves, same_identity. cbn. repeat split; auto; try lia. congruence. Qed.

(* The shape every successful instruction has: it appends a fresh action, or does nothing, or replaces the
   action it addresses by one it evolves into and that keeps the invariant, the market balances following
   the consumed inputs. *)
Lemma step_shape w o w' :
  step w o = Ok w' ->
  (exists a, w' = mkWorld (w_actions w ++ [a]) (w_bal1 w) (w_bal2 w) (w_rev w) /\
             ainv a /\ consumed1 a = 0 /\ consumed2 a = 0) \/
  w' = w \/
  exists id a a' b1 b2 r,
    w' = with_market (put w id a') b1 b2 r /\ get w id = Some a /\ evolves a a' /\ (ainv a -> ainv a') /\
    b1 = w_bal1 w - consumed1 a + consumed1 a' /\ b2 = w_bal2 w - consumed2 a + consumed2 a' /\ w_rev w <= r.
Proof.
  intro H. destruct o; cbn [step] in H.
  - left. apply step_create_inv in H as (H1 & H2 & H3 & H4 & _ & ->).
    eexists. split; [reflexivity|]. split; [apply ainv_created; assumption|]. split; reflexivity.
  - right; right.
    apply step_execute_inv in H as (a & d & st & x & _ & Hg & Ho & Hf & Hout & H1 & H2 & _ & Hs & -> & Hp & ->).
    assert (B : ainv a -> 0 <= execution_lamports (a_max_exec a) fee <= a_max_exec a /\
                          a_min_balance a <= a_lamports a - execution_lamports (a_max_exec a) fee).
    { intros I. pose proof (i_nonneg _ I). split; [apply execution_lamports_bounds|apply Hp]; lia. }
    destruct d.
    + apply hdr_completed_ok in Hs as [Hs ->]. eexists id, a, _, _, _, _. split; [reflexivity|].
      split; [exact Hg|]. split; [apply evolves_upd_exec; auto; lia|].
      split; [intros I; apply ainv_exec_done; auto; apply (B I)|].
      unfold consumed1, consumed2. cbn. rewrite Hs. cbn. lia.
    + apply hdr_cancelled_ok in Hs as [Hs ->]. eexists id, a, _, (w_bal1 w), (w_bal2 w), (w_rev w).
      split; [reflexivity|]. split; [exact Hg|]. split; [apply evolves_upd_exec; auto; lia|].
      split; [intros I; destruct (B I); apply ainv_exec_cancel; auto; lia|].
      unfold consumed1, consumed2. cbn. rewrite Hs. cbn. lia.
  - apply step_close_inv in H as (a & s & io & Hg & Ho & _ & _ & _ & _ & Hw).
    destruct Hw as [-> | Hw]; [auto|]. right; right.
    assert (exists a', w' = put w id a' /\ evolves a a' /\ (ainv a -> ainv a') /\
                       consumed1 a' = consumed1 a /\ consumed2 a' = consumed2 a) as (a' & -> & E & I & C1 & C2).
    { destruct Hw as [-> | [-> | ->]]; eexists; (split; [reflexivity|]);
        (split; [apply evolves_upd_close, Ho|]); (split; [|split; reflexivity]); intros I;
        pose proof (i_nonneg _ I); pose proof (i_open _ I Ho); apply ainv_upd_close; cbn; auto; lia. }
    exists id, a, a', (w_bal1 w), (w_bal2 w), (w_rev w). split; [reflexivity|]. split; [exact Hg|].
    split; [exact E|]. split; [exact I|]. lia.
  - right; right. apply step_cancel_inv in H as (a & st & _ & Hg & Ho & _ & [Hs ->]%hdr_cancelled_ok & ->).
    eexists id, a, _, (w_bal1 w), (w_bal2 w), (w_rev w).
    split; [reflexivity|]. split; [exact Hg|]. split; [apply evolves_upd_exec; auto; lia|].
    split; [|unfold consumed1, consumed2; cbn; rewrite Hs; cbn; lia].
    intros I. pose proof (i_nonneg _ I). pose proof (i_open _ I Ho).
    apply ainv_exec_cancel; auto; lia.
Qed.

Lemma step_winv w o w' : winv w -> step w o = Ok w' -> winv w'.
Proof.
  intros W [(a & -> & I & C1 & C2)|[->|(id & a & a' & b1 & b2 & r & -> & Hg & _ & I & B1 & B2 & R)]]%step_shape.
  - apply winv_app; assumption.
  - exact W.
  - apply (winv_put w id a' a); auto; [exact (I (wi_all _ W _ _ Hg))|]. pose proof (wi_rev _ W). lia.
Qed.

Lemma run_winv ops w : winv w -> winv (run ops w).
Proof.
  apply fold_left_inv. intros w1 o _ W. unfold apply. destruct (step w1 o) eqn:E; [eapply step_winv; eauto|exact W].
Qed.

Lemma reachable_ainv ops id a : get (run ops w0) id = Some a -> ainv a.
Proof. apply (wi_all _ (run_winv ops w0 winv_w0)). Qed.

Lemma step_evolves w o w' id x :
  step w o = Ok w' -> get w id = Some x -> exists x', get w' id = Some x' /\ evolves x x'.
Proof.
  intros [(a & -> & _)|[->|(id0 & a & a' & b1 & b2 & r & -> & Hg & E & _)]]%step_shape Hx.
  - exists x. split; [apply get_app_old, Hx|apply evolves_refl].
  - exists x. split; [exact Hx|apply evolves_refl].
  - rewrite get_with_market. destruct (Z.eq_dec id0 id) as [->|Hne].
    + rewrite (get_put_eq _ _ _ _ Hg). rewrite Hg in Hx. injection Hx as <-. eauto.
    + rewrite (get_put_neq _ _ _ _ _ Hg Hne). exists x. split; [exact Hx|apply evolves_refl].
Qed.

Lemma run_evolves ops w id a :
  get w id = Some a -> exists a', get (run ops w) id = Some a' /\ evolves a a'.
Proof.
  intro Hg. apply (fold_left_inv apply (fun w' => exists a', get w' id = Some a' /\ evolves a a'));
    [|exists a; split; [exact Hg|apply evolves_refl]].
  intros w1 o _ (b & Hb & Eb). unfold apply. destruct (step w1 o) eqn:E; [|eauto].
  destruct (step_evolves _ _ _ _ _ E Hb) as (c & Hc & Ec). exists c. split; [exact Hc|eapply evolves_trans; eauto].
Qed.

Lemma run_app ops1 ops2 w : run (ops1 ++ ops2) w = run ops2 (run ops1 w).
Proof. apply fold_left_app. Qed.

Lemma terminal_absorbing ops w id a :
  get w id = Some a -> byte_terminal (a_state a) = true ->
  exists a', get (run ops w) id = Some a' /\ a_state a' = a_state a /\ a_owner a' = a_owner a.
Proof.
  intros Hg Ht. destruct (run_evolves ops w id a Hg) as (a' & Hg' & (I & S & _)).
  exists a'. repeat split; auto.
  - destruct S as [S|[S _]]; auto. unfold byte_terminal in Ht. rewrite S in Ht. discriminate.
  - apply I.
Qed.

Lemma exactly_once ops id a :
  get (run ops w0) id = Some a ->
  a_done a + a_cancel a = ind (byte_terminal (a_state a)) /\
  (a_done a = 1 <-> a_state a = 1) /\ (a_cancel a = 1 <-> a_state a = 2) /\
  0 <= a_done a <= 1 /\ 0 <= a_cancel a <= 1.
Proof.
  intros [S D C]%reachable_ainv. unfold byte_terminal, ind in *.
  destruct S as [S|[S|S]]; rewrite S in *; cbn in *; lia.
Qed.

Lemma close_rules w caller r id ce ao a1 a2 w' a :
  step w (Close caller r id ce ao a1 a2) = Ok w' -> get w id = Some a ->
  a_open a = true /\
  (caller = a_owner a \/
   (r = true /\ (byte_terminal (a_state a) = true \/ (a_kind a = 6 /\ caller = a_funder a)))).
Proof.
  intros (b & s & io & Hgb & Ho & _ & _ & _ & Hp & _)%step_close_inv Hg.
  rewrite Hg in Hgb. injection Hgb as <-. split; [exact Ho|].
  apply preprocess_ok in Hp. destruct io as [|]; [auto|]. destruct Hp as (_ & Hr & [Hs|Ht]); [|auto].
  apply Bool.andb_true_iff in Hs as [Hs1%Z.eqb_eq Hs2%Z.eqb_eq]. auto.
Qed.

Lemma close_refund w caller r id ce ao a1 a2 w' a a' :
  step w (Close caller r id ce ao a1 a2) = Ok w' -> get w id = Some a -> get w' id = Some a' ->
  a_open a' = false ->
  a_paid1 a' = a_paid1 a + a_esc1 a /\ a_paid2 a' = a_paid2 a + a_esc2 a /\
  a_paid_out a' = a_paid_out a + a_esc_out a /\ a_paid_lamports a' = a_paid_lamports a + a_lamports a /\
  a_esc1 a' = 0 /\ a_esc2 a' = 0 /\ a_esc_out a' = 0 /\ a_lamports a' = 0 /\ a_state a' = a_state a.
Proof.
  intros (b & s & io & Hgb & Ho & _ & _ & _ & _ & Hw)%step_close_inv Hg Hg' Hc.
  rewrite Hg in Hgb. injection Hgb as <-.
  (* only the last stage leaves the account closed *)
  destruct Hw as [-> | [-> | [-> | ->]]]; [|rewrite (get_put_eq _ _ _ _ Hg) in Hg'..];
    rewrite ?Hg in Hg'; injection Hg' as <-; [congruence|discriminate..|]. cbn. repeat split; auto.
Qed.

Lemma close_frame w caller r id ce ao a1 a2 w' :
  step w (Close caller r id ce ao a1 a2) = Ok w' ->
  w_bal1 w' = w_bal1 w /\ w_bal2 w' = w_bal2 w /\ w_rev w' = w_rev w /\
  forall id', id' <> id -> get w' id' = get w id'.
Proof.
  intros (b & s & io & Hgb & Ho & _ & _ & _ & _ & Hw)%step_close_inv.
  destruct Hw as [-> | [-> | [-> | ->]]]; repeat split; auto; intros id' Hne;
    apply (get_put_neq _ _ _ _ _ Hgb); auto.
Qed.

Lemma failed_execution w k kp id oc throw fee out w' a :
  step w (Execute k kp id oc throw fee out) = Ok w' -> get w id = Some a ->
  oc <> ExOk ->
  exists a',
    get w' id = Some a' /\ a_state a = 0 /\ a_state a' = 2 /\ throw = false /\
    a_cancel a' = a_cancel a + 1 /\ a_done a' = a_done a /\
    a_esc1 a' = a_esc1 a /\ a_esc2 a' = a_esc2 a /\ a_esc_out a' = a_esc_out a /\
    a_lamports a - a_lamports a' = execution_lamports (a_max_exec a) fee /\
    w_bal1 w' = w_bal1 w /\ w_bal2 w' = w_bal2 w /\ w_rev w' = w_rev w /\
    forall id', id' <> id -> get w' id' = get w id'.
Proof.
  intros (b & d & st & x & -> & Hgb & Ho & _ & _ & _ & _ & Hd & Hs & -> & _ & ->)%step_execute_inv Hg Hoc.
  rewrite Hg in Hgb. injection Hgb as <-.
  assert (d = false /\ throw = false) as [-> ->].
  { destruct oc, throw; cbn in Hd; try congruence; now injection Hd as <-. }
  apply hdr_cancelled_ok in Hs as [Hs0 ->].
  eexists. split; [eapply get_put_eq; eauto|]. cbn.
  repeat split; auto; try lia.
  intros id' Hne. apply (get_put_neq _ _ _ _ _ Hg). auto.
Qed.

Lemma hard_failure_errors w k kp id oc fee out :
  oc <> ExOk -> exists e, step w (Execute k kp id oc true fee out) = Err e.
Proof.
  intro Hoc. destruct (step w (Execute k kp id oc true fee out)) as [w'|e] eqn:H; [|eauto].
  apply step_execute_inv in H as (a & d & _ & _ & _ & _ & _ & _ & _ & _ & _ & Hd & _).
  destruct oc; cbn in Hd; congruence.
Qed.

Lemma execute_rules w k kp id oc throw fee out w' a :
  step w (Execute k kp id oc throw fee out) = Ok w' -> get w id = Some a ->
  k = true /\ a_open a = true /\ a_state a = 0.
Proof.
  intros (b & d & st & x & -> & Hgb & Ho & _ & _ & _ & _ & Hd & Hs & _)%step_execute_inv Hg.
  rewrite Hg in Hgb. injection Hgb as <-. repeat split; auto.
  destruct d; [apply hdr_completed_ok in Hs|apply hdr_cancelled_ok in Hs]; tauto.
Qed.

Lemma pending_close_full_refund ops caller r id ce ao a1 a2 w' a a' :
  step (run ops w0) (Close caller r id ce ao a1 a2) = Ok w' ->
  get (run ops w0) id = Some a -> get w' id = Some a' ->
  a_state a = 0 -> a_open a' = false ->
  (caller = a_owner a \/ (a_kind a = 6 /\ caller = a_funder a /\ r = true)) /\
  a_paid1 a' = a_funded1 a /\ a_paid2 a' = a_funded2 a /\ a_paid_lamports a' = a_lamports_in a /\
  a_fee_paid a = 0.
Proof.
  intros H Hg Hg' Hs Hc.
  pose proof (close_rules _ _ _ _ _ _ _ _ _ _ H Hg) as [Ho Hr].
  pose proof (close_refund _ _ _ _ _ _ _ _ _ _ _ H Hg Hg' Hc) as (P1 & P2 & P3 & P4 & _).
  apply reachable_ainv in Hg as [_ D C T1 T2 L F _ _ _]. rewrite Hs in *. cbn in *.
  assert (a_fee_paid a = 0) by (rewrite D, C in F; lia).
  split; [|repeat split; auto; lia].
  destruct Hr as [Hr|(Hr & [Ht|(Hk & Hf)])]; auto. discriminate.
Qed.
