(* Facts about variables that the proofs share: floor and ceiling division, truncating division
   ([Z.quot]) by a positive divisor, positivity of powers. *)
From GV Require Import lib.Base.
Open Scope Z_scope.

(* From here on, and in every file that imports this one, lia and nia understand / and mod. *)
Ltac Zify.zify_post_hook ::= Z.div_mod_to_equations.

Lemma div_floor_spec a d : 0 < d -> d * (a / d) <= a < d * (a / d) + d.
Proof. intros Hd. pose proof (Z.mul_div_le a d Hd). pose proof (Z.mul_succ_div_gt a d Hd). lia. Qed.

Lemma div_floor_unique a d q : 0 < d -> d * q <= a < d * q + d -> a / d = q.
Proof. intros Hd H. symmetry. apply (Z.div_unique a d q (a - d * q)); lia. Qed.

(* ceil(a/d) = (a + d - 1) / d *)
Lemma ceil_spec a d : 0 < d -> d * ((a + d - 1) / d - 1) < a <= d * ((a + d - 1) / d).
Proof. intros Hd. pose proof (div_floor_spec (a + d - 1) d Hd). lia. Qed.

Lemma ceil_unique a d r : 0 < d -> d * (r - 1) < a <= d * r -> (a + d - 1) / d = r.
Proof. intros Hd H. apply div_floor_unique; lia. Qed.

Lemma div_mono_num a b d : 0 < d -> a <= b -> a / d <= b / d.
Proof. intros; apply Z.div_le_mono; lia. Qed.

Lemma div_nonneg a d : 0 <= a -> 0 < d -> 0 <= a / d.
Proof. intros; apply Z.div_pos; lia. Qed.

Lemma mul_div_nonneg a b d : 0 <= a -> 0 <= b -> 0 < d -> 0 <= a * b / d.
Proof. intros Ha Hb Hd. apply div_nonneg; [apply Z.mul_nonneg_nonneg|]; assumption. Qed.

Lemma div_le_self a d : 0 <= a -> 0 < d -> a / d <= a.
Proof.
  intros Ha Hd. destruct (Z.eq_dec d 1) as [->|].
  - rewrite Z.div_1_r; lia.
  - pose proof (Z.div_lt_upper_bound a d (a+1)). assert (a < d * (a+1)) by nia. lia.
Qed.

Lemma mul_div_le_self a f d : 0 <= a -> 0 <= f <= d -> 0 < d -> a * f / d <= a.
Proof. intros Ha Hf Hd. apply Z.div_le_upper_bound; [exact Hd|]. rewrite Z.mul_comm. apply Z.mul_le_mono_nonneg_r; lia. Qed.

Lemma mul_div_le_l a b c : 0 <= a -> 0 < c -> a * (b / c) <= a * b / c.
Proof.
  intros Ha Hc. apply Z.div_le_lower_bound; [lia|].
  pose proof (div_floor_spec b c Hc). nia.
Qed.

(* floor is superadditive *)
Lemma div_add_super a b d : 0 < d -> a / d + b / d <= (a + b) / d.
Proof.
  intros Hd. apply Z.div_le_lower_bound; [lia|].
  pose proof (div_floor_spec a d Hd). pose proof (div_floor_spec b d Hd). lia.
Qed.

(* ... and subadditive up to one *)
Lemma div_add_sub a b d : 0 < d -> (a + b) / d <= a / d + b / d + 1.
Proof.
  intros Hd. apply Z.lt_succ_r, Z.div_lt_upper_bound; [exact Hd|].
  pose proof (div_floor_spec a d Hd). pose proof (div_floor_spec b d Hd). lia.
Qed.

Lemma div_sub_lower a b d : 0 < d -> (a - b) / d <= a / d - b / d.
Proof. intros Hd. pose proof (div_add_super (a - b) b d Hd) as H. replace (a - b + b) with a in H by lia. lia. Qed.

Lemma div_sub_upper a b d : 0 < d -> a / d - b / d <= (a - b) / d + 1.
Proof. intros Hd. pose proof (div_add_sub (a - b) b d Hd) as H. replace (a - b + b) with a in H by lia. lia. Qed.

(* scaling a difference a - b >= 0 by the larger of two factors gains at most the one unit
   that the two floors on the left can lose *)
Lemma div_diff_mono a b f g d : 0 < d -> 0 <= b <= a -> 0 <= f <= g ->
  a * f / d - b * f / d <= a * g / d - b * g / d + 1.
Proof.
  intros Hd Hab Hfg.
  etransitivity; [apply div_sub_upper, Hd|]. apply Z.add_le_mono_r.
  etransitivity; [|apply div_sub_lower, Hd].
  apply div_mono_num; [exact Hd|]. rewrite <- !Z.mul_sub_distr_r. apply Z.mul_le_mono_nonneg_l; lia.
Qed.

Lemma pow2_pos w : 0 <= w -> 0 < 2 ^ w.
Proof. intros; apply Z.pow_pos_nonneg; lia. Qed.

Lemma pow10_pos k : 0 <= k -> 0 < 10 ^ k.
Proof. intros; apply Z.pow_pos_nonneg; lia. Qed.

Lemma quot_nonneg_div a b : 0 <= a -> 0 < b -> Z.quot a b = a / b.
Proof. intros; apply Z.quot_div_nonneg; lia. Qed.

Lemma quot_neg_num a b : a <= 0 -> 0 < b -> Z.quot a b = - ((- a) / b).
Proof.
  intros Ha Hb. replace a with (- (- a)) at 1 by lia.
  rewrite Z.quot_opp_l by lia. rewrite Z.quot_div_nonneg by lia. reflexivity.
Qed.
