From GV Require Import lib.Base C30.Model C30.Proofs.
Open Scope Z_scope.

(* Vocabulary: [run s ops] folds the operation semantics (mint_to, unchecked_burn_from,
   Order::unchecked_process_gt, vault init, unchecked_request_exchange,
   unchecked_confirm_exchange_vault) over a history on several users and vaults; a failed
   operation leaves the state unchanged.  [op_wf] = amounts are unsigned.  [asum f l] sums f over
   the accounts.  [grow_nat n grow c] = n-fold c |-> floor(c * grow / 10^20) with None on u128
   overflow ([c30_growth_step]).  Hypotheses 0 <= cost0, grow, step are the unsigned types. *)

Theorem c30_supply_is_sum_of_balances : forall t0 cost0 grow stp ranks g0,
  0 <= cost0 -> 0 <= grow -> 0 <= stp -> gt_init gt0 t0 cost0 grow stp ranks = Ok g0 -> Forall (fun y => 0 <= y) ranks ->
  forall ops, Forall op_wf ops ->
  let s := run (mkstate g0 [] [] []) ops in
  g_supply (s_gt s) = asum u_amount (s_users s) /\ g_total (s_gt s) = asum u_total (s_users s).
Proof. exact final_supply. Qed.

Theorem c30_total_minted_monotone : forall t0 cost0 grow stp ranks g0,
  0 <= cost0 -> 0 <= grow -> 0 <= stp -> gt_init gt0 t0 cost0 grow stp ranks = Ok g0 -> Forall (fun y => 0 <= y) ranks ->
  forall ops1 ops2, Forall op_wf ops1 -> Forall op_wf ops2 ->
  g_total (s_gt (run (mkstate g0 [] [] []) ops1)) <= g_total (s_gt (run (mkstate g0 [] [] []) (ops1 ++ ops2))).
Proof. exact final_total_monotone. Qed.

Theorem c30_cost_depends_on_total_only : forall t0 cost0 grow stp ranks g0,
  0 <= cost0 -> 0 <= grow -> 0 <= stp -> gt_init gt0 t0 cost0 grow stp ranks = Ok g0 -> Forall (fun y => 0 <= y) ranks ->
  forall ops, Forall op_wf ops ->
  let s := run (mkstate g0 [] [] []) ops in
  g_steps (s_gt s) = g_total (s_gt s) / stp /\
  grow_nat (Z.to_nat (g_total (s_gt s) / stp)) grow cost0 = Some (g_cost (s_gt s)).
Proof. exact final_cost. Qed.

Theorem c30_cost_independent_of_split : forall t0 cost0 grow stp ranks g0,
  0 <= cost0 -> 0 <= grow -> 0 <= stp -> gt_init gt0 t0 cost0 grow stp ranks = Ok g0 -> Forall (fun y => 0 <= y) ranks ->
  forall ops1 ops2, Forall op_wf ops1 -> Forall op_wf ops2 ->
  g_total (s_gt (run (mkstate g0 [] [] []) ops1)) = g_total (s_gt (run (mkstate g0 [] [] []) ops2)) ->
  g_cost (s_gt (run (mkstate g0 [] [] []) ops1)) = g_cost (s_gt (run (mkstate g0 [] [] []) ops2)).
Proof. exact final_cost_split_independent. Qed.

Theorem c30_growth_step : forall n grow c r, 0 <= grow -> 0 <= c ->
  grow_nat (S n) grow c = Some r <->
  exists x, grow_nat n grow c = Some x /\ r = x * grow / UNIT /\ r < 2 ^ 128 /\ 0 <= x.
Proof. exact grow_nat_step. Qed.

(* rank = number of thresholds <= balance, for EVERY user (init rejects a zero threshold) *)
Theorem c30_rank_is_count_le : forall t0 cost0 grow stp ranks g0,
  0 <= cost0 -> 0 <= grow -> 0 <= stp -> gt_init gt0 t0 cost0 grow stp ranks = Ok g0 -> Forall (fun y => 0 <= y) ranks ->
  forall ops k, Forall op_wf ops ->
  let s := run (mkstate g0 [] [] []) ops in
  let u := aget user0 (s_users s) k in
  u_rank u = count_le (u_amount u) (firstn MAX_RANK ranks).
Proof. exact final_rank. Qed.

Theorem c30_zero_threshold_rejected : forall t0 cost grow stp r g, gt_init gt0 t0 cost grow stp (0 :: r) <> Ok g.
Proof. exact zero_threshold_rejected. Qed.

(* the binary search of the code computes the count on strictly increasing tables *)
Theorem c30_binary_search_is_count : forall ranks x, strictly_sorted ranks = true -> rank_of ranks x = count_le x ranks.
Proof. exact rank_of_count_le. Qed.

(* minting for a USD amount: whole units affordable at the current cost, remainder unminted *)
Theorem c30_mint_amount_floor : forall g size m v c, 0 <= size -> 0 <= g_cost g ->
  get_mint_amount g size = Ok (m, v, c) <->
  (g_cost g <> 0 /\ c = g_cost g /\ m = size / g_cost g /\ m < 2 ^ 64 /\ v = m * g_cost g /\ 0 <= size - v < g_cost g).
Proof. exact get_mint_amount_spec. Qed.

Theorem c30_mint_amount_failure : forall g size e, 0 <= size -> 0 <= g_cost g ->
  get_mint_amount g size = Err e -> (e = 2 /\ g_cost g = 0) \/ (e = 1 /\ 2 ^ 64 <= size / g_cost g).
Proof. exact get_mint_amount_err. Qed.

Theorem c30_process_gt_floor_and_remainder : forall g u paid now g' u' reward,
  0 < paid -> 0 <= g_cost g -> 0 <= u_minted u <= u_paid u ->
  process_gt g u paid now = Ok (g', u', reward) ->
  let np := Z.min (2 ^ 128 - 1) (u_paid u + paid) in
  exists m, reward = Some m /\ g_cost g <> 0 /\
    m = (np - u_minted u) / g_cost g /\
    u_paid u' = np /\ u_minted u' = u_minted u + m * g_cost g /\
    0 <= u_paid u' - u_minted u' < g_cost g /\
    u_amount u' = u_amount u + m /\ g_total g' = g_total g + m.
Proof. exact process_gt_spec. Qed.

(* exchange windows (index = timestamp quot window, i64 division) *)
Theorem c30_depositable_iff_same_window : forall v now, depositable v now = Ok tt <->
  (v_conf v = false /\ Z.quot now (v_win v) = Z.quot (v_ts v) (v_win v)).
Proof. exact depositable_spec. Qed.

Theorem c30_confirmable_iff_later_window : forall v now, confirmable v now = Ok tt <->
  (v_init v = true /\ v_conf v = false /\ Z.quot (v_ts v) (v_win v) < Z.quot now (v_win v)).
Proof. exact confirmable_spec. Qed.

Theorem c30_never_both : forall v now, depositable v now = Ok tt -> confirmable v now = Ok tt -> False.
Proof. exact window_exclusive. Qed.

(* the non-buybackable vault equals the confirmed exchange vaults *)
Theorem c30_gt_vault_is_confirmed_vaults : forall t0 cost0 grow stp ranks g0,
  0 <= cost0 -> 0 <= grow -> 0 <= stp -> gt_init gt0 t0 cost0 grow stp ranks = Ok g0 -> Forall (fun y => 0 <= y) ranks ->
  forall ops, Forall op_wf ops ->
  let s := run (mkstate g0 [] [] []) ops in
  g_vault (s_gt s) = asum (fun v => if v_conf v then v_amount v else 0) (s_vaults s).
Proof. exact final_vault. Qed.

Example c30_ex_history :
  exists g0, gt_init gt0 100 (5 * 10 ^ 18) (101 * 10 ^ 18) 10 [5; 20; 40] = Ok g0 /\
  let s := run (mkstate g0 [] [] [])
            [Mint 1 7 100; Proc 2 (26 * 10 ^ 19 + 3) 101; VInit 1 50 110; Req 1 1 3 120; Burn 2 1; Conf 1 150; Mint 1 40 200] in
  g_total (s_gt s) = 99 /\ g_supply (s_gt s) = 95 /\ g_vault (s_gt s) = 3 /\ g_steps (s_gt s) = 9 /\
  u_amount (aget user0 (s_users s) 1) = 44 /\ u_rank (aget user0 (s_users s) 1) = 3 /\
  u_amount (aget user0 (s_users s) 2) = 51 /\ g_cost (s_gt s) = 5468426363421804505.
Proof. eexists. split; [vm_compute; reflexivity|vm_compute; repeat split; reflexivity]. Qed.
