(* C06 — markets WITH open interest whose borrowing fees are accrued (borrowing clock = now, as the
   store's pre_execute guarantees) and whose positive pnl stays within the pnl caps: no pnl cap
   binds and the pending fees do not depend on the liquidity; a deposit keeps such a market calm. *)
From GV Require Import lib.Base C01.Model C01.Proofs MK.Market MK.Liquidity MK.MarketProofs MK.SwapProofs
  C06.Proofs C06.PoolValue.
Open Scope Z_scope.

(* borrowing fees accrued up to now *)
Definition fresh (s : mstate) : Prop := passed s (clk_borrowing s) = 0.

Lemma fresh_same_rest a b : same_rest a b -> fresh a -> fresh b.
Proof.
  unfold fresh, passed. intros R. destruct (same_rest_borrowing _ _ R) as (_ & _ & N & CB). rewrite <- N, <- CB. auto.
Qed.

Section P.
  Variable w : Z.
  Hypothesis Hw : 1 <= w.
  Variable unit : Z.
  Hypothesis Hunit : 0 < unit.
  Variable cfg : config.

  Lemma same_pending_fresh a b ps : same_rest a b -> fresh a -> same_pending w unit cfg a b ps.
  Proof.
    intros R F il x y Ea Eb. pose proof (fresh_same_rest _ _ R F) as Fb.
    destruct (same_rest_oi _ _ R) as (O1 & O2 & _). destruct (same_rest_borrowing _ _ R) as (BF & TB & _).
    unfold total_pending_borrowing_fees, next_cumulative_borrowing_factor, oi_amount, fresh in *.
    rewrite F, O1, O2, BF, TB in Ea. rewrite Fb in Eb.
    (* no time has passed: whatever the factor per second, nothing is added to the cumulative factor *)
    rinv Ea. rename E into Eoi, E0 into Ecum. rinv Eb. rename E into Eoi', E0 into Ecum'. rinv Ecum. rinv Ecum'. norm.
    injection Ecum as <-. injection Ecum' as <-. cbn [fst] in *. rewrite !Z.mul_0_r in *.
    rewrite Eoi in Eoi'. injection Eoi' as <-. congruence.
  Qed.

  Lemma cap_pnl_le il p pv k c : cap_pnl w unit cfg il p pv k = Ok c -> c <= p.
  Proof.
    unfold cap_pnl. intros H. destruct (0 <? p) eqn:P; [|injection H as <-; lia].
    rinv H. app to_sig_ok E0. destruct E0 as [-> _]. destruct (x <? p) eqn:C; injection H as <-; lia.
  Qed.

  Lemma cap_pnl_slack il p pv k c : 0 <= pv -> 0 <= pnl_factor_config cfg k ->
    cap_pnl w unit cfg il p pv k = Ok c -> (0 < p -> p * unit <= pv * pnl_factor_config cfg k) -> c = p.
  Proof.
    unfold cap_pnl. intros Hpv Hf H S. destruct (0 <? p) eqn:P; [|injection H as <-; lia].
    rinv H. app to_sig_ok E0. destruct E0 as [-> _].
    unfold apply_factor in E. app mul_div_floor E. specialize (S ltac:(lia)).
    destruct (x <? p) eqn:C; injection H as <-; [|lia]. nia.
  Qed.

  (* every positive pnl (either valuation) of each side is within [f] times that side's
     minimised liquidity value: no pnl cap with factor >= f binds *)
  Definition pnl_within (s : mstate) (ps : prices) (f : Z) : Prop :=
    forall il mxp p, pnl w s (px_index ps) il mxp = Ok p -> 0 < p ->
      p * unit <= pamount (primary s) il * pr_min (side_price ps il) * f.

  Definition cap_floor : Z := Z.min (pf_deposit (c_max_pnl cfg)) (pf_withdrawal (c_max_pnl cfg)).

  Record calm (s : mstate) (ps : prices) : Prop := {
    calm_fresh : fresh s;
    calm_pnl : pnl_within s ps cap_floor;
    calm_floor : 0 <= cap_floor;
    calm_liq : 0 <= p_long (primary s) /\ 0 <= p_short (primary s);
    calm_oit : 0 <= p_long (oit_long s) /\ 0 <= p_short (oit_long s) /\ 0 <= p_long (oit_short s) /\ 0 <= p_short (oit_short s);
    calm_pi : 0 <= p_long (position_impact s)
  }.

  Lemma cap_floor_le k : lp_kind k -> cap_floor <= pnl_factor_config cfg k.
  Proof. unfold cap_floor. intros [->| ->]; cbn; lia. Qed.

  Lemma calm_uncapped s ps k il mxp mx p c : calm s ps -> lp_kind k -> ordered (side_price ps il) ->
    0 <= pr_min (side_price ps il) ->
    pnl w s (px_index ps) il mxp = Ok p ->
    cap_pnl w unit cfg il p (pamount (primary s) il * pick (side_price ps il) mx) k = Ok c -> c = p.
  Proof.
    intros [_ Cp C0 [CL CS] _ _] K O P0 E C. pose proof (cap_floor_le k K) as Kf. unfold ordered in O.
    assert (0 <= pamount (primary s) il) by (destruct il; assumption).
    assert (pamount (primary s) il * pr_min (side_price ps il) <= pamount (primary s) il * pick (side_price ps il) mx)
      by (destruct mx; cbn [pick]; nia).
    eapply cap_pnl_slack in C; [exact C|nia|lia|].
    intros P. pose proof (Cp il _ _ E P). nia.
  Qed.

  Lemma uncapped_calm s ps : calm s ps -> ordered_prices ps -> wf_prices w ps -> uncapped_market w unit cfg s ps.
  Proof.
    intros C (_ & Ol & Os) (_ & [[PL0 _] _] & [[PS0 _] _]) k mx v K E.
    apply pool_value_decomp in E; [|exact Hw].
    destruct E as (bl & bs & tbp & lp0 & lp & sp0 & sp & d & n & E1 & E2 & E3 & E4 & E5 & E6 & E7 & E8 & ->).
    apply (calm_uncapped s ps k true _ _ _ _ C K Ol PL0 E4) in E5.
    apply (calm_uncapped s ps k false _ _ _ _ C K Os PS0 E6) in E7.
    subst. exists bl, bs, tbp, lp0, sp0, d, n. auto 8.
  Qed.

  Lemma calm_follows a b ps : calm a ps -> calm b ps -> ordered_prices ps -> wf_prices w ps ->
    follows_liquidity w unit cfg a b ps.
  Proof.
    intros Ca Cb O Hps. split; [apply uncapped_calm; assumption|]. intros R.
    split; [apply uncapped_calm; assumption|apply same_pending_fresh; [exact R|exact (calm_fresh _ _ Ca)]].
  Qed.

  Lemma calm_grow s s1 ps : calm s ps -> same_rest s s1 -> wf_prices w ps ->
    p_long (primary s) <= p_long (primary s1) -> p_short (primary s) <= p_short (primary s1) ->
    calm s1 ps.
  Proof.
    intros [Cf Cp C0 [CL CS] Co Cpi] R Hps GL GS.
    pose proof Hps as (_ & [[PL0 _] [PL1 _]] & [[PS0 _] [PS1 _]]).
    destruct (same_rest_oi _ _ R) as (_ & _ & T1 & T2). destruct (same_rest_impact _ _ R) as (PI & _).
    constructor.
    - eapply fresh_same_rest; eassumption.
    - intros il mxp p E P. rewrite <- (pnl_same_rest w _ _ _ _ _ R) in E. specialize (Cp il mxp p E P).
      assert (0 <= pr_min (side_price ps il)) by (destruct il; assumption).
      assert (pamount (primary s) il <= pamount (primary s1) il) by (destruct il; assumption).
      assert (pamount (primary s) il * pr_min (side_price ps il) * cap_floor
              <= pamount (primary s1) il * pr_min (side_price ps il) * cap_floor)
        by (apply Z.mul_le_mono_nonneg_r; [assumption|]; apply Z.mul_le_mono_nonneg_r; assumption).
      lia.
    - assumption.
    - lia.
    - rewrite <- T1, <- T2. assumption.
    - rewrite <- PI. assumption.
  Qed.

  Lemma calm_after_deposit s l sh ps s1 rd td :
    wf_state w s -> wf_prices w ps -> in_range w l -> in_range w sh -> 0 <= value_to_amount_divisor s ->
    calm s ps -> deposit_exec_trace w unit cfg s l sh ps = Ok (s1, rd, td) -> calm s1 ps.
  Proof.
    intros Hs Hps Hl Hsh Hdv Hc HD. app deposit_frame HD. destruct HD as (R & _ & EL & ES & ? & ?).
    eapply calm_grow; try eassumption; lia.
  Qed.
End P.
