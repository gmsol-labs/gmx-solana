(* C09 — health after execution, liquidation and ADL gates: lemmas. *)
From GV Require Import lib.Base C01.Model C01.Proofs PS.Model PS.Lemmas PS.Actions C07.Proofs.
Open Scope Z_scope.

(* the liquidation threshold is not stricter than the validation threshold *)
Definition liq_factor_le (pp : pos_params) : Prop :=
  match pp_min_cf_liq pp with Some f => 0 <= f <= pp_min_cf pp | None => True end.

Section P.
  Variable w : Z.
  Hypothesis Hw : 1 <= w.
  Variable unit : Z.
  Hypothesis Hunit : 0 < unit.

  Lemma check_collateral_weaker size cf1 cf2 mcv cv :
    0 <= size -> 0 <= cf2 <= cf1 ->
    check_collateral w unit size cf1 mcv false cv = Ok 0 ->
    check_collateral w unit size cf2 mcv false cv = Ok 0.
  Proof.
    intros Hs Hcf. unfold check_collateral.
    destruct (cv <? 0); [destruct mcv; discriminate|].
    destruct (match mcv with Some v => cv <? v | None => false end); [discriminate|].
    destruct (negb false && (cv =? 0)); [discriminate|].
    intros H. bind_ok H as lev1 E1. destruct (cv <? lev1) eqn:E2; [discriminate|].
    unfold af in *. apply of_opt_ok in E1. apply apply_factor_exact in E1; [|lia..]. destruct E1 as [-> Hlt].
    assert (Hle : size * cf2 / unit <= size * cf1 / unit) by (apply Z.div_le_mono; nia).
    assert (Hex : apply_factor w unit size cf2 = Some (size * cf2 / unit)).
    { apply apply_factor_exact; [lia..|]. split; [reflexivity|lia]. }
    rewrite Hex. cbn. apply Z.ltb_ge in E2. replace (cv <? size * cf2 / unit) with false by (symmetry; apply Z.ltb_ge; lia).
    reflexivity.
  Qed.

  (* dropping the minimum-collateral-value test can only turn "MinCollateral" into "sufficient" *)
  Lemma check_collateral_add_min size cf1 cf2 v cv :
    0 <= size -> 0 <= cf2 <= cf1 ->
    check_collateral w unit size cf1 None false cv = Ok 0 ->
    check_collateral w unit size cf2 (Some v) false cv = Ok 0 \/ check_collateral w unit size cf2 (Some v) false cv = Ok 4.
  Proof.
    intros Hs Hcf H.
    assert (H0 : 0 <= cv).
    { unfold check_collateral in H. destruct (cv <? 0) eqn:E; [discriminate|]. apply Z.ltb_ge in E. exact E. }
    apply (check_collateral_weaker size cf1 cf2 None cv Hs Hcf) in H.
    unfold check_collateral in *. replace (cv <? 0) with false in * by (symmetry; apply Z.ltb_ge; exact H0).
    destruct (cv <? v); [right; reflexivity|left; exact H].
  Qed.

  Definition liq_cf (pp : pos_params) := match pp_min_cf_liq pp with Some f => f | None => pp_min_cf pp end.

  Lemma liq_cf_le pp : liq_factor_le pp -> 0 <= pp_min_cf pp -> 0 <= liq_cf pp <= pp_min_cf pp.
  Proof. unfold liq_factor_le, liq_cf. destruct (pp_min_cf_liq pp); lia. Qed.

  (* check_collateral's verdict as the reason check_liquidatable reports *)
  Definition reason_of (c : Z) : option Z :=
    if c =? 0 then None else if (c =? 1) || (c =? 2) then Some R_NOT_POSITIVE
    else if c =? 3 then Some R_MIN_COLLATERAL_FOR_LEVERAGE else Some R_MIN_COLLATERAL.

  Lemma reason_of_none c : reason_of c = None -> c = 0.
  Proof.
    unfold reason_of. destruct (c =? 0) eqn:E; [intros _; apply Z.eqb_eq; exact E|].
    destruct ((c =? 1) || (c =? 2)); [discriminate|]. destruct (c =? 3); discriminate.
  Qed.

  (* check_liquidatable = "compute the remaining collateral value" then check_collateral;
     the first part does not depend on the two flags *)
  Lemma check_liquidatable_split p m pr v fl r :
    check_liquidatable w unit p m pr v fl = Ok r ->
    exists rem, forall v' fl', check_liquidatable w unit p m pr v' fl' =
      (c <-- check_collateral w unit (size_usd p)
               (if fl' then liq_cf (c_pos (m_cfg m)) else pp_min_cf (c_pos (m_cfg m)))
               (if v' then Some (pp_min_cv (c_pos (m_cfg m))) else None) false rem ;;
       Ok (reason_of c)).
  Proof.
    unfold check_liquidatable. intros H.
    bind_ok H as pn E1. bind_ok H as cv E2. bind_ok H as sd E3. bind_ok H as imp E4. bind_ok H as piv E5.
    bind_ok H as fs E6. bind_ok H as tc E7. bind_ok H as ccv E8. bind_ok H as cvs E9. bind_ok H as rem E10.
    exists rem. intros v' fl'. rewrite E1. cbn [rbind]. rewrite E2. cbn [of_opt rbind].
    rewrite E3. cbn [rbind]. rewrite E4. cbn [rbind]. rewrite E5. cbn [rbind]. rewrite E6. cbn [rbind].
    rewrite E7. cbn [rbind]. rewrite E8. cbn [of_opt rbind]. rewrite E9. cbn [rbind]. rewrite E10. reflexivity.
  Qed.

  (* a position that passed validate is not liquidatable under the (weaker) liquidation thresholds;
     if validate skipped the minimum-collateral-value test, MinCollateral is the only possible reason *)
  Lemma healthy_from_validate p m pr v :
    0 <= size_usd p -> 0 <= pp_min_cf (c_pos (m_cfg m)) -> liq_factor_le (c_pos (m_cfg m)) ->
    check_liquidatable w unit p m pr v false = Ok None ->
    (v = true -> check_liquidatable w unit p m pr true true = Ok None) /\
    (check_liquidatable w unit p m pr true true = Ok None \/
     check_liquidatable w unit p m pr true true = Ok (Some R_MIN_COLLATERAL)).
  Proof.
    intros Hs Hcf Hle H.
    destruct (check_liquidatable_split _ _ _ _ _ _ H) as (rem & Hall).
    rewrite (Hall v false) in H. bind_ok H as c Hc. injection H as Hr. apply reason_of_none in Hr. subst c.
    pose proof (liq_cf_le _ Hle Hcf) as Hl.
    rewrite (Hall true true).
    split.
    - intros ->. rewrite (check_collateral_weaker _ _ _ _ _ Hs Hl Hc). reflexivity.
    - destruct v.
      + rewrite (check_collateral_weaker _ _ _ _ _ Hs Hl Hc). left. reflexivity.
      + destruct (check_collateral_add_min _ _ _ (pp_min_cv (c_pos (m_cfg m))) _ Hs Hl Hc) as [E|E]; rewrite E; [left|right]; reflexivity.
  Qed.

  (* a successful increase never leaves the position liquidatable at the execution prices *)
  Theorem increase_not_liquidatable p m pr ci sd acc p1 m' rep :
    0 <= pp_min_cf (c_pos (m_cfg m)) -> liq_factor_le (c_pos (m_cfg m)) ->
    increase w unit p m pr ci sd acc = Ok (p1, m', rep) ->
    check_liquidatable w unit p1 m' pr true false = Ok None /\
    check_liquidatable w unit p1 m' pr true true = Ok None.
  Proof.
    intros Hcf Hle H.
    destruct (increase_spec w Hw unit _ _ _ _ _ _ _ _ _ H) as (V & _ & _ & _ & _ & _ & P1 & _ & _ & Cfg & _).
    apply validate_position_ok in V. destruct V as (_ & _ & V).
    split; [exact V|]. rewrite <- Cfg in Hcf, Hle.
    exact (proj1 (healthy_from_validate _ _ _ _ (Z.lt_le_incl _ _ P1) Hcf Hle V) eq_refl).
  Qed.

  (* a decrease that leaves the position open leaves it validated; under the liquidation thresholds the
     only possible reason left is MinCollateral (known class MinCollateralAfterPartialDecrease) *)
  Theorem decrease_open_health p m pr sd0 acc cw fl p1 m' rep :
    0 < size_usd p -> 0 < size_tok p -> 0 <= coll p ->
    0 <= pp_min_cf (c_pos (m_cfg m)) -> liq_factor_le (c_pos (m_cfg m)) ->
    decrease w unit p m pr sd0 acc cw fl = Ok (p1, m', rep) -> dr_remove rep = false ->
    check_liquidatable w unit p1 m' pr false false = Ok None /\
    (check_liquidatable w unit p1 m' pr true true = Ok None \/
     check_liquidatable w unit p1 m' pr true true = Ok (Some R_MIN_COLLATERAL)).
  Proof.
    intros HS HT HC Hcf Hle H Hr.
    destruct (decrease_spec w Hw unit _ _ _ _ _ _ _ _ _ _ HS HT HC H) as ((_ & _ & _ & V) & _ & _ & _ & _ & _ & _ & R2 & Cfg & _).
    destruct (R2 Hr) as [P1 _].
    apply V, validate_position_ok in Hr. destruct Hr as (_ & _ & V').
    split; [exact V'|]. rewrite <- Cfg in Hcf, Hle.
    exact (proj2 (healthy_from_validate _ _ _ _ (Z.lt_le_incl _ _ P1) Hcf Hle V')).
  Qed.

  (* liquidation order: only a liquidatable position, always the whole position *)
  Theorem liquidation_gate p m pr sd acc cw p1 m' rep :
    0 < size_usd p -> 0 < size_tok p -> 0 <= coll p ->
    liquidate w unit p m pr sd acc cw = Ok (p1, m', rep) ->
    (exists reason, check_liquidatable w unit p m pr true true = Ok (Some reason)) /\
    dr_remove rep = true /\ dr_size_delta rep = size_usd p /\ sd = size_usd p /\
    size_usd p1 = 0 /\ size_tok p1 = 0 /\ coll p1 = 0.
  Proof.
    intros HS HT HC H. apply liquidate_decrease in H. destruct H as [Hsd H].
    destruct (decrease_spec w Hw unit _ _ _ _ _ _ _ _ _ _ HS HT HC H)
      as ((Cap & All & Liq & _) & _ & _ & U & _ & _ & R1 & R2 & _).
    cbn [fl_cap fl_liq] in Cap, Liq.
    assert (sd = size_usd p) as -> by (destruct (Z_lt_le_dec (size_usd p) sd) as [Hlt|]; [discriminate (Cap Hlt)|lia]).
    specialize (All (Z.le_refl _)).
    split; [exact (Liq eq_refl)|].
    destruct (dr_remove rep); [|destruct (R2 eq_refl); lia].
    destruct (R1 eq_refl) as (Z1 & Z2 & Z3). repeat split; assumption.
  Qed.

  (* ADL order: required before, strictly lower after, not below the configured minimum *)
  Theorem adl_gate p m pr sd acc cw p1 m' rep before after :
    auto_deleverage w unit p m pr sd acc cw = Ok (p1, m', rep, before, after) ->
    pnl_factor_exceeded_adl w unit m pr (is_long p) = Ok (Some before) /\
    0 < before /\ c_max_pnl_adl (m_cfg m) < before /\
    decrease w unit p m pr sd acc cw (MkFlags true false false) = Ok (p1, m', rep) /\
    pnl_factor w unit m' pr (is_long p) = Ok after /\
    after < before /\ c_min_pnl_after_adl (m_cfg m') <= after.
  Proof.
    exact (auto_deleverage_spec w unit p m pr sd acc cw p1 m' rep before after).
  Qed.
End P.
