(* C08 — a funding round is backed: what all receivers can claim for the round (index rounded down,
   amounts rounded down) never exceeds what all payers are charged for it (index rounded up, amounts
   rounded up).  Pure arithmetic about pack_funding / unpack_funding. *)
From GV Require Import lib.Base lib.DivLemmas C01.Model C01.Proofs PS.Model PS.Actions C08.Model.
Open Scope Z_scope.

Definition zsum (l : list Z) : Z := fold_right Z.add 0 l.
Definition cdivZ (a b : Z) : Z := (a + b - 1) / b.
(* total charged to positions of sizes [l] for an index delta [d] (amounts rounded up) *)
Definition charged (A d : Z) (l : list Z) : Z := fold_right (fun x a => cdivZ (x * d) A + a) 0 l.
(* total claimable by positions of sizes [l] for an index delta [d] (amounts rounded down) *)
Definition claimable (A d : Z) (l : list Z) : Z := fold_right (fun x a => x * d / A + a) 0 l.

Lemma charged_ge A d l : 0 < A -> zsum l * d <= A * charged A d l.
Proof.
  intros HA. induction l as [|x r IH]; [cbn; lia|].
  change (zsum (x :: r)) with (x + zsum r). change (charged A d (x :: r)) with (cdivZ (x * d) A + charged A d r).
  pose proof (ceil_spec (x * d) A HA) as Hc. unfold cdivZ. nia.
Qed.
Lemma claimable_le A d l : 0 < A -> A * claimable A d l <= zsum l * d.
Proof.
  intros HA. induction l as [|x r IH]; [cbn; lia|].
  change (zsum (x :: r)) with (x + zsum r). change (claimable A d (x :: r)) with (x * d / A + claimable A d r).
  pose proof (div_floor_spec (x * d) A HA). nia.
Qed.

Section P.
  Variable w : Z.
  Hypothesis Hw : 1 <= w.
  Variable unit : Z.
  Hypothesis Hunit : 0 < unit.

  (* payer index: rounded up twice, so dpay * price * oi >= fv * A *)
  Lemma pack_up_ge adj fv oi price d : 0 <= fv -> 0 <= oi -> 0 < adj -> 0 < price ->
    pack_funding w unit adj fv oi price true = Some d -> (oi = 0 -> fv = 0) ->
    0 <= d /\ fv * (adj * unit) <= d * price * oi.
  Proof.
    intros Hf Ho Ha Hp H Hz. unfold pack_funding in H.
    destruct ((fv =? 0) || (oi =? 0)) eqn:E0.
    - injection H as <-. apply orb_true_iff in E0. destruct E0 as [E|E]; apply Z.eqb_eq in E; [subst fv; lia|rewrite (Hz E); lia].
    - apply orb_false_iff in E0. destruct E0 as [E1 E2]. apply Z.eqb_neq in E1, E2.
      destruct (umul w adj unit) as [a|] eqn:E3; [|discriminate]. cbn in H. apply umul_some in E3. destruct E3 as [R3 ->].
      destruct (mul_div_ceil w fv (adj * unit) oi) as [per|] eqn:E4; [|discriminate]. cbn in H.
      apply mul_div_ceil_exact in E4; [|lia..]. destruct E4 as (_ & Hc & Hr).
      apply round_up_div_sound in H; [|lia..]. destruct H as (_ & Hd). split; nia.
  Qed.

  (* receiver index: rounded down twice, so drec * price * oi <= fv * A *)
  Lemma pack_down_le adj fv oi price d : 0 <= fv -> 0 <= oi -> 0 < adj -> 0 < price ->
    pack_funding w unit adj fv oi price false = Some d ->
    0 <= d /\ d * price * oi <= fv * (adj * unit).
  Proof.
    intros Hf Ho Ha Hp H. unfold pack_funding in H.
    destruct ((fv =? 0) || (oi =? 0)) eqn:E0.
    - injection H as <-. apply orb_true_iff in E0. destruct E0 as [E|E]; apply Z.eqb_eq in E; subst; nia.
    - apply orb_false_iff in E0. destruct E0 as [E1 E2]. apply Z.eqb_neq in E1, E2.
      destruct (umul w adj unit) as [a|] eqn:E3; [|discriminate]. cbn in H. apply umul_some in E3. destruct E3 as [R3 ->].
      destruct (mul_div w fv (adj * unit) oi) as [per|] eqn:E4; [|discriminate]. cbn in H.
      apply mul_div_floor in E4; [|lia..]. destruct E4 as (Hc & Hr).
      apply udiv_some in H. destruct H as [_ ->].
      pose proof (div_floor_spec per price Hp). assert (0 <= per / price) by (apply div_nonneg; lia). split; nia.
  Qed.

  (* one funding round, one collateral token: fv = funding value assigned to the token, payers = sizes of
     the paying positions holding this collateral (sum = their open-interest pool), receivers = sizes of all
     positions of the receiving side (sum = the receiving side's open interest) *)
  Theorem funding_round_backed adj fv price dpay drec (payers receivers : list Z) :
    0 <= fv -> 0 < adj -> 0 < price -> 0 <= zsum payers -> 0 <= zsum receivers ->
    (zsum payers = 0 -> fv = 0) ->
    pack_funding w unit adj fv (zsum payers) price true = Some dpay ->
    pack_funding w unit adj fv (zsum receivers) price false = Some drec ->
    claimable (adj * unit) drec receivers <= charged (adj * unit) dpay payers.
  Proof using Hw Hunit.
    intros Hf Ha Hp Hsp Hsr Hz Hpay Hrec.
    assert (HA : 0 < adj * unit) by nia.
    destruct (pack_up_ge _ _ _ _ _ Hf Hsp Ha Hp Hpay Hz) as [Hd1 P2].
    destruct (pack_down_le _ _ _ _ _ Hf Hsr Ha Hp Hrec) as [Hd2 R2].
    pose proof (charged_ge (adj * unit) dpay payers HA) as P1.
    pose proof (claimable_le (adj * unit) drec receivers HA) as R1.
    set (A := adj * unit) in *. set (C := claimable A drec receivers) in *. set (P := charged A dpay payers) in *.
    assert (A * price * C <= A * price * P) by nia.
    assert (0 < A * price) by nia. nia.
  Qed.
End P.
