(* C18 — the specification run over whole histories, and the refinement of whole histories. *)
From stdpp Require Import gmap.
From GV Require lib.Base C18.Model C18.Proofs C18.Sim.
Import GV.lib.Base(res, Ok, Err, rbind, of_opt).
Import GV.C18.Model GV.C18.Proofs GV.C18.Sim.
Open Scope Z_scope.

Definition astep (A : astate) (o : rop) : astate * rret :=
  match o with
  | REnable r => (fst (a_enable A r), RetUnit (snd (a_enable A r)))
  | RDisable r => (fst (a_disable A r), RetUnit (snd (a_disable A r)))
  | RGrant a r => (fst (a_grant A a r), RetUnit (snd (a_grant A a r)))
  | RRevoke a r => (fst (a_revoke A a r), RetUnit (snd (a_revoke A a r)))
  | RHas a r => (A, RetBool (a_has A a r))
  end.

Fixpoint arun (ops : list rop) (A : astate) : list rret * astate :=
  match ops with
  | [] => ([], A)
  | o :: r => let x := astep A o in let y := arun r (fst x) in (snd x :: fst y, snd y)
  end.

Lemma step_sim s A o : sim s A →
  ∃ s', rstep s o = Ok (s', snd (astep A o)) ∧ sim s' (fst (astep A o)).
Proof.
  intros S. destruct o as [r|r|a r|a r|a r]; cbn [rstep astep fst snd].
  - destruct (enable_sim s A r S) as (s' & E & S' & _). rewrite E. by exists s'.
  - destruct (disable_sim s A r S) as (s' & E & S' & _). rewrite E. by exists s'.
  - destruct (grant_sim s A a r S) as (s' & E & S' & _). rewrite E. by exists s'.
  - destruct (revoke_sim s A a r S) as (s' & E & S' & _). rewrite E. by exists s'.
  - rewrite (has_sim s A a r S). by exists s.
Qed.

Lemma run_sim ops : ∀ s A, sim s A →
  ∃ s', rrun ops s = Ok (fst (arun ops A), s') ∧ sim s' (snd (arun ops A)).
Proof.
  induction ops as [|o ops IH]; intros s A S; [by exists s|].
  destruct (step_sim s A o S) as (s1 & E1 & S1). destruct (IH s1 _ S1) as (s2 & E2 & S2).
  exists s2. cbn [rrun arun]. rewrite E1. cbn [rbind fst snd]. by rewrite E2.
Qed.

Lemma authority_always_admin ra st cur : has_admin_role ra st cur (st_authority st) = Ok (Ok true).
Proof. unfold has_admin_role. by rewrite Z.eqb_refl. Qed.
