(* C24 — proofs about the oracle acceptance path. *)
From GV Require Import lib.Base lib.DivLemmas lib.Checked C26.Model C26.Proofs C27.Model C29.Model C29.Proofs C24.Model.
Open Scope Z_scope.

(* input ranges of a (token config, feed account) pair: the Rust field types *)
Definition tok_range (t : tok) : Prop :=
  match t with
  | Tok _ _ td prec heartbeat _ ratio adj _ _ _ _ _ dec_ _ _ lud ts price mn mx slot =>
      0 <= td /\ 0 <= prec /\ 0 <= dec_ /\ 0 <= heartbeat < 2 ^ 32 /\ 0 <= ratio < 2 ^ 32 /\ 0 <= adj < 2 ^ 32 /\
      0 <= lud < 2 ^ 32 /\ - 2 ^ 63 <= ts < 2 ^ 63 /\ 0 <= price < 2 ^ 128 /\ 0 <= mn < 2 ^ 128 /\ 0 <= mx < 2 ^ 128 /\
      0 <= slot < 2 ^ 64
  end.
Definition env_range (e : env) : Prop :=
  - 2 ^ 63 <= now e < 2 ^ 63 /\ 0 <= max_age e < 2 ^ 64 /\ 0 <= max_range e < 2 ^ 64 /\ 0 <= max_future e < 2 ^ 64.

(* what the code has established about a token when it is accepted *)
Definition process_post (e : env) (ac : bool) (t : tok) (a : accepted) : Prop :=
  match t with
  | Tok in_map enabled td prec heartbeat allow ratio adj policy expected owner_ok provider feed_ok
        dec_ pflags status lud ts price mn mx slot =>
      in_map = true /\ enabled = true /\ owner_ok = true /\ provider = 0 /\ expected = provider /\ feed_ok = true /\
      a_open a = is_market_open status pflags lud ts (now e) heartbeat policy /\
      (ac = false -> a_open a = true) /\
      (ts < now e -> now e - ts <= heartbeat) /\
      a_ts a = ts - adj /\ - 2 ^ 63 <= ts - adj /\ ts - adj + max_age e < 2 ^ 63 /\
      now e <= ts - adj + max_age e /\ ts <= sat_add_u64 (now e) (max_future e) /\
      a_slot a = slot /\
      exists pr rf adjusted,
        try_to_price mn mx dec_ td prec = Ok pr /\
        try_from_price price dec_ td prec = Ok rf /\
        pipeline allow (factor_of ratio) pr (Some rf) = Ok (adjusted, (a_mult a, a_min a, a_max a))
  end.

(* One walk through [process]: an accepted token satisfies [process_post]; a rejection is never 14 (too few
   feed accounts) nor 7777 (the wrapped operation's own failure), which [run] alone produces. *)
Lemma process_cases e ac t :
  match process e ac t with Ok a => process_post e ac t a | Err x => x <> 14 /\ x <> 7777 end.
Proof.
  destruct t as [in_map enabled td prec heartbeat allow ratio adj policy expected owner_ok provider feed_ok
                 dec_ pflags status lud ts price mn mx slot].
  unfold process_post, process. cbn [tok_in_map tok_enabled tok_ratio tok_adj tok_ts tok_slot].
  destruct in_map; cbn [negb]; [|cbn [rbind]; lia]. destruct enabled; cbn [negb]; [|cbn [rbind]; lia].
  unfold parse.
  destruct owner_ok; cbn [negb]; [|cbn [rbind]; lia].
  destruct (valid_provider provider) eqn:VP; cbn [negb]; [|cbn [rbind]; lia].
  destruct (valid_provider expected) eqn:VE; cbn [negb]; [|cbn [rbind]; lia].
  destruct (expected =? provider) eqn:EP; cbn [negb]; [|cbn [rbind]; lia].
  destruct feed_ok; cbn [negb]; [|cbn [rbind]; lia].
  set (op := is_market_open status pflags lud ts (now e) heartbeat policy).
  destruct (negb ac && negb op) eqn:OP; [cbn [rbind]; lia|].
  assert (HB : match (if ts <? now e then match chk_s 64 (now e - ts) with
                 | Some d => if heartbeat <? d then Err 10 else Ok tt | None => Err 9 end else Ok tt)
               with Ok _ => (ts < now e -> now e - ts <= heartbeat) | Err y => y <> 14 /\ y <> 7777 end).
  { destruct (ts <? now e) eqn:TN; [|intros; lia].
    destruct (chk_s 64 (now e - ts)) as [d|] eqn:CS; [|lia].
    apply chk_s_some in CS. destruct CS as [_ ->]. destruct (heartbeat <? now e - ts) eqn:HH; [lia|lia]. }
  destruct (if ts <? now e then _ else _) as [[]|]; [|cbn [rbind]; exact HB].
  destruct (try_to_price mn mx dec_ td prec) as [pr|] eqn:TP; [|cbn [rbind]; lia].
  destruct (try_from_price price dec_ td prec) as [rf|] eqn:TR; [|cbn [rbind]; lia].
  destruct (provider =? 0) eqn:P0; cbn [negb]; [|cbn [rbind]; lia].
  set (adjr := if allow then match factor_of ratio with Some f => adjust f pr (Some rf) | None => Some None end else Some None).
  destruct adjr as [adj_|] eqn:EA; [|cbn [rbind]; lia].
  cbn [rbind]. unfold validate_one.
  destruct (chk_s 64 (ts - adj)) as [ts'|] eqn:C1; cbn [of_opt rbind]; [|cbn [rbind]; lia].
  apply chk_s_some in C1. destruct C1 as [C1 ->].
  destruct (chk_s 64 (ts - adj + max_age e)) as [ex|] eqn:C2; cbn [of_opt rbind]; [|cbn [rbind]; lia].
  apply chk_s_some in C2. destruct C2 as [C2 ->].
  destruct (ts - adj + max_age e <? now e) eqn:AGE; [cbn [rbind]; lia|].
  destruct (sat_add_u64 (now e) (max_future e) <? ts) eqn:FUT; [cbn [rbind]; lia|].
  set (p' := match adj_ with Some q => q | None => pr end).
  destruct (match factor_of ratio with Some f => validate_deviation f p' (Some rf) | None => Ok tt end) as [[]|] eqn:VD;
    cbn [rbind]; [|destruct (factor_of ratio); [apply validate_deviation_errs in VD; lia|discriminate]].
  destruct (from_price p') as [[[m x] y]|] eqn:FP; cbn [rbind]; [|apply from_price_errs in FP; lia].
  cbn [a_open a_ts a_slot a_mult a_min a_max].
  change (2 ^ (64 - 1)) with (2 ^ 63) in *.
  repeat (split; [reflexivity || lia|]). split.
  - (* allow_closed = false forces open *)
    intros ->. cbn [negb andb] in OP. destruct op; [reflexivity|discriminate].
  - repeat (split; [reflexivity || lia|]).
    (* the price went through the C29 pipeline *)
    exists pr, rf, (is_some adj_). split; [reflexivity|]. split; [reflexivity|].
    unfold pipeline. subst adjr. destruct (factor_of ratio) as [f|] eqn:FO.
    + rewrite EA. fold p'. rewrite VD. cbn [rbind]. rewrite FP. reflexivity.
    + assert (adj_ = None) by (destruct allow; injection EA as <-; reflexivity). subst adj_.
      subst p'. cbn [is_some]. rewrite FP. reflexivity.
Qed.

Theorem process_ok e ac t a : process e ac t = Ok a -> process_post e ac t a.
Proof. intros H. pose proof (process_cases e ac t) as C. rewrite H in C. exact C. Qed.

Lemma process_errs e ac t x : process e ac t = Err x -> x <> 14 /\ x <> 7777.
Proof. intros H. pose proof (process_cases e ac t) as C. rewrite H in C. exact C. Qed.

(* the reference unit price and the configured deviation of a token, from the feed account and config *)
Definition tok_ref (t : tok) : Z :=
  match t with
  | Tok _ _ td prec _ _ _ _ _ _ _ _ _ dec_ _ _ _ _ price _ _ _ => price * 10 ^ prec / 10 ^ dec_ * 10 ^ (20 - td - prec)
  end.
Definition tok_dev (t : tok) : Z := tok_ref t * (tok_ratio t * 10 ^ 12) / 10 ^ 20.
Definition tok_allow (t : tok) := match t with Tok _ _ _ _ _ allow _ _ _ _ _ _ _ _ _ _ _ _ _ _ _ _ => allow end.

Lemma process_pipeline e ac t a : tok_range t -> process e ac t = Ok a ->
  exists pr rf adjusted,
    price_ok pr /\ dec_ok rf /\ ref_unit pr (Some rf) = tok_ref t /\
    pipeline (tok_allow t) (factor_of (tok_ratio t)) pr (Some rf) = Ok (adjusted, (a_mult a, a_min a, a_max a)).
Proof.
  intros R H. apply process_ok in H. unfold process_post in H.
  destruct t as [in_map enabled td prec heartbeat allow ratio adj policy expected owner_ok provider feed_ok
                 dec_ pflags status lud ts price mn mx slot].
  destruct R as (R1 & R2 & R3 & _ & _ & _ & _ & _ & R9 & R10 & R11 & _).
  destruct H as (_ & _ & _ & _ & _ & _ & _ & _ & _ & _ & _ & _ & _ & _ & _ & [pa pb] & rf & adjf & TP & TR & PL).
  apply try_to_price_ok in TP. destruct TP as [TA TB].
  exists (pa, pb), rf, adjf. cbn [tok_allow tok_ratio tok_ref].
  assert (D : forall x y, 0 <= x < 2 ^ 128 -> try_from_price x dec_ td prec = Ok y -> dec_ok y)
    by (intros x y Hx; apply try_from_price_dec_ok; assumption).
  split; [split; [exact (D _ _ R10 TA)|exact (D _ _ R11 TB)]|]. split; [exact (D _ _ R9 TR)|]. split; [|exact PL].
  destruct rf as [rv rm]. apply try_from_price_ok in TR; try assumption. destruct TR as (_ & -> & _ & ->). reflexivity.
Qed.

Theorem accepted_wellformed e ac t a : tok_range t -> process e ac t = Ok a ->
  0 < a_min a <= a_max a /\ a_max a < 2 ^ 32 /\ 0 <= a_mult a <= 20.
Proof.
  intros R H. destruct (process_pipeline e ac t a R H) as (pr & rf & adjf & POK & DR & _ & PL).
  apply (pipeline_wellformed _ _ _ (Some rf) _ _ _ _ POK DR) in PL; [exact PL|].
  intros f Hf. unfold factor_of in Hf. destruct (_ =? 0); [discriminate|]. injection Hf as <-.
  destruct t. cbn [tok_ratio]. unfold tok_range in R. lia.
Qed.

Theorem accepted_in_band e ac t a : tok_range t -> process e ac t = Ok a -> tok_ratio t <> 0 ->
  let r := tok_ref t in let dev := tok_dev t in
  let umin := a_min a * 10 ^ a_mult a in let umax := a_max a * 10 ^ a_mult a in
  (r - dev <= umin /\ umax <= r + dev) \/
  dev = 0 \/
  (0 < dev /\ abs_diff umax r <= rounded_dev dev (a_mult a) /\ abs_diff umin r <= rounded_dev dev (a_mult a)
   /\ rounded_dev dev (a_mult a) < dev + 10 ^ a_mult a).
Proof.
  intros R H NZ. destruct (process_pipeline e ac t a R H) as (pr & rf & adjf & POK & DR & ER & PL). cbv zeta.
  assert (Hf : 0 <= tok_ratio t * 10 ^ 12) by (destruct t; cbn [tok_ratio]; unfold tok_range in R; lia).
  unfold factor_of in PL. replace (tok_ratio t =? 0) with false in PL by lia.
  (* the token's reference and deviation are those of the pipeline *)
  assert (ED : dev_of (tok_ratio t * 10 ^ 12) pr (Some rf) = tok_dev t) by (unfold dev_of, tok_dev; rewrite ER; reflexivity).
  destruct (band_setup _ pr (Some rf) POK DR Hf) as (_ & _ & _ & _ & _ & _ & _ & _ & D0). rewrite ED in D0.
  destruct adjf.
  - rewrite (pipeline_adjusted_allowed _ _ _ _ _ PL) in PL.
    pose proof (pipeline_adjusted_in_band _ _ (Some rf) _ _ _ POK DR Hf PL) as HB. cbv zeta in HB.
    rewrite ER, ED in HB. left. lia.
  - pose proof (pipeline_unadjusted _ _ _ (Some rf) _ _ _ POK DR Hf PL) as HU. cbv zeta in HU.
    rewrite ER, ED in HU. destruct HU as (_ & _ & _ & [HZ|HU]); [right; left; exact HZ|].
    destruct (Z.eq_dec (tok_dev t) 0); [right; left; assumption|]. right. right. split; [lia|exact HU].
Qed.

(* on unbounded integers: the saturating addition is eliminated *)
Theorem accepted_fresh e ac t a : tok_range t -> env_range e -> process e ac t = Ok a ->
  a_ts a = tok_ts t - tok_adj t /\
  now e <= tok_ts t - tok_adj t + max_age e /\         (* not older than the max age after the adjustment *)
  tok_ts t <= now e + max_future e /\                  (* not too far in the future *)
  match t with Tok _ _ _ _ heartbeat _ _ _ _ _ _ _ _ _ _ _ _ ts _ _ _ _ => now e - ts <= heartbeat end.
Proof.
  intros R E H. apply process_ok in H. unfold process_post in H.
  destruct t as [in_map enabled td prec heartbeat allow ratio adj policy expected owner_ok provider feed_ok
                 dec_ pflags status lud ts price mn mx slot].
  destruct R as (R1 & R2 & R3 & R4 & R5 & R6 & R7 & R8 & R9 & R10 & R11 & R12).
  destruct E as (E1 & E2 & E3 & E4).
  destruct H as (_ & _ & _ & _ & _ & _ & _ & _ & HB & TS & T1 & T2 & AGE & FUT & _).
  cbn [tok_ts tok_adj]. unfold sat_add_u64, i64_max in FUT. repeat split; try lia.
Qed.

Theorem accepted_open e ac t a : process e ac t = Ok a ->
  match t with Tok _ _ _ _ heartbeat _ _ _ policy _ _ _ _ _ pflags status lud ts _ _ _ _ =>
    a_open a = is_market_open status pflags lud ts (now e) heartbeat policy end /\ (ac = false -> a_open a = true).
Proof.
  intros H. apply process_ok in H. unfold process_post in H. destruct t. tauto.
Qed.

Theorem accepted_expected_source e ac t a : process e ac t = Ok a ->
  match t with Tok in_map enabled _ _ _ _ _ _ _ expected owner_ok provider feed_ok _ _ _ _ _ _ _ _ _ =>
    in_map = true /\ enabled = true /\ owner_ok = true /\ provider = expected /\ feed_ok = true end.
Proof.
  intros H. apply process_ok in H. unfold process_post in H. destruct t. repeat split; try tauto. destruct H as (_&_&_&_&H&_). lia.
Qed.

Lemma process_all_ok e ac ts l : process_all e ac ts = Ok l -> Forall2 (fun t a => process e ac t = Ok a) ts l.
Proof.
  revert l. induction ts as [|t r IH]; cbn [process_all]; intros l H.
  - injection H as <-. constructor.
  - destruct (process e ac t) as [a|] eqn:P; cbn [rbind] in H; [|discriminate].
    destruct (process_all e ac r) as [l'|] eqn:PA; cbn [rbind] in H; [|discriminate].
    injection H as <-. constructor; [exact P|]. apply IH. reflexivity.
Qed.

(* the adjusted timestamp is the result of a checked i64 subtraction *)
Lemma process_ts_i64 e ac t a : process e ac t = Ok a -> - 2 ^ 63 <= a_ts a < 2 ^ 63.
Proof.
  unfold process. destruct (negb (tok_in_map t)); [discriminate|]. destruct (negb (tok_enabled t)); [discriminate|].
  intros H. apply rbind_ok in H. destruct H as ([[p rf] op] & _ & H).
  apply rbind_ok in H. destruct H as (ts' & V & H). apply rbind_ok in H. destruct H as ([[m lo] hi] & _ & [= <-]).
  cbn [a_ts]. unfold validate_one in V.
  apply rbind_ok in V. destruct V as (x & C & V). apply of_opt_ok, chk_s_some in C.
  apply rbind_ok in V. destruct V as (ex & _ & V).
  destruct (ex <? now e); [discriminate|]. destruct (_ <? tok_ts t); [discriminate|].
  apply rbind_ok in V. destruct V as (_ & _ & [= <-]). change (2 ^ (64 - 1)) with (2 ^ 63) in C. lia.
Qed.

Lemma accepted_ts_i64 e ac ts l :
  Forall2 (fun t a => process e ac t = Ok a) ts l -> forall a, In a l -> - 2 ^ 63 <= a_ts a < 2 ^ 63.
Proof.
  intros F. induction F as [|t a ts' l' P _ IH]; [intros ? []|].
  intros b [<-|Hb]; [exact (process_ts_i64 _ _ _ _ P)|apply IH; exact Hb].
Qed.

(* Folding a selection (min or max, [R] the matching order) of a key over a list: the result bounds the
   start value and every key, and is the start value or the key of an element. *)
Lemma fold_sel {A} (g : A -> Z) (op : Z -> Z -> Z) (R : Z -> Z -> Prop) :
  (forall x, R x x) -> (forall x y z, R x y -> R y z -> R x z) ->
  (forall x y, R (op x y) x /\ R (op x y) y /\ (op x y = x \/ op x y = y)) ->
  forall l m0, let m := fold_left (fun m a => op m (g a)) l m0 in
  R m m0 /\ (forall a, In a l -> R m (g a)) /\ (m = m0 \/ exists a, In a l /\ g a = m).
Proof.
  intros Rr Rt Hop. induction l as [|a r IH]; intros m0; cbn [fold_left].
  - split; [apply Rr|]. split; [intros ? []|left; reflexivity].
  - destruct (IH (op m0 (g a))) as (I1 & I2 & I3). destruct (Hop m0 (g a)) as (O1 & O2 & O3).
    split; [exact (Rt _ _ _ I1 O1)|]. split.
    + intros b [<-|Hb]; [exact (Rt _ _ _ I1 O2)|exact (I2 b Hb)].
    + destruct I3 as [E|(b & Hb & E)]; [|right; exists b; split; [right; exact Hb|exact E]].
      rewrite E. destruct O3 as [->|O3]; [left; reflexivity|right; exists a; split; [left; reflexivity|symmetry; exact O3]].
Qed.

Definition fold_min {A} (g : A -> Z) := fold_left (fun m a => Z.min m (g a)).
Definition fold_max {A} (g : A -> Z) := fold_left (fun m a => Z.max m (g a)).

Lemma fold_min_spec {A} (g : A -> Z) l m0 : let m := fold_min g l m0 in
  m <= m0 /\ (forall a, In a l -> m <= g a) /\ (m = m0 \/ exists a, In a l /\ g a = m).
Proof. apply (fold_sel g Z.min Z.le); intros; lia. Qed.
Lemma fold_max_spec {A} (g : A -> Z) l m0 : let m := fold_max g l m0 in
  m >= m0 /\ (forall a, In a l -> m >= g a) /\ (m = m0 \/ exists a, In a l /\ g a = m).
Proof. apply (fold_sel g Z.max Z.ge); intros; lia. Qed.

(* range_of: three independent folds; the slot starts from the first token *)
Lemma range_of_cons a r :
  range_of (a :: r) = (fold_min a_ts (a :: r) i64_max, fold_max a_ts (a :: r) i64_min, Some (fold_min a_slot r (a_slot a))).
Proof.
  unfold range_of, fold_min, fold_max. cbn [fold_left].
  generalize (Z.min i64_max (a_ts a)) (Z.max i64_min (a_ts a)) (a_slot a).
  induction r as [|b r IH]; intros mn mx s; cbn [fold_left]; [reflexivity|apply IH].
Qed.

Lemma process_all_errs e ac ts x : process_all e ac ts = Err x -> x <> 14 /\ x <> 7777.
Proof.
  induction ts as [|t r IH]; cbn [process_all]; [discriminate|]. intros P.
  apply rbind_err in P. destruct P as [P|(a & _ & P)]; [exact (process_errs _ _ _ _ P)|].
  apply rbind_err in P. destruct P as [P|(l & _ & [=])]. exact (IH P).
Qed.

Lemma finish_errs e r x : finish e r = Err x -> x <> 14 /\ x <> 7777.
Proof.
  destruct r as [[mn mx] sl]. unfold finish.
  destruct (chk_s 64 (mx - mn)) as [d|]; cbn [of_opt rbind]; [|intros [= <-]; lia].
  destruct (d <? 0); [intros [= <-]; lia|]. destruct (max_range e <? d); [intros [= <-]; lia|discriminate].
Qed.

Lemma guarded_errs e ac ts x :
  (l <-- process_all e ac ts ;; fin <-- finish e (range_of l) ;; Ok (l, fin)) = Err x -> x <> 14 /\ x <> 7777.
Proof.
  intros H. apply rbind_err in H. destruct H as [H|(l & _ & H)]; [exact (process_all_errs _ _ _ _ H)|].
  apply rbind_err in H. destruct H as [H|(fin & _ & [=])]. exact (finish_errs _ _ _ H).
Qed.

Theorem run_clears st0 e ac ff n ts :
  let '(r, _, after) := run st0 e ac ff n ts in
  (r = Err 14 /\ after = st0) \/ (r <> Err 14 /\ after = cleared_state).
Proof.
  unfold run. destruct (n <? Z.of_nat (length ts)); [left; split; reflexivity|].
  destruct (negb (o_cleared st0) || negb (o_len st0 =? 0)); [right; split; [discriminate|reflexivity]|].
  destruct (l <-- process_all e ac ts ;; _) as [[l fin]|x] eqn:G.
  - destruct ff; right; split; try discriminate; reflexivity.
  - right. split; [|reflexivity]. intros [= ->]. apply guarded_errs in G. lia.
Qed.

Theorem run_inside st0 e ac ff n ts r st l after :
  run st0 e ac ff n ts = (r, Some (st, l), after) ->
  o_cleared st0 = true /\ Forall2 (fun t a => process e ac t = Ok a) ts l /\ l <> [] /\
  o_cleared st = false /\ o_len st = Z.of_nat (length l) /\
  (forall a, In a l -> o_min_ts st <= a_ts a <= o_max_ts st /\ o_min_slot st <= a_slot a) /\
  (exists a, In a l /\ a_ts a = o_min_ts st) /\ (exists a, In a l /\ a_ts a = o_max_ts st) /\
  (exists a, In a l /\ a_slot a = o_min_slot st) /\
  0 <= o_max_ts st - o_min_ts st <= max_range e /\
  (forall a b, In a l -> In b l -> Z.abs (a_ts a - a_ts b) <= max_range e) /\
  r = (if ff then Err 7777 else Ok tt) /\ after = cleared_state.
Proof.
  unfold run. destruct (n <? Z.of_nat (length ts)); [discriminate|].
  destruct (negb (o_cleared st0) || negb (o_len st0 =? 0)) eqn:C0; [discriminate|].
  destruct (process_all e ac ts) as [l'|x] eqn:PA; cbn [rbind]; [|discriminate].
  destruct (finish e (range_of l')) as [fin|y] eqn:F; cbn [rbind]; [|discriminate].
  intros X; injection X as <- <- <- <-.
  pose proof (accepted_ts_i64 e ac ts l' (process_all_ok _ _ _ _ PA)) as I64.
  apply orb_false_iff in C0. destruct C0 as [C0 _]. apply negb_false_iff in C0.
  split; [exact C0|]. split; [apply process_all_ok; exact PA|].
  unfold finish in F. destruct (range_of l') as [[mn mx] sl] eqn:RO.
  destruct (chk_s 64 (mx - mn)) as [d|] eqn:CS; cbn [of_opt rbind] in F; [|discriminate].
  apply chk_s_some in CS. destruct CS as [CS ->].
  destruct (mx - mn <? 0) eqn:NEG; [discriminate|]. destruct (max_range e <? mx - mn) eqn:RG; [discriminate|].
  injection F as <-.
  destruct l' as [|a0 r0].
  { (* an empty call leaves the initial range, whose spread is negative *)
    cbn in RO. injection RO as <- <- <-. unfold i64_max, i64_min in NEG. lia. }
  rewrite range_of_cons in RO. injection RO as <- <- <-. cbn [o_cleared o_len o_min_ts o_max_ts o_min_slot].
  pose proof (fold_min_spec a_ts (a0 :: r0) i64_max) as (_ & Lo & LoA).
  pose proof (fold_max_spec a_ts (a0 :: r0) i64_min) as (_ & Hi & HiA).
  pose proof (fold_min_spec a_slot r0 (a_slot a0)) as (S0 & Sl & SlA).
  set (mn := fold_min a_ts _ _) in *. set (mx := fold_max a_ts _ _) in *. set (s := fold_min a_slot _ _) in *.
  assert (B : forall a, In a (a0 :: r0) -> mn <= a_ts a <= mx /\ s <= a_slot a).
  { intros a Ha. pose proof (Lo a Ha). pose proof (Hi a Ha). split; [lia|].
    destruct Ha as [<-|Ha]; [exact S0|exact (Sl a Ha)]. }
  split; [discriminate|]. split; [reflexivity|]. split; [reflexivity|]. split; [exact B|].
  (* the start values lie outside i64, so each bound is attained by a token *)
  pose proof (B a0 (or_introl eq_refl)) as B0. pose proof (I64 a0 (or_introl eq_refl)) as I0.
  unfold i64_max, i64_min in *.
  split; [destruct LoA as [E|?]; [exists a0; split; [left; reflexivity|lia]|assumption]|].
  split; [destruct HiA as [E|?]; [exists a0; split; [left; reflexivity|lia]|assumption]|].
  split; [destruct SlA as [E|(a & Ha & E)]; [exists a0; split; [left; reflexivity|symmetry; exact E]|exists a; split; [right; exact Ha|exact E]]|].
  split; [lia|]. split; [|split; reflexivity].
  intros a b Ha Hb. pose proof (B a Ha). pose proof (B b Hb). lia.
Qed.

Theorem run_not_inside st0 e ac ff n ts r after :
  run st0 e ac ff n ts = (r, None, after) -> exists x, r = Err x /\ x <> 7777.
Proof.
  unfold run. destruct (n <? Z.of_nat (length ts)); [intros [= <- _]; exists 14; split; [reflexivity|lia]|].
  destruct (negb (o_cleared st0) || negb (o_len st0 =? 0)); [intros [= <- _]; exists 15; split; [reflexivity|lia]|].
  destruct (l <-- process_all e ac ts ;; _) as [[l fin]|x] eqn:G; [discriminate|].
  intros [= <- _]. exists x. split; [reflexivity|]. apply guarded_errs in G. tauto.
Qed.

(* histories: starting from a cleared oracle, after ANY sequence of with_prices calls (accepted,
   rejected, wrapped operation failing, too few accounts) the oracle is cleared *)
Record call := mkCall { c_env : env; c_ac : bool; c_ff : bool; c_n : Z; c_toks : list tok }.
Definition after_call (st : ostate) (c : call) : ostate :=
  snd (run st (c_env c) (c_ac c) (c_ff c) (c_n c) (c_toks c)).

Theorem history_cleared (cs : list call) : fold_left after_call cs cleared_state = cleared_state.
Proof.
  induction cs as [|c r IH]; cbn [fold_left]; [reflexivity|].
  replace (after_call cleared_state c) with cleared_state; [exact IH|].
  unfold after_call. pose proof (run_clears cleared_state (c_env c) (c_ac c) (c_ff c) (c_n c) (c_toks c)) as H.
  destruct (run _ _ _ _ _ _) as [[r0 i0] a0]. cbn [snd]. destruct H as [[_ ->]|[_ ->]]; reflexivity.
Qed.

(* even an oracle that was left uncleared is cleared by the next call that gets past the account-count check
   (Err 15 = PricesAreAlreadySet) *)
Theorem uncleared_start_is_rejected st0 e ac ff n ts :
  o_cleared st0 = false -> Z.of_nat (length ts) <= n ->
  run st0 e ac ff n ts = (Err 15, None, cleared_state).
Proof.
  intros H Hn. unfold run. replace (n <? Z.of_nat (length ts)) with false by lia. rewrite H. reflexivity.
Qed.

(* an optional bound that is absent checks nothing *)
Lemma guard_spec (o : option Z) (f : Z -> bool) (Q : Z -> Prop) : (forall x, f x = false <-> Q x) ->
  (match o with Some x => f x | None => false end = false <-> forall x, o = Some x -> Q x).
Proof.
  intros H. destruct o as [y|]; [|split; [discriminate|reflexivity]]. rewrite H.
  split; [intros HQ x [= <-]; exact HQ|intros HQ; apply HQ; reflexivity].
Qed.

Theorem validate_time_ok st a b s :
  validate_time st a b s = Ok tt <->
  o_min_ts st <= o_max_ts st /\ o_cleared st = false /\
  (forall x, s = Some x -> x <= o_min_slot st) /\
  (forall x, a = Some x -> x <= o_min_ts st) /\
  (forall x, b = Some x -> o_max_ts st <= x).
Proof.
  rewrite <- (guard_spec s (fun x => o_min_slot st <? x) _ (fun x => Z.ltb_ge _ _)).
  rewrite <- (guard_spec a (fun x => o_min_ts st <? x) _ (fun x => Z.ltb_ge _ _)).
  rewrite <- (guard_spec b (fun x => x <? o_max_ts st) _ (fun x => Z.ltb_ge _ _)).
  unfold validate_time. destruct (o_max_ts st <? o_min_ts st) eqn:E1; [split; [discriminate|lia]|].
  destruct (o_cleared st); [split; [discriminate|intros (_ & [=] & _)]|].
  destruct (match s with Some _ => _ | None => _ end); [split; [discriminate|intros (_ & _ & [=] & _)]|].
  destruct (match a with Some _ => _ | None => _ end); [split; [discriminate|intros (_ & _ & _ & [=] & _)]|].
  destruct (match b with Some _ => _ | None => _ end); [split; [discriminate|intros (_ & _ & _ & _ & [=])]|].
  split; [intros _; repeat split; lia|reflexivity].
Qed.
