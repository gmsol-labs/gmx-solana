(* C17 — proofs.  The domain (config keys, flags, pool kinds of the REGENERATED tables) is finite,
   so each statement is decided by vm_compute over the tables and lifted to a universally
   quantified statement with none_fail.  The proofs are re-checked on every run against
   freshly translated tables; the list a failed proof shows is the list of offending keys. *)
From GV Require Import lib.Base lib.Checked gen.C17Tables C17.Model C17.DefaultsSpec.
From Coq Require Import String.
Open Scope string_scope.
Open Scope Z_scope.

Lemma calls_config_init : mem CALL_CONFIG_INIT market_init_calls = true.
Proof. vm_compute. reflexivity. Qed.
Lemma calls_pure_flag : mem CALL_SET_PURE market_init_calls = true.
Proof. vm_compute. reflexivity. Qed.
Lemma calls_pools_init : mem CALL_POOLS_INIT market_init_calls = true.
Proof. vm_compute. reflexivity. Qed.

Section Keys.
  Variables (arms asg : list (string * string)) (cv : list (string * Z)) (keys : list string).

  Definition key_ok (s : st) (k : string) : bool :=
    match lookup k arms, lookup (documented_default k) cv with
    | Some f, Some d => s f =? d
    | _, _ => false
    end.

  (* the keys whose initial value is NOT the documented default (all keys if init itself fails);
     the assignments are run once, outside the sweep.  Stated over variables so that no step of
     mismatched_nil matches on a closed table. *)
  Definition mismatched : list string :=
    match run_assign cv asg with
    | Some s => filter (fun k => negb (key_ok s k)) keys
    | None => keys
    end.

  Lemma mismatched_nil : mismatched = [] -> forall k, In k keys ->
    exists v, init_value_of arms asg cv k = Some v /\ lookup (documented_default k) cv = Some v.
  Proof.
    unfold mismatched, init_value_of. intros H k Hin.
    destruct (run_assign cv asg) as [s|]; [|rewrite H in Hin; destruct Hin].
    apply (none_fail _ _ H) in Hin. unfold key_ok in Hin.
    destruct (lookup k arms) as [f|]; [|discriminate].
    destruct (lookup (documented_default k) cv) as [d|]; [|discriminate].
    apply Z.eqb_eq in Hin. subst d. exists (s f). split; reflexivity.
  Qed.
End Keys.

Lemma no_mismatched_keys : mismatched get_arm init_assign const_value config_keys = [].
Proof. vm_compute. reflexivity. Qed.

Lemma defaults_match : forall k, In k config_keys ->
  exists v, market_cfg_value k = Some v /\ lookup (documented_default k) const_value = Some v.
Proof.
  intros k Hin. unfold market_cfg_value. rewrite calls_config_init.
  exact (mismatched_nil _ _ _ _ no_mismatched_keys k Hin).
Qed.

Definition flag_ok (f : string) : bool :=
  match market_cfg_flag f, documented_flag_default f with
  | Some v, Some c => match lookup c const_bool with Some d => Bool.eqb v d | None => false end
  | Some v, None => negb v
  | None, _ => false
  end.

Lemma no_mismatched_flags : filter (fun f => negb (flag_ok f)) config_flags = [].
Proof. vm_compute. reflexivity. Qed.

Lemma flags_match : forall f, In f config_flags ->
  exists v, market_cfg_flag f = Some v /\
            match documented_flag_default f with
            | Some c => lookup c const_bool = Some v
            | None => v = false
            end.
Proof.
  intros f Hin. apply (none_fail _ _ no_mismatched_flags) in Hin.
  unfold flag_ok in Hin.
  destruct (market_cfg_flag f) as [v|]; [|discriminate]. exists v. split; [reflexivity|].
  destruct (documented_flag_default f) as [c|].
  - destruct (lookup c const_bool) as [d|]; [|discriminate].
    apply Bool.eqb_prop in Hin. subst; reflexivity.
  - destruct v; [discriminate|reflexivity].
Qed.

(* the two compared meta fields are assigned from the two mint parameters *)
Lemma market_is_pure_spec : forall long short, market_is_pure (mints long short) = Some (long =? short).
Proof. intros long short. vm_compute. reflexivity. Qed.

Lemma market_pure_flag_spec : forall long short, market_pure_flag (mints long short) = Some (long =? short).
Proof. intros. unfold market_pure_flag. rewrite calls_pure_flag. apply market_is_pure_spec. Qed.

Definition pool_ok (b : bool) (kind : string) : bool :=
  match pool_after_init b kind with
  | Some p => Bool.eqb (pool_is_pure p) (expected_pool_pure b kind) && (p_long p =? 0) && (p_short p =? 0)
  | None => false
  end.

Lemma no_bad_pools : forall b, filter (fun kind => negb (pool_ok b kind)) pool_kinds = [].
Proof. intros []; vm_compute; reflexivity. Qed.

Lemma pools_after_market_init : forall long short kind, In kind pool_kinds ->
  exists p, market_pool (mints long short) kind = Some p
            /\ pool_is_pure p = expected_pool_pure (long =? short) kind
            /\ p_long p = 0 /\ p_short p = 0.
Proof.
  intros long short kind Hin. unfold market_pool. rewrite calls_pools_init, market_is_pure_spec.
  cbn [obind]. apply (none_fail _ _ (no_bad_pools (long =? short))) in Hin.
  unfold pool_ok in Hin. destruct (pool_after_init (long =? short) kind) as [p|]; [|discriminate].
  apply andb_prop in Hin as [Hin Hs]. apply andb_prop in Hin as [Hp Hl].
  exists p. split; [reflexivity|]. split; [apply Bool.eqb_prop; exact Hp|].
  split; apply Z.eqb_eq; assumption.
Qed.

(* every Factor field of MarketConfig is written by init exactly once
   (stronger than the property text: a field whose documented default is 0 would also read
   correctly from the zeroed account; the missing-default regression the property mentions is
   exactly a dropped assignment, so it is required) *)
Definition times_assigned (f : string) : nat := List.length (filter (String.eqb f) (map fst init_assign)).

Lemma all_assigned_once : filter (fun f => negb (Nat.eqb (times_assigned f) 1)) cfg_fields = [].
Proof. vm_compute. reflexivity. Qed.

Lemma every_field_assigned_once : forall f, In f cfg_fields -> times_assigned f = 1%nat.
Proof.
  intros f Hin. apply (none_fail _ _ all_assigned_once) in Hin.
  apply Nat.eqb_eq. exact Hin.
Qed.

Definition stale_exceptions : list string :=
  map fst (filter (fun kc => negb (mem (fst kc) config_keys && is_some (lookup (snd kc) const_value))) default_exceptions)
  ++ map fst (filter (fun kc => negb (mem (fst kc) config_flags
                                      && match snd kc with Some c => is_some (lookup c const_bool) | None => true end))
                     flag_exceptions)
  ++ filter (fun k => negb (mem k pool_kinds)) always_impure.

Lemma no_stale_exceptions : stale_exceptions = [].
Proof. vm_compute. reflexivity. Qed.
