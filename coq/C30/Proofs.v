(* C30 — proofs about the GT model: the growth iteration, ranks, what each operation does when
   it succeeds, and the invariant of histories over several users and vaults. *)
From GV Require Import lib.Base lib.DivLemmas C01.Model C01.Proofs C30.Model.
Open Scope Z_scope.

(* the growth loop of next_minting_cost one step at a time; [grow_pos] computes the same by
   doubling ([grow_pos_nat]), and the properties state the cost with this one *)
Fixpoint grow_nat (n : nat) (grow cost : Z) : option Z :=
  match n with O => Some cost | S k => c <- grow1 grow cost ;; grow_nat k grow c end.

Lemma grow_nat_add a b grow c : grow_nat (a + b) grow c = (x <- grow_nat a grow c ;; grow_nat b grow x).
Proof.
  revert c. induction a as [|a IH]; intros c; simpl; [reflexivity|].
  destruct (grow1 grow c); simpl; [apply IH|reflexivity].
Qed.

Lemma grow_nat_snoc a grow c : grow_nat (S a) grow c = (x <- grow_nat a grow c ;; grow1 grow x).
Proof.
  replace (S a) with (a + 1)%nat by lia. rewrite grow_nat_add. destruct (grow_nat a grow c); simpl; [|reflexivity].
  destruct (grow1 grow z); reflexivity.
Qed.

Lemma grow_pos_nat p grow c : grow_pos p grow c = grow_nat (Pos.to_nat p) grow c.
Proof.
  revert c. induction p as [q IH|q IH|]; intros c; simpl grow_pos.
  - rewrite Pos2Nat.inj_xI. replace (S (2 * Pos.to_nat q)) with (Pos.to_nat q + (Pos.to_nat q + 1))%nat by lia.
    rewrite grow_nat_add. rewrite IH. destruct (grow_nat (Pos.to_nat q) grow c) as [x|]; simpl; [|reflexivity].
    rewrite grow_nat_add. rewrite IH. destruct (grow_nat (Pos.to_nat q) grow x) as [y|]; simpl; [|reflexivity].
    destruct (grow1 grow y); reflexivity.
  - rewrite Pos2Nat.inj_xO. replace (2 * Pos.to_nat q)%nat with (Pos.to_nat q + Pos.to_nat q)%nat by lia.
    rewrite grow_nat_add. rewrite IH. destruct (grow_nat (Pos.to_nat q) grow c) as [x|]; simpl; [apply IH|reflexivity].
  - simpl. destruct (grow1 grow c); reflexivity.
Qed.

Lemma grow_n_nat n grow c : grow_n n grow c = grow_nat (Z.to_nat n) grow c.
Proof. destruct n; simpl; [reflexivity|apply grow_pos_nat|reflexivity]. Qed.

Lemma grow_n_add a b grow c : 0 <= a -> 0 <= b ->
  grow_n (a + b) grow c = (x <- grow_n a grow c ;; grow_n b grow x).
Proof.
  intros Ha Hb. rewrite !grow_n_nat. rewrite Z2Nat.inj_add by lia. rewrite grow_nat_add.
  destruct (grow_nat (Z.to_nat a) grow c); simpl; [rewrite grow_n_nat|]; reflexivity.
Qed.

Lemma grow1_exact grow c r : 0 <= grow -> 0 <= c -> grow1 grow c = Some r <-> (r = c * grow / UNIT /\ r < 2 ^ 128).
Proof.
  intros Hg Hc. unfold grow1. assert (HU : 0 < UNIT) by (unfold UNIT; lia).
  apply (apply_factor_exact 128 ltac:(lia) UNIT HU c grow r Hc Hg).
Qed.

Lemma grow_nat_nonneg n grow c r : 0 <= grow -> 0 <= c -> grow_nat n grow c = Some r -> 0 <= r.
Proof.
  intros Hg. revert c. induction n as [|n IH]; intros c Hc; simpl.
  - intros [= <-]. exact Hc.
  - destruct (grow1 grow c) as [x|] eqn:E; simpl; [|discriminate].
    apply grow1_exact in E as [-> _]; [|exact Hg|exact Hc]. apply IH.
    apply div_nonneg; [nia|unfold UNIT; lia].
Qed.

Theorem grow_nat_step n grow c r : 0 <= grow -> 0 <= c ->
  grow_nat (S n) grow c = Some r <-> exists x, grow_nat n grow c = Some x /\ r = x * grow / UNIT /\ r < 2 ^ 128 /\ 0 <= x.
Proof.
  intros Hg Hc. rewrite grow_nat_snoc. split.
  - destruct (grow_nat n grow c) as [x|] eqn:E; simpl; [|discriminate]. intros H.
    pose proof (grow_nat_nonneg n grow c x Hg Hc E) as Hx.
    apply grow1_exact in H; [|exact Hg|exact Hx]. exists x. tauto.
  - intros (x & -> & Hr & Hlt & Hx). simpl. apply grow1_exact; auto.
Qed.

(* the number of thresholds <= x: the rank the property asks for *)
Fixpoint count_le (x : Z) (l : list Z) : Z :=
  match l with [] => 0 | a :: r => (if a <=? x then 1 else 0) + count_le x r end.

Lemma strictly_sorted_cons a r : strictly_sorted (a :: r) = true ->
  strictly_sorted r = true /\ forall y, In y r -> a < y.
Proof.
  revert a. induction r as [|b r IH]; intros a H.
  - split; [reflexivity|intros y []].
  - simpl in H. apply andb_prop in H. destruct H as [H1 H2]. split; [exact H2|].
    destruct (IH b H2) as [_ Hall]. intros y [<-|Hy]; [lia|]. specialize (Hall y Hy). lia.
Qed.

Lemma mem_z_below x r : (forall y, In y r -> x < y) -> mem_z x r = false.
Proof.
  induction r as [|b r IH]; intros Hall; [reflexivity|]. simpl.
  pose proof (Hall b (or_introl eq_refl)). rewrite IH by (intros y Hy; apply Hall; right; exact Hy).
  destruct (Z.eqb_spec b x); [lia|reflexivity].
Qed.

Lemma rank_of_count_le ranks x : strictly_sorted ranks = true -> rank_of ranks x = count_le x ranks.
Proof.
  unfold rank_of. induction ranks as [|a r IH]; intros HS; [reflexivity|].
  destruct (strictly_sorted_cons a r HS) as [HS' Hall]. specialize (IH HS').
  simpl. destruct (Z.eqb_spec a x) as [->|E]; simpl.
  - rewrite (mem_z_below x r Hall) in IH. rewrite Z.ltb_irrefl, Z.leb_refl. lia.
  - destruct (mem_z x r); destruct (Z.ltb_spec a x), (Z.leb_spec a x); lia.
Qed.

Lemma count_le_zero ranks : (forall y, In y ranks -> 0 < y) -> count_le 0 ranks = 0.
Proof.
  induction ranks as [|a r IH]; intros H; [reflexivity|]. simpl.
  pose proof (H a (or_introl eq_refl)) as Ha. rewrite IH by (intros y Hy; apply H; right; exact Hy).
  destruct (Z.leb_spec a 0); lia.
Qed.

Fixpoint asum {A} (f : A -> Z) (l : list (Z * A)) : Z :=
  match l with [] => 0 | (_, a) :: r => f a + asum f r end.

Lemma asum_aset {A} (f : A -> Z) d l k a : f d = 0 -> asum f (aset l k a) = asum f l - f (aget d l k) + f a.
Proof.
  intros Hd. induction l as [|[x b] l IH]; simpl; [lia|].
  destruct (x =? k); simpl; lia.
Qed.

Lemma aget_aset {A} (d : A) l k a x : aget d (aset l k a) x = if x =? k then a else aget d l x.
Proof.
  induction l as [|[y b] l IH]; simpl.
  - rewrite (Z.eqb_sym k x). reflexivity.
  - destruct (Z.eqb_spec y k) as [->|E]; simpl.
    + rewrite (Z.eqb_sym k x). destruct (x =? k); reflexivity.
    + rewrite IH. destruct (Z.eqb_spec y x) as [<-|]; [|reflexivity]. destruct (Z.eqb_spec y k); [contradiction|reflexivity].
Qed.

Theorem get_mint_amount_spec g size m v c : 0 <= size -> 0 <= g_cost g ->
  get_mint_amount g size = Ok (m, v, c) <->
  (g_cost g <> 0 /\ c = g_cost g /\ m = size / g_cost g /\ m < 2 ^ 64 /\ v = m * g_cost g /\ 0 <= size - v < g_cost g).
Proof.
  intros Hs Hc. unfold get_mint_amount. destruct (Z.eqb_spec (g_cost g) 0) as [E|E].
  - split; [discriminate|]. lia.
  - pose proof (div_floor_spec size (g_cost g) ltac:(lia)) as HD.
    assert (Hq : 0 <= size / g_cost g) by (apply div_nonneg; lia).
    rewrite Z.mod_eq by exact E.
    destruct (chk_u 64 (size / g_cost g)) as [q|] eqn:EC.
    + apply chk_u_some in EC as [R ->]. split.
      * intros [= <- <- <-]. repeat split; lia.
      * intros (_ & -> & -> & _ & -> & _). do 3 f_equal. lia.
    + apply chk_u_none in EC. split; [discriminate|]. lia.
Qed.

Theorem get_mint_amount_err g size e : 0 <= size -> 0 <= g_cost g ->
  get_mint_amount g size = Err e -> (e = 2 /\ g_cost g = 0) \/ (e = 1 /\ 2 ^ 64 <= size / g_cost g).
Proof.
  intros Hs Hc. unfold get_mint_amount. destruct (Z.eqb_spec (g_cost g) 0) as [E|E]; [intros [= <-]; auto|].
  destruct (chk_u 64 (size / g_cost g)) eqn:EC; [discriminate|]. apply chk_u_none in EC.
  assert (Hq : 0 <= size / g_cost g) by (apply div_nonneg; lia). intros [= <-]. right. lia.
Qed.

Theorem depositable_spec v now : depositable v now = Ok tt <->
  (v_conf v = false /\ Z.quot now (v_win v) = Z.quot (v_ts v) (v_win v)).
Proof.
  unfold depositable, window_index. destruct (v_conf v); [split; [discriminate|intros [[=] _]]|].
  destruct (Z.eqb_spec (Z.quot now (v_win v)) (Z.quot (v_ts v) (v_win v))); split; try discriminate; tauto.
Qed.

Theorem confirmable_spec v now : confirmable v now = Ok tt <->
  (v_init v = true /\ v_conf v = false /\ Z.quot (v_ts v) (v_win v) < Z.quot now (v_win v)).
Proof.
  unfold confirmable, window_index. destruct (v_init v); simpl; [|split; [discriminate|intros [[=] _]]].
  destruct (v_conf v); [split; [discriminate|intros (_ & [=] & _)]|].
  destruct (Z.ltb_spec (Z.quot (v_ts v) (v_win v)) (Z.quot now (v_win v))); split; try discriminate; try tauto. lia.
Qed.

Theorem window_exclusive v now : depositable v now = Ok tt -> confirmable v now = Ok tt -> False.
Proof. rewrite depositable_spec, confirmable_spec. lia. Qed.

Lemma bind_chk_ok {B} e w z (f : Z -> res B) r :
  (x <-- of_opt e (chk_u w z) ;; f x) = Ok r <-> 0 <= z < 2 ^ w /\ f z = Ok r.
Proof.
  rewrite rbind_ok. split.
  - intros (x & H & Hf). apply of_opt_ok, chk_u_some in H as [R ->]. auto.
  - intros [R Hf]. exists z. split; [apply of_opt_ok, chk_u_some; auto|exact Hf].
Qed.

Lemma gt_init_inv now cost grow stp ranks g : gt_init gt0 now cost grow stp ranks = Ok g ->
  stp <> 0 /\ strictly_sorted (firstn MAX_RANK ranks) = true /\
  (forall x r, firstn MAX_RANK ranks = x :: r -> x <> 0) /\
  g = mkgt now 0 stp 0 0 0 0 0 grow cost DEFAULT_WINDOW (firstn MAX_RANK ranks).
Proof.
  unfold gt_init, gt0. cbn -[firstn strictly_sorted MAX_RANK]. destruct (Z.eqb_spec stp 0); [discriminate|].
  destruct (strictly_sorted _); [|discriminate]. cbn -[firstn MAX_RANK].
  destruct (firstn MAX_RANK ranks) as [|x r]; [|destruct (Z.eqb_spec x 0); [discriminate|]]; intros [= <-].
  - repeat split; auto. discriminate.
  - repeat split; auto. intros ? ? [= <- _]. assumption.
Qed.

(* init rejects a rank table whose first threshold is zero (notes/C30.md, ZeroThresholdFreshUser) *)
Lemma zero_threshold_rejected t0 cost grow stp r g : gt_init gt0 t0 cost grow stp (0 :: r) <> Ok g.
Proof. intros H. apply gt_init_inv in H as (_ & _ & H & _). exact (H 0 _ eq_refl eq_refl). Qed.

Lemma update_cum_inv g now g1 : update_cum g now = Ok g1 -> exists cum,
  g1 = mkgt (g_last_minted_at g) (g_total g) (g_step g) (g_steps g) (g_supply g) now (g_vault g) cum
            (g_grow g) (g_cost g) (g_window g) (g_ranks g).
Proof.
  unfold update_cum. destruct (div_to_factor _ _ _ _ _); [|discriminate].
  destruct (chk_u _ _) as [cum|]; [|discriminate]. intros [= <-]. eauto.
Qed.

(* the step count and cost after minting up to [next]; nothing to do is zero growth steps *)
Lemma next_minting_cost_inv g next r : next_minting_cost g next = Ok r ->
  let '(s, c) := match r with Some sc => sc | None => (g_steps g, g_cost g) end in
  g_step g <> 0 /\ s = next / g_step g /\ grow_n (s - g_steps g) (g_grow g) (g_cost g) = Some c.
Proof.
  unfold next_minting_cost. destruct (Z.eqb_spec (g_step g) 0); [discriminate|].
  destruct (Z.eqb_spec (next / g_step g) (g_steps g)) as [E|E].
  - intros [= <-]. rewrite Z.sub_diag. auto.
  - destruct (grow_n _ _ _) eqn:G; intros [= <-]. auto.
Qed.

Lemma mint_to_inv g u a now g' u' : mint_to g u a now = Ok (g', u') ->
  (a = 0 /\ g' = g /\ u' = u) \/
  (a <> 0 /\ g_step g <> 0 /\ 0 <= g_total g + a < 2 ^ 64 /\ exists c cum,
     grow_n ((g_total g + a) / g_step g - g_steps g) (g_grow g) (g_cost g) = Some c /\
     g' = mkgt now (g_total g + a) (g_step g) ((g_total g + a) / g_step g) (g_supply g + a) now (g_vault g) cum
               (g_grow g) c (g_window g) (g_ranks g) /\
     u' = mkuser (rank_of (g_ranks g) (u_amount u + a)) now (u_total u + a) (u_amount u + a) (u_paid u) (u_minted u)).
Proof.
  unfold mint_to. destruct (Z.eqb_spec a 0) as [Ha|Ha]; [intros [= <- <-]; auto|]. intros H. right.
  apply bind_chk_ok in H as [R1 H].
  apply rbind_ok in H as (nmc & H2 & H). apply next_minting_cost_inv in H2.
  apply bind_chk_ok in H as [_ H]. apply bind_chk_ok in H as [_ H]. apply bind_chk_ok in H as [_ H].
  apply rbind_ok in H as (g1 & H6 & H). apply update_cum_inv in H6 as [cum ->].
  destruct nmc as [[s c]|]; destruct H2 as (S & E & G); injection H as <- <-; rewrite <- E.
  all: split; [exact Ha|]; split; [exact S|]; split; [exact R1|]; eauto 8.
Qed.

Lemma burn_from_inv g u a g' u' : burn_from g u a = Ok (g', u') ->
  (a = 0 /\ g' = g /\ u' = u) \/
  (a <> 0 /\ a <= u_amount u /\ 0 <= g_supply g - a /\
   g' = mkgt (g_last_minted_at g) (g_total g) (g_step g) (g_steps g) (g_supply g - a) (g_cum_ts g) (g_vault g)
             (g_cum g) (g_grow g) (g_cost g) (g_window g) (g_ranks g) /\
   u' = mkuser (rank_of (g_ranks g) (u_amount u - a)) (u_last u) (u_total u) (u_amount u - a) (u_paid u) (u_minted u)).
Proof.
  unfold burn_from. destruct (Z.eqb_spec a 0) as [Ha|Ha]; [intros [= <- <-]; auto|].
  destruct (Z.ltb_spec (u_amount u) a) as [|Hle]; [discriminate|]. intros H. right.
  apply bind_chk_ok in H as [_ H]. apply bind_chk_ok in H as [R2 H].
  injection H as <- <-. repeat split; auto; lia.
Qed.

Lemma process_gt_inv g u paid now g' u' reward :
  0 <= paid -> 0 <= g_cost g -> 0 <= u_minted u <= u_paid u ->
  process_gt g u paid now = Ok (g', u', reward) ->
  (paid = 0 /\ g' = g /\ u' = u /\ reward = None) \/
  (paid <> 0 /\ let np := Z.min (2 ^ 128 - 1) (u_paid u + paid) in exists m u2,
     u_minted u <= np /\ g_cost g <> 0 /\ m = (np - u_minted u) / g_cost g /\
     0 <= np - u_minted u - m * g_cost g < g_cost g /\
     mint_to g u m now = Ok (g', u2) /\ reward = Some m /\
     u' = mkuser (u_rank u2) (u_last u2) (u_total u2) (u_amount u2) np (u_minted u + m * g_cost g)).
Proof.
  intros Hp Hc Hu. unfold process_gt. destruct (Z.eqb_spec paid 0) as [E|E]; [intros [= <- <- <-]; auto|].
  replace (sat_u128 (u_paid u + paid)) with (Z.min (2 ^ 128 - 1) (u_paid u + paid)) by (unfold sat_u128; lia).
  set (np := Z.min (2 ^ 128 - 1) (u_paid u + paid)).
  destruct (Z.ltb_spec np (u_minted u)) as [|Hge]; [discriminate|]. rewrite Z.max_r by lia.
  intros H. right. split; [exact E|]. cbv zeta.
  apply rbind_ok in H as ([[m dv] c] & H1 & H).
  apply get_mint_amount_spec in H1 as (Hc0 & -> & Hm & _ & -> & Hrem); [|lia|exact Hc].
  apply bind_chk_ok in H as [_ H].
  apply rbind_ok in H as ([g2 u2] & H3 & [= <- <- <-]).
  exists m, u2. repeat split; auto; lia.
Qed.

Theorem process_gt_spec g u paid now g' u' reward :
  0 < paid -> 0 <= g_cost g -> 0 <= u_minted u <= u_paid u ->
  process_gt g u paid now = Ok (g', u', reward) ->
  let np := Z.min (2 ^ 128 - 1) (u_paid u + paid) in
  exists m, reward = Some m /\ g_cost g <> 0 /\
    m = (np - u_minted u) / g_cost g /\
    u_paid u' = np /\ u_minted u' = u_minted u + m * g_cost g /\
    0 <= u_paid u' - u_minted u' < g_cost g /\
    u_amount u' = u_amount u + m /\ g_total g' = g_total g + m.
Proof.
  intros Hp Hc Hu H np.
  apply process_gt_inv in H as [(E & _)|(_ & m & u2 & _ & Hc0 & Hm & Hrem & M & -> & ->)]; [lia| |lia|assumption..].
  fold np in Hm, Hrem. exists m. split; [reflexivity|]. split; [exact Hc0|]. split; [exact Hm|]. clear Hm.
  apply mint_to_inv in M as [(-> & -> & ->)|(_ & _ & _ & c & cum & _ & -> & ->)];
    cbn [u_paid u_minted u_amount g_total]; lia.
Qed.

Definition op_wf (o : op) : Prop :=
  match o with
  | Mint _ a _ => 0 <= a | Burn _ a => 0 <= a | Proc _ p _ => 0 <= p
  | VInit _ w _ => 0 <= w | Req _ _ a _ => 0 <= a | Conf _ _ => True
  end.

Section Hist.
  Variables (cost0 grow stp : Z) (rk : list Z).
  Hypothesis Hstep : 0 < stp.
  Hypothesis Hcost0 : 0 <= cost0.
  Hypothesis Hgrow : 0 <= grow.
  Hypothesis Hrk : strictly_sorted rk = true.

  (* the configuration is never touched, and the minting cost is a function of the total minted *)
  Record gt_ok (g : gt) : Prop := mkgt_ok {
    k_step : g_step g = stp;
    k_grow : g_grow g = grow;
    k_ranks : g_ranks g = rk;
    k_total : 0 <= g_total g;
    k_steps : g_steps g = g_total g / stp;
    k_cost : grow_n (g_total g / stp) grow cost0 = Some (g_cost g)
  }.

  (* The rank is recomputed only by a non-zero mint or burn, so an account that never received GT
     still has the rank 0 it was created with: the second disjunct.  [final_rank] removes it,
     because init makes every threshold positive. *)
  Definition user_ok (u : user) : Prop :=
    0 <= u_amount u /\ 0 <= u_total u /\ 0 <= u_minted u <= u_paid u /\
    (u_rank u = count_le (u_amount u) rk \/ (u_total u = 0 /\ u_amount u = 0 /\ u_rank u = 0)).

  Definition confirmed (v : vault) : Z := if v_conf v then v_amount v else 0.

  Record Inv (s : state) : Prop := mkInv {
    i_gt : gt_ok (s_gt s);
    (* buyback-able supply = sum of balances; total minted = sum of per-user totals *)
    i_supply : g_supply (s_gt s) = asum u_amount (s_users s);
    i_totals : g_total (s_gt s) = asum u_total (s_users s);
    i_users : forall k, user_ok (aget user0 (s_users s) k);
    (* non-buybackable vault = confirmed exchange vaults *)
    i_vault : g_vault (s_gt s) = asum confirmed (s_vaults s)
  }.

  Lemma cost_nonneg g : gt_ok g -> 0 <= g_cost g.
  Proof. intros G. pose proof (k_cost g G) as C. rewrite grow_n_nat in C. exact (grow_nat_nonneg _ _ _ _ Hgrow Hcost0 C). Qed.

  (* What mint, burn and process_gt share: they act on the GT state and one user, keep both
     well-formed, move the supply with that user's balance and the total minted with that user's
     total, never lower the total, and leave the vault alone. *)
  Definition user_step (g : gt) (u : user) (g' : gt) (u' : user) : Prop :=
    gt_ok g' /\ user_ok u' /\
    g_supply g' - g_supply g = u_amount u' - u_amount u /\
    g_total g' - g_total g = u_total u' - u_total u /\
    g_total g <= g_total g' /\ g_vault g' = g_vault g.

  Lemma user_step_refl g u : gt_ok g -> user_ok u -> user_step g u g u.
  Proof. unfold user_step. intuition lia. Qed.

  Lemma Inv_user_step s k g' u' : Inv s -> user_step (s_gt s) (aget user0 (s_users s) k) g' u' ->
    Inv (mkstate g' (aset (s_users s) k u') (s_vaults s) (s_exch s)) /\ g_total (s_gt s) <= g_total g'.
  Proof.
    intros [G S T U V] (G' & U' & dS & dT & Hle & dV). split; [|exact Hle]. constructor; simpl.
    - exact G'.
    - rewrite (asum_aset u_amount user0) by reflexivity. lia.
    - rewrite (asum_aset u_total user0) by reflexivity. lia.
    - intros j. rewrite aget_aset. destruct (j =? k); [exact U'|apply U].
    - congruence.
  Qed.

  Lemma Inv_set_vault s k g' v' x : Inv s -> gt_ok g' ->
    g_supply g' = g_supply (s_gt s) -> g_total g' = g_total (s_gt s) ->
    g_vault g' - g_vault (s_gt s) = confirmed v' - confirmed (aget vault0 (s_vaults s) k) ->
    Inv (mkstate g' (s_users s) (aset (s_vaults s) k v') x).
  Proof.
    intros [G S T U V] G' dS dT dV. constructor; cbn [s_gt s_users s_vaults]; try congruence; try assumption.
    rewrite (asum_aset confirmed vault0) by reflexivity. lia.
  Qed.

  Lemma mint_step g u a now g' u' : gt_ok g -> user_ok u -> 0 <= a ->
    mint_to g u a now = Ok (g', u') -> user_step g u g' u'.
  Proof.
    intros G U Ha H. apply mint_to_inv in H as [(_ & -> & ->)|(_ & _ & _ & c & cum & C & -> & ->)].
    { apply user_step_refl; assumption. }
    destruct G as [G1 G2 G3 G4 G5 G6], U as (U1 & U2 & U3 & _). rewrite G1, G2, G3, G5 in *.
    unfold user_step, user_ok. simpl. split.
    - constructor; simpl; auto; try lia.
      (* the cost: the steps up to the old total, then the new ones *)
      pose proof (div_nonneg (g_total g) stp G4 Hstep).
      pose proof (div_mono_num (g_total g) (g_total g + a) stp Hstep ltac:(lia)).
      replace ((g_total g + a) / stp) with (g_total g / stp + ((g_total g + a) / stp - g_total g / stp)) by lia.
      rewrite grow_n_add, G6 by lia. exact C.
    - clear C G6. repeat split; try lia. left. apply rank_of_count_le, Hrk.
  Qed.

  Lemma burn_step g u a g' u' : gt_ok g -> user_ok u -> 0 <= a ->
    burn_from g u a = Ok (g', u') -> user_step g u g' u'.
  Proof.
    intros G U Ha H. apply burn_from_inv in H as [(_ & -> & ->)|(_ & Hle & _ & -> & ->)].
    { apply user_step_refl; assumption. }
    destruct G as [G1 G2 G3 G4 G5 G6], U as (U1 & U2 & U3 & _).
    unfold user_step, user_ok. simpl. split; [constructor; assumption|].
    repeat split; try lia. left. rewrite G3. apply rank_of_count_le, Hrk.
  Qed.

  Lemma process_step g u paid now g' u' rw : gt_ok g -> user_ok u -> 0 <= paid ->
    process_gt g u paid now = Ok (g', u', rw) -> user_step g u g' u'.
  Proof.
    intros G U Hp H. pose proof (cost_nonneg g G) as Hc. pose proof U as (_ & _ & U3 & _).
    apply process_gt_inv in H as [(_ & -> & -> & _)|(_ & m & u2 & Hge & Hc0 & Hm & Hrem & M & _ & ->)]; try assumption.
    { apply user_step_refl; assumption. }
    assert (0 <= m) by (rewrite Hm; apply div_nonneg; lia).
    apply mint_step in M; [|assumption..].
    destruct M as (G' & (A1 & A2 & _ & A4) & M). unfold user_step, user_ok. cbn [u_rank u_total u_amount u_paid u_minted].
    split; [exact G'|]. split; [|exact M]. repeat split; try assumption; [nia|lia].
  Qed.

  Lemma step_Inv s o s' : Inv s -> op_wf o -> step s o = Ok s' -> Inv s' /\ g_total (s_gt s) <= g_total (s_gt s').
  Proof.
    intros I W H. pose proof (i_gt s I) as G.
    destruct o as [u a now|u a|u paid now|v win now|u v a now|v now]; simpl in H, W.
    - apply rbind_ok in H as ([g' u'] & H & [= <-]).
      apply mint_step in H; [|exact G|apply (i_users s I)|exact W]. apply Inv_user_step; assumption.
    - apply rbind_ok in H as ([g' u'] & H & [= <-]).
      apply burn_step in H; [|exact G|apply (i_users s I)|exact W]. apply Inv_user_step; assumption.
    - apply rbind_ok in H as ([[g' u'] rw] & H & [= <-]).
      apply process_step in H; [|exact G|apply (i_users s I)|exact W]. apply Inv_user_step; assumption.
    - apply rbind_ok in H as (v' & H & [= <-]). split; [|simpl; lia].
      unfold vault_init in H. destruct (v_init _); [discriminate|]. destruct (win =? 0); [discriminate|]. injection H as <-.
      apply Inv_set_vault; auto. unfold confirmed; simpl. lia.
    - apply rbind_ok in H as ([[[g' u'] v'] x] & H & [= <-]).
      unfold request_exchange in H. simpl in H. destruct (v_init _); simpl in H; [|discriminate].
      apply rbind_ok in H as ([g2 u2] & B & H).
      apply rbind_ok in H as ([] & D & H). apply depositable_spec in D as [D _].
      apply rbind_ok in H as (va & _ & H).
      apply rbind_ok in H as (xa & _ & [= <- <- <- <-]).
      apply burn_step in B; [|exact G|apply (i_users s I)|exact W].
      apply (Inv_user_step s u) in B as [I2 T]; [|exact I]. split; [|exact T].
      apply (Inv_set_vault _ v g2 _ _ I2 (i_gt _ I2)); try reflexivity. unfold confirmed; simpl. rewrite D. lia.
    - apply rbind_ok in H as ([[g' v'] amt] & H & [= <-]).
      unfold confirm_vault in H. destruct (v_init _); simpl in H; [|discriminate].
      apply rbind_ok in H as ([] & C & H). apply confirmable_spec in C as (_ & C & _).
      destruct (Z.eqb_spec (v_amount (aget vault0 (s_vaults s) v)) 0) as [E|E].
      + injection H as <- <- <-. split; [|simpl; lia].
        apply Inv_set_vault; auto. unfold confirmed; simpl. rewrite C. lia.
      + apply bind_chk_ok in H as [_ [= <- <- <-]].
        split; [|simpl; lia]. apply Inv_set_vault; [exact I|destruct G; constructor; assumption|reflexivity..|].
        unfold confirmed; simpl. rewrite C. lia.
  Qed.

  Theorem run_Inv ops : forall s, Inv s -> Forall op_wf ops ->
    Inv (run s ops) /\ g_total (s_gt s) <= g_total (s_gt (run s ops)).
  Proof.
    intros s I F. rewrite Forall_forall in F.
    apply (fold_left_inv step_total (fun s' => Inv s' /\ g_total (s_gt s) <= g_total (s_gt s'))); [|split; [exact I|lia]].
    intros s' o Hin [I' L]. unfold step_total. destruct (step s' o) eqn:E; [|split; assumption].
    destruct (step_Inv s' o _ I' (F o Hin) E) as [I2 L2]. split; [exact I2|lia].
  Qed.

  Lemma Inv_init now ranks g :
    gt_init gt0 now cost0 grow stp ranks = Ok g -> rk = firstn MAX_RANK ranks ->
    Inv (mkstate g [] [] []).
  Proof.
    intros H E. apply gt_init_inv in H as (_ & _ & _ & ->). rewrite <- E.
    constructor; [constructor|..]; cbn -[Z.div]; auto; try lia. intros k. unfold user_ok. simpl. lia.
  Qed.
End Hist.

Section Final.
  Variables (t0 cost0 grow stp : Z) (ranks : list Z) (g0 : gt).
  Hypothesis Hc : 0 <= cost0.
  Hypothesis Hg : 0 <= grow.
  Hypothesis Hs : 0 <= stp.
  Hypothesis Hinit : gt_init gt0 t0 cost0 grow stp ranks = Ok g0.

  Let rk := firstn MAX_RANK ranks.

  Hypothesis Hranks : Forall (fun y => 0 <= y) ranks.      (* thresholds are u64 *)

  Lemma init_facts : 0 < stp /\ strictly_sorted rk = true /\ (forall y, In y rk -> 0 < y).
  Proof.
    destruct (gt_init_inv _ _ _ _ _ _ Hinit) as (S & ES & EF & _). fold rk in ES, EF.
    split; [lia|]. split; [exact ES|].
    assert (Hnn : forall y, In y rk -> 0 <= y).
    { intros y Hy. rewrite Forall_forall in Hranks. exact (Hranks y (in_firstn y _ _ Hy)). }
    destruct rk as [|a r]; [intros y []|].
    destruct (strictly_sorted_cons a r ES) as [_ Hall].
    pose proof (Hnn a (or_introl eq_refl)). pose proof (EF a r eq_refl).
    intros y [<-|Hy]; [lia|]. specialize (Hall y Hy). lia.
  Qed.

  Theorem final_Inv ops : Forall op_wf ops -> Inv cost0 grow stp rk (run (mkstate g0 [] [] []) ops).
  Proof.
    intros F. destruct init_facts as (H1 & H2 & _).
    apply (run_Inv cost0 grow stp rk H1 Hc Hg H2); [|exact F]. eapply Inv_init; eauto.
  Qed.

  Theorem final_supply ops : Forall op_wf ops ->
    let s := run (mkstate g0 [] [] []) ops in
    g_supply (s_gt s) = asum u_amount (s_users s) /\ g_total (s_gt s) = asum u_total (s_users s).
  Proof. intros F s. pose proof (final_Inv ops F) as I. split; [apply (i_supply _ _ _ _ _ I)|apply (i_totals _ _ _ _ _ I)]. Qed.

  Theorem final_cost ops : Forall op_wf ops ->
    let s := run (mkstate g0 [] [] []) ops in
    g_steps (s_gt s) = g_total (s_gt s) / stp /\
    grow_nat (Z.to_nat (g_total (s_gt s) / stp)) grow cost0 = Some (g_cost (s_gt s)).
  Proof.
    intros F s. pose proof (i_gt _ _ _ _ _ (final_Inv ops F)) as G. split; [apply (k_steps _ _ _ _ _ G)|].
    rewrite <- grow_n_nat. apply (k_cost _ _ _ _ _ G).
  Qed.

  Theorem final_cost_split_independent ops1 ops2 : Forall op_wf ops1 -> Forall op_wf ops2 ->
    g_total (s_gt (run (mkstate g0 [] [] []) ops1)) = g_total (s_gt (run (mkstate g0 [] [] []) ops2)) ->
    g_cost (s_gt (run (mkstate g0 [] [] []) ops1)) = g_cost (s_gt (run (mkstate g0 [] [] []) ops2)).
  Proof.
    intros F1 F2 E. destruct (final_cost ops1 F1) as [_ C1]. destruct (final_cost ops2 F2) as [_ C2].
    rewrite E in C1. rewrite C1 in C2. injection C2 as ->. reflexivity.
  Qed.

  Theorem final_rank ops k : Forall op_wf ops ->
    let s := run (mkstate g0 [] [] []) ops in
    let u := aget user0 (s_users s) k in
    u_rank u = count_le (u_amount u) rk.
  Proof.
    intros F s u. destruct init_facts as (_ & _ & Hpos).
    destruct (i_users _ _ _ _ _ (final_Inv ops F) k) as (_ & _ & _ & [H|(_ & H2 & H3)]); [exact H|].
    fold s in H2, H3. fold u in H2, H3.
    rewrite H3, H2. symmetry. apply count_le_zero. exact Hpos.
  Qed.

  Theorem final_vault ops : Forall op_wf ops ->
    let s := run (mkstate g0 [] [] []) ops in
    g_vault (s_gt s) = asum (fun v => if v_conf v then v_amount v else 0) (s_vaults s).
  Proof. intros F s. apply (i_vault _ _ _ _ _ (final_Inv ops F)). Qed.

  Theorem final_total_monotone ops1 ops2 : Forall op_wf ops1 -> Forall op_wf ops2 ->
    g_total (s_gt (run (mkstate g0 [] [] []) ops1)) <= g_total (s_gt (run (mkstate g0 [] [] []) (ops1 ++ ops2))).
  Proof.
    intros F1 F2. destruct init_facts as (H1 & H2 & _).
    unfold run. rewrite fold_left_app. fold (run (mkstate g0 [] [] []) ops1).
    apply (run_Inv cost0 grow stp rk H1 Hc Hg H2 ops2 _ (final_Inv ops1 F1) F2).
  Qed.
End Final.
