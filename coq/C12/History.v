(* C12 — proofs: funding indices only grow; pending funding fees never negative. *)
From GV Require Import lib.Base lib.DivLemmas C01.Model C01.Proofs C12.Model C12.Proofs.
Open Scope Z_scope.

Definition q4_le (a b : q4) : Prop :=
  q_ll a <= q_ll b /\ q_ls a <= q_ls b /\ q_sl a <= q_sl b /\ q_ss a <= q_ss b.
Definition q4_in (w : Z) (a : q4) : Prop :=
  0 <= q_ll a < 2 ^ w /\ 0 <= q_ls a < 2 ^ w /\ 0 <= q_sl a < 2 ^ w /\ 0 <= q_ss a < 2 ^ w.

Lemma q4_le_refl a : q4_le a a. Proof. unfold q4_le; lia. Qed.
Lemma q4_le_trans a b c : q4_le a b -> q4_le b c -> q4_le a c. Proof. unfold q4_le; lia. Qed.
Lemma qget_le a b l c : q4_le a b -> qget a l c <= qget b l c.
Proof. unfold q4_le, qget. destruct l, c; lia. Qed.
Lemma qget_in w a l c : q4_in w a -> 0 <= qget a l c < 2 ^ w.
Proof. unfold q4_in, qget. destruct l, c; lia. Qed.

Section H.
  Variable w : Z.
  Hypothesis Hw : 1 <= w.
  Variable unit : Z.
  Hypothesis Hunit : 0 < unit.

  Definition pos_ok (s : fstate) (x : fpos) : Prop :=
    0 <= p_fa x <= qget (s_fa s) (p_long x) (p_coll x) /\
    0 <= p_cl x <= qget (s_cfa s) (p_long x) true /\
    0 <= p_cs x <= qget (s_cfa s) (p_long x) false.

  Definition inv (st : fstate * list fpos) : Prop :=
    q4_in w (s_fa (fst st)) /\ q4_in w (s_cfa (fst st)) /\ Forall (pos_ok (fst st)) (snd st).

  Definition ceil_div (n d : Z) : Z := if n mod d =? 0 then n / d else n / d + 1.

  Definition op_ok (o : fop) : Prop :=
    match o with OUpd _ pl ps => 0 <= pl /\ 0 <= ps | _ => True end.

  Lemma pack_nonneg adj fv oi price ru r : 0 <= price -> pack w unit adj fv oi price ru = Some r -> 0 <= r.
  Proof.
    intros Hp. unfold pack. destruct ((fv =? 0) || (oi =? 0)); [intros H; injection H as <-; lia|].
    intros H. apply obind_some in H. destruct H as (num & _ & H).
    apply obind_some in H. destruct H as (per & Hper & H).
    destruct ru.
    - apply mul_div_ceil_range in Hper. apply round_up_div_sound in H; [nia|lia..].
    - apply mul_div_range in Hper. apply udiv_some in H. destruct H as [H0 ->]. apply div_nonneg; lia.
  Qed.

  (* a successful report: nothing moves while a side is empty; otherwise the payer's two funding
     indices and the receiver's two claimable indices get the packed (unsigned) deltas *)
  Lemma next_report_ok p adj s dur pl ps rep :
    next_report w unit p adj s dur pl ps = Ok rep ->
    let lo := q_ll (s_oi s) + q_ls (s_oi s) in
    let so := q_sl (s_oi s) + q_ss (s_oi s) in
    (lo = 0 \/ so = 0) /\ rep = REP dur 0 q0 q0 \/
    lo <> 0 /\ so <> 0 /\
    exists f lps nx d1 c1 d2 c2,
      next_ffps w unit p (s_ffps s) dur lo so = Ok (f, lps, nx) /\
      (0 <= pl -> 0 <= d1 /\ 0 <= c1) /\ (0 <= ps -> 0 <= d2 /\ 0 <= c2) /\
      rep = REP dur nx (qset (qset q0 lps true d1) lps false d2)
                       (qset (qset q0 (negb lps) true c1) (negb lps) false c2).
  Proof.
    unfold next_report. intros H.
    bind_ok H as lo E1. bind_ok H as so E2. apply uadd_some in E1, E2. destruct E1 as [_ ->], E2 as [_ ->].
    destruct (_ || _) eqn:E0.
    { injection H as <-. left. split; [lia|reflexivity]. }
    bind_ok H as r E3. destruct r as [[f lps] nx].
    bind_ok H as ff E4. bind_ok H as fv E5. bind_ok H as flc E6. bind_ok H as fsc E7.
    bind_ok H as d1 E8. bind_ok H as c1 E9. bind_ok H as d2 E10. bind_ok H as c2 E11. injection H as <-.
    right. split; [lia|]. split; [lia|]. exists f, lps, nx, d1, c1, d2, c2.
    split; [exact E3|]. split; [|split; [|reflexivity]]; intros Hp; split; eapply pack_nonneg; eassumption.
  Qed.

  Lemma report_deltas_nonneg p adj s dur pl ps rep : 0 <= pl -> 0 <= ps ->
    next_report w unit p adj s dur pl ps = Ok rep -> q4_le q0 (r_dfa rep) /\ q4_le q0 (r_dcfa rep).
  Proof.
    intros Hpl Hps H. apply next_report_ok in H.
    destruct H as [[_ ->]|(_ & _ & f & lps & nx & d1 & c1 & d2 & c2 & _ & H1 & H2 & ->)].
    - split; apply q4_le_refl.
    - specialize (H1 Hpl). specialize (H2 Hps). unfold q4_le. destruct lps; cbn; lia.
  Qed.

  Lemma idx_add_spec cur delta r : 0 <= delta -> idx_add w cur delta = Ok r ->
    r = cur + delta /\ 0 <= r < 2 ^ w.
  Proof.
    intros Hd. unfold idx_add. intros H. bind_ok H as ds E. apply to_signed_some in E. destruct E as [E ->].
    destruct (0 <? delta) eqn:E0; apply of_opt_ok in H.
    - apply uadd_some in H. lia.
    - apply usub_some in H. lia.
  Qed.

  Lemma q4_add2_spec fa cfa dfa dcfa fa' cfa' : q4_le q0 dfa -> q4_le q0 dcfa ->
    q4_add2 w fa cfa dfa dcfa = Ok (fa', cfa') ->
    q4_le fa fa' /\ q4_le cfa cfa' /\ q4_in w fa' /\ q4_in w cfa' /\
    fa' = Q4 (q_ll fa + q_ll dfa) (q_ls fa + q_ls dfa) (q_sl fa + q_sl dfa) (q_ss fa + q_ss dfa) /\
    cfa' = Q4 (q_ll cfa + q_ll dcfa) (q_ls cfa + q_ls dcfa) (q_sl cfa + q_sl dcfa) (q_ss cfa + q_ss dcfa).
  Proof.
    unfold q4_le at 1 2. cbn. intros (A1 & A2 & A3 & A4) (B1 & B2 & B3 & B4). unfold q4_add2. intros H.
    bind_ok H as a1 X1. bind_ok H as c1 Y1. bind_ok H as a2 X2. bind_ok H as c2 Y2.
    bind_ok H as a3 X3. bind_ok H as c3 Y3. bind_ok H as a4 X4. bind_ok H as c4 Y4. injection H as <- <-.
    apply idx_add_spec in X1, X2, X3, X4, Y1, Y2, Y3, Y4; try assumption.
    unfold q4_le, q4_in; cbn.
    destruct X1 as [-> ?], X2 as [-> ?], X3 as [-> ?], X4 as [-> ?],
             Y1 as [-> ?], Y2 as [-> ?], Y3 as [-> ?], Y4 as [-> ?].
    repeat split; lia.
  Qed.

  Theorem execute_monotone p adj s now pl ps rep s' : 0 <= pl -> 0 <= ps ->
    execute w unit p adj s now pl ps = Ok (rep, s') ->
    q4_le (s_fa s) (s_fa s') /\ q4_le (s_cfa s) (s_cfa s') /\
    q4_in w (s_fa s') /\ q4_in w (s_cfa s') /\
    s_oi s' = s_oi s /\ s_clock s' = now /\ s_ffps s' = r_next rep.
  Proof.
    intros Hpl Hps. unfold execute. intros H.
    bind_ok H as rep0 E1. bind_ok H as ix E2. injection H as <- <-. cbn.
    apply report_deltas_nonneg in E1; try assumption. destruct E1 as [N1 N2].
    destruct ix as [fa' cfa']. apply q4_add2_spec in E2; try assumption. cbn. intuition.
  Qed.

  Theorem execute_stored_factor_bounded p adj s now pl ps rep s' :
    wf_params p -> in_s w (s_ffps s) = true -> f_inc p <> 0 ->
    0 < q_ll (s_oi s) + q_ls (s_oi s) -> 0 < q_sl (s_oi s) + q_ss (s_oi s) ->
    execute w unit p adj s now pl ps = Ok (rep, s') ->
    Z.abs (s_ffps s') <= f_max p /\ in_s w (s_ffps s') = true.
  Proof.
    intros Hp Hc Hinc Hl Hs. unfold execute. intros H.
    bind_ok H as rep0 E1. bind_ok H as ix E2. injection H as <- <-. cbn.
    apply next_report_ok in E1.
    destruct E1 as [[E1 _]|(_ & _ & f & lps & nx & d1 & c1 & d2 & c2 & E & _ & _ & ->)]; [lia|].
    apply adaptive_rate_in_bounds in E; try assumption. cbn. tauto.
  Qed.

  Lemma unpack_spec adj latest idx size ru : 0 <= idx <= latest -> latest < 2 ^ w ->
    0 <= size -> 0 <= adj ->
    match unpack w unit adj latest idx size ru with
    | Some r => 0 <= r /\ adj * unit <> 0 /\
                r = (if ru then ceil_div (size * (latest - idx)) (adj * unit) else size * (latest - idx) / (adj * unit))
    | None => adj * unit = 0 \/ 2 ^ w <= adj * unit \/
              2 ^ w <= (if ru then ceil_div (size * (latest - idx)) (adj * unit) else size * (latest - idx) / (adj * unit))
    end.
  Proof.
    intros Hi Hl Hs Ha. unfold unpack.
    replace (usub w latest idx) with (Some (latest - idx)) by (symmetry; apply usub_some; lia).
    cbn [obind]. destruct (umul w adj unit) as [a|] eqn:Ea; cbn [obind].
    2:{ apply chk_u_none in Ea. right; left. nia. }
    apply umul_some in Ea. destruct Ea as [Ea ->].
    destruct ru.
    - destruct (mul_div_ceil w size (latest - idx) (adj * unit)) as [r|] eqn:E.
      + unfold mul_div_ceil in E. destruct (adj * unit =? 0) eqn:E0; [discriminate|].
        apply chk_u_some in E. unfold ceil_div. lia.
      + apply mul_div_ceil_none in E; [|lia..]. unfold C01.Proofs.ceil_div in E. unfold ceil_div. lia.
    - destruct (mul_div w size (latest - idx) (adj * unit)) as [r|] eqn:E.
      + apply mul_div_exact in E; [|lia..]. assert (0 <= size * (latest - idx) / (adj * unit)) by (apply div_nonneg; nia). lia.
      + apply mul_div_none in E; [|lia..]. lia.
  Qed.

  Theorem pending_funding_nonneg adj s x : q4_in w (s_fa s) -> q4_in w (s_cfa s) -> pos_ok s x ->
    0 <= p_size x -> 0 <= adj ->
    match pending_funding w unit adj s x with
    | Ok (a, cl, cs) =>
        adj * unit <> 0 /\
        a = ceil_div (p_size x * (qget (s_fa s) (p_long x) (p_coll x) - p_fa x)) (adj * unit) /\
        cl = p_size x * (qget (s_cfa s) (p_long x) true - p_cl x) / (adj * unit) /\
        cs = p_size x * (qget (s_cfa s) (p_long x) false - p_cs x) / (adj * unit) /\
        0 <= a /\ 0 <= cl /\ 0 <= cs
    | Err e =>
        e = 1 /\
        (adj * unit = 0 \/ 2 ^ w <= adj * unit \/
         2 ^ w <= ceil_div (p_size x * (qget (s_fa s) (p_long x) (p_coll x) - p_fa x)) (adj * unit) \/
         2 ^ w <= p_size x * (qget (s_cfa s) (p_long x) true - p_cl x) / (adj * unit) \/
         2 ^ w <= p_size x * (qget (s_cfa s) (p_long x) false - p_cs x) / (adj * unit))
    end.
  Proof.
    intros Hfa Hcfa (Ha & Hcl & Hcs) Hsz Hadj. unfold pending_funding.
    pose proof (qget_in w _ (p_long x) (p_coll x) Hfa) as R1.
    pose proof (qget_in w _ (p_long x) true Hcfa) as R2.
    pose proof (qget_in w _ (p_long x) false Hcfa) as R3.
    pose proof (unpack_spec adj _ _ (p_size x) true Ha ltac:(lia) Hsz Hadj) as U1.
    pose proof (unpack_spec adj _ _ (p_size x) false Hcl ltac:(lia) Hsz Hadj) as U2.
    pose proof (unpack_spec adj _ _ (p_size x) false Hcs ltac:(lia) Hsz Hadj) as U3.
    destruct (unpack w unit adj (qget (s_fa s) (p_long x) (p_coll x)) (p_fa x) (p_size x) true) as [a|]; cbn [of_opt rbind].
    2:{ split; [reflexivity|]. tauto. }
    destruct (unpack w unit adj (qget (s_cfa s) (p_long x) true) (p_cl x) (p_size x) false) as [cl|]; cbn [of_opt rbind].
    2:{ split; [reflexivity|]. tauto. }
    destruct (unpack w unit adj (qget (s_cfa s) (p_long x) false) (p_cs x) (p_size x) false) as [cs|]; cbn [of_opt rbind].
    2:{ split; [reflexivity|]. tauto. }
    intuition.
  Qed.

  Lemma pos_ok_mono s s' x : q4_le (s_fa s) (s_fa s') -> q4_le (s_cfa s) (s_cfa s') -> pos_ok s x -> pos_ok s' x.
  Proof.
    intros L1 L2 (A & B & C). unfold pos_ok.
    pose proof (qget_le _ _ (p_long x) (p_coll x) L1).
    pose proof (qget_le _ _ (p_long x) true L2). pose proof (qget_le _ _ (p_long x) false L2). lia.
  Qed.

  Lemma Forall_upd_nth {A} (P : A -> Prop) l i f :
    Forall P l -> (forall x, P x -> P (f x)) -> Forall P (upd_nth l i f).
  Proof.
    intros H Hf. revert i. induction H as [|x l Hx Hl IH]; intros i; cbn.
    - destruct i; constructor.
    - destruct i; constructor; auto.
  Qed.

  Lemma hstep_inv p adj st o : op_ok o -> inv st ->
    let st' := hstep w unit p adj st o in
    inv st' /\ q4_le (s_fa (fst st)) (s_fa (fst st')) /\ q4_le (s_cfa (fst st)) (s_cfa (fst st')).
  Proof.
    intros Ho (I1 & I2 & I3). destruct st as [s xs]. cbn [fst snd] in *. unfold inv.
    (* whatever leaves the indices alone only has to keep the positions below them *)
    assert (Same : forall xs', Forall (pos_ok s) xs' ->
              (q4_in w (s_fa s) /\ q4_in w (s_cfa s) /\ Forall (pos_ok s) xs') /\
              q4_le (s_fa s) (s_fa s) /\ q4_le (s_cfa s) (s_cfa s))
      by (intros; split; [auto|split; apply q4_le_refl]).
    destruct o as [now pl ps|oi|i n]; cbn [hstep].
    - destruct (execute w unit p adj s now pl ps) as [[rep s']|e] eqn:E; [|exact (Same xs I3)].
      destruct Ho as [Hpl Hps]. apply execute_monotone in E; try assumption.
      destruct E as (L1 & L2 & R1 & R2 & _). cbn [fst snd].
      split; [|split; assumption]. split; [exact R1|]. split; [exact R2|].
      eapply Forall_impl; [|exact I3]. intros x Hx. eapply pos_ok_mono; eassumption.
    - exact (Same xs I3).
    - apply Same, Forall_upd_nth; [assumption|]. intros x _. unfold pos_ok, settle; cbn.
      pose proof (qget_in w _ (p_long x) (p_coll x) I1).
      pose proof (qget_in w _ (p_long x) true I2). pose proof (qget_in w _ (p_long x) false I2). lia.
  Qed.

  Theorem history_indices_monotone p adj ops : Forall op_ok ops -> forall st, inv st ->
    let st' := hrun w unit p adj st ops in
    inv st' /\ q4_le (s_fa (fst st)) (s_fa (fst st')) /\ q4_le (s_cfa (fst st)) (s_cfa (fst st')).
  Proof.
    intros Ho st Hi. unfold hrun.
    apply (fold_left_inv _ (fun s' => inv s' /\ q4_le (s_fa (fst st)) (s_fa (fst s')) /\
                                      q4_le (s_cfa (fst st)) (s_cfa (fst s')))).
    - intros a o Hin (Ia & L1 & L2). rewrite Forall_forall in Ho.
      destruct (hstep_inv p adj a o (Ho o Hin) Ia) as (J & M1 & M2).
      split; [exact J|split; eapply q4_le_trans; eassumption].
    - split; [exact Hi|split; apply q4_le_refl].
  Qed.
End H.
