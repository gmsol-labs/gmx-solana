(* C26 — property theorems only.
   Ranges in the hypotheses are exactly the Rust argument types:
   price : u128, decimals / token_decimals / precision : u8 (only 0 <= needed),
   U192 numbers, u64 / i64 / i32 Pyth fields. *)
From GV Require Import lib.Base C26.Model C26.Proofs.
Open Scope Z_scope.

(* Success: exactly when all decimal settings are within the maximum and the truncation
   floor(price * 10^precision / 10^decimals) fits u32; the result is that truncation
   with multiplier 20 - token_decimals - precision. *)
Theorem c26_try_from_price_ok : forall price d td p v m,
  0 <= price < 2 ^ 128 -> 0 <= d -> 0 <= td -> 0 <= p ->
  try_from_price price d td p = Ok (v, m) <->
  (d <= 20 /\ td <= 20 /\ p <= 20 /\ td + p <= 20) /\
  v = price * 10 ^ p / 10 ^ d /\ v < 2 ^ 32 /\ m = 20 - td - p.
Proof. exact try_from_price_ok. Qed.

(* Failure: ExceedMaxDecimals (1) exactly for decimal settings beyond the maximum,
   Overflow (2) exactly when the truncated value cannot be represented — never a wrong price.
   (Together with c26_try_from_price_ok this is total: every input gives one of the three.) *)
Theorem c26_try_from_price_err : forall price d td p e,
  0 <= price < 2 ^ 128 -> 0 <= d -> 0 <= td -> 0 <= p ->
  try_from_price price d td p = Err e <->
  (e = 1 /\ ~ (d <= 20 /\ td <= 20 /\ p <= 20 /\ td + p <= 20)) \/
  (e = 2 /\ (d <= 20 /\ td <= 20 /\ p <= 20 /\ td + p <= 20) /\ 2 ^ 32 <= price * 10 ^ p / 10 ^ d).
Proof. exact try_from_price_err. Qed.

(* never rounds up, off by less than one unit of the last kept digit (division-free form) *)
Theorem c26_try_from_price_floor : forall price d td p v m,
  0 <= price < 2 ^ 128 -> 0 <= d -> 0 <= td -> 0 <= p ->
  try_from_price price d td p = Ok (v, m) ->
  0 <= v < 2 ^ 32 /\ v * 10 ^ d <= price * 10 ^ p < (v + 1) * 10 ^ d.
Proof. exact try_from_price_floor. Qed.

(* The unit price (to_unit_price, 20-decimals USD per smallest token unit) of the result:
   to_unit_price does not trap, never exceeds the exact unit price price * 10^(20 - d - td)
   and is less than one precision step 10^multiplier below it.  Both sides are multiplied
   by 10^(d + td) to stay in Z. *)
Theorem c26_unit_price_never_rounds_up : forall price d td p v m,
  0 <= price < 2 ^ 128 -> 0 <= d -> 0 <= td -> 0 <= p ->
  try_from_price price d td p = Ok (v, m) ->
  to_unit_price v m = Some (v * 10 ^ m) /\
  0 <= m <= 20 /\
  v * 10 ^ m * 10 ^ (d + td) <= price * 10 ^ 20 < (v * 10 ^ m + 10 ^ m) * 10 ^ (d + td).
Proof. exact unit_price_never_rounds_up. Qed.

(* monotone in the price: a min <= max pair keeps its order and gets one multiplier *)
Theorem c26_try_from_price_mono : forall p1 p2 d td p v1 m1 v2 m2,
  0 <= p1 <= p2 -> p2 < 2 ^ 128 -> 0 <= d -> 0 <= td -> 0 <= p ->
  try_from_price p1 d td p = Ok (v1, m1) -> try_from_price p2 d td p = Ok (v2, m2) ->
  v1 <= v2 /\ m1 = m2.
Proof. exact try_from_price_mono. Qed.

(* PriceFeedPrice::try_to_price is the two conversions *)
Theorem c26_try_to_price_ok : forall mn mx d td p a b,
  0 <= mn < 2 ^ 128 -> 0 <= mx < 2 ^ 128 -> 0 <= d -> 0 <= td -> 0 <= p ->
  try_to_price mn mx d td p = Ok (a, b) <->
  try_from_price mn d td p = Ok a /\ try_from_price mx d td p = Ok b.
Proof. intros. apply try_to_price_ok. Qed.

Theorem c26_to_unit_price_spec : forall v m u, 0 <= v -> 0 <= m ->
  to_unit_price v m = Some u <-> (u = v * 10 ^ m /\ m <= 38 /\ v * 10 ^ m < 2 ^ 128).
Proof. exact to_unit_price_spec. Qed.

Theorem c26_with_unit_price_floor : forall m price v, 0 <= m <= 38 -> 0 <= price ->
  with_unit_price m price false = Ok v <-> (v = price / 10 ^ m /\ v < 2 ^ 32).
Proof. exact with_unit_price_floor. Qed.

Theorem c26_with_unit_price_ceil : forall m price v, 0 <= m <= 38 -> 0 <= price ->
  with_unit_price m price true = Ok v ->
  0 <= v < 2 ^ 32 /\ (v - 1) * 10 ^ m < price <= v * 10 ^ m.
Proof. exact with_unit_price_ceil. Qed.

(* None exactly when the rounded value does not fit u32 *)
Theorem c26_with_unit_price_none : forall m price ru, 0 <= m <= 38 -> 0 <= price ->
  with_unit_price m price ru = Err 1 <->
  (if ru then (2 ^ 32 - 1) * 10 ^ m < price else 2 ^ 32 * 10 ^ m <= price).
Proof. exact with_unit_price_none. Qed.

(* the arithmetic trap (10^m does not fit u128) needs a multiplier no conversion produces *)
Theorem c26_with_unit_price_trap : forall m price ru, 0 <= m -> 0 <= price ->
  with_unit_price m price ru = Err 9 <-> 39 <= m.
Proof. exact with_unit_price_trap. Qed.

Theorem c26_with_unit_price_roundtrip : forall v m ru,
  0 <= v < 2 ^ 32 -> 0 <= m <= 38 -> v * 10 ^ m < 2 ^ 128 ->
  to_unit_price v m = Some (v * 10 ^ m) /\ with_unit_price m (v * 10 ^ m) ru = Ok v.
Proof. exact with_unit_price_roundtrip. Qed.

(* the literal limb table of get_power_bounds is (2^128 - 1) * 10^i, i = 0..19 *)
Theorem c26_power_bounds_table :
  power_bounds = map (fun i => (2 ^ 128 - 1) * 10 ^ Z.of_nat i) (seq 0 20).
Proof. exact power_bounds_table. Qed.

Theorem c26_find_divisor_decimals_spec : forall num, 0 <= num ->
  let k := find_divisor_decimals num in
  0 <= k <= 20 /\
  (k <= 19 -> num <= (2 ^ 128 - 1) * 10 ^ k) /\
  (1 <= k -> (2 ^ 128 - 1) * 10 ^ (k - 1) < num).
Proof. exact find_divisor_decimals_spec. Qed.

Theorem c26_find_divisor_decimals_fits : forall num, 0 <= num < 2 ^ 192 ->
  0 <= num / 10 ^ find_divisor_decimals num < 2 ^ 128.
Proof. exact find_divisor_decimals_fits. Qed.

(* no digit count below k - 1 fits; k - 1 fits only when that quotient is exactly u128::MAX *)
Theorem c26_find_divisor_decimals_near_minimal : forall num j, 0 <= num -> 0 <= j ->
  let k := find_divisor_decimals num in
  (j <= k - 2 -> 2 ^ 128 <= num / 10 ^ j) /\
  (j = k - 1 -> 2 ^ 128 - 1 <= num / 10 ^ j).
Proof. exact find_divisor_decimals_near_minimal. Qed.

(* ... and that edge is real: the documented "minimum" is exceeded by one here *)
Theorem c26_find_divisor_decimals_not_minimal_witness :
  let num := (2 ^ 128 - 1) * 10 + 5 in
  find_divisor_decimals num = 2 /\ num / 10 ^ 1 < 2 ^ 128.
Proof. exact find_divisor_decimals_not_minimal_witness. Qed.

Theorem c26_convert_to_u128_storage_sound : forall num decimals q d',
  0 <= num < 2 ^ 192 -> 0 <= decimals ->
  convert_to_u128_storage num decimals = Ok (q, d') ->
  let k := decimals - d' in
  0 <= k <= 20 /\ 0 <= d' /\ 0 <= q < 2 ^ 128 /\ q * 10 ^ k <= num < (q + 1) * 10 ^ k.
Proof. exact convert_to_u128_storage_sound. Qed.

Theorem c26_convert_to_u128_storage_never_panics : forall num decimals,
  0 <= num < 2 ^ 192 -> 0 <= decimals ->
  convert_to_u128_storage num decimals <> Err 9.
Proof. exact convert_to_u128_storage_never_panics. Qed.

Theorem c26_convert_to_u128_storage_none : forall num decimals,
  0 <= num < 2 ^ 192 -> 0 <= decimals <= 19 ->
  convert_to_u128_storage num decimals = Err 1 <-> (2 ^ 128 - 1) * 10 ^ decimals < num.
Proof. exact convert_to_u128_storage_none. Qed.

(* the complete outcome table of pyth_price_value_to_decimal *)
Theorem c26_pyth_value_to_decimal_spec : forall value e td p,
  0 <= value < 2 ^ 64 -> - 2 ^ 31 <= e < 2 ^ 31 ->
  pyth_value_to_decimal value e td p =
    if e =? - 2 ^ 31 then Err 9
    else if e <? -255 then Err 4
    else if e <=? 0 then map_err7 (try_from_price value (- e) td p)
    else if 20 <=? e then Err 5
    else if 2 ^ 64 <=? value * 10 ^ e then Err 6
    else map_err7 (try_from_price (value * 10 ^ e) 0 td p).
Proof. exact pyth_value_to_decimal_spec. Qed.

Theorem c26_pyth_value_to_decimal_exact : forall value e td p v m,
  0 <= value < 2 ^ 64 -> - 2 ^ 31 <= e < 2 ^ 31 -> 0 <= td -> 0 <= p ->
  pyth_value_to_decimal value e td p = Ok (v, m) ->
  m = 20 - td - p /\ 0 <= v < 2 ^ 32 /\ td + p <= 20 /\
  ((-20 <= e <= 0 /\ v = value * 10 ^ p / 10 ^ (- e)) \/
   (0 < e < 20 /\ v = value * 10 ^ e * 10 ^ p)).
Proof. exact pyth_value_to_decimal_exact. Qed.

Theorem c26_pyth_with_confidence_sound : forall price conf e td p v1 m1 v2 m2,
  - 2 ^ 63 <= price < 2 ^ 63 -> 0 <= conf < 2 ^ 64 -> - 2 ^ 31 <= e < 2 ^ 31 -> 0 <= td -> 0 <= p ->
  pyth_with_confidence price conf e td p = Ok ((v1, m1), (v2, m2)) ->
  0 <= conf <= price /\
  pyth_value_to_decimal (price - conf) e td p = Ok (v1, m1) /\
  pyth_value_to_decimal (price + conf) e td p = Ok (v2, m2) /\
  v1 <= v2 /\ m1 = m2.
Proof. exact pyth_with_confidence_sound. Qed.

Theorem c26_pyth_max_price_error_unreachable : forall price conf e td p,
  - 2 ^ 63 <= price < 2 ^ 63 -> 0 <= conf < 2 ^ 64 ->
  pyth_with_confidence price conf e td p <> Err 3.
Proof. exact pyth_with_confidence_err3_unreachable. Qed.

(* non-vacuity: the repo's own literals plus the limits *)
Example c26_ex1 : try_from_price 177347 10 5 9 = Ok (17734, 6) /\ to_unit_price 17734 6 = Some 17734000000.
Proof. vm_compute. split; reflexivity. Qed.
Example c26_ex2 : try_from_price 7695092578398765000000000 20 8 2 = Ok (7695092, 10).
Proof. vm_compute. reflexivity. Qed.
Example c26_ex3 : try_from_price 4294967295 0 0 0 = Ok (4294967295, 20) /\ try_from_price 4294967296 0 0 0 = Err 2
                  /\ try_from_price 1 21 0 0 = Err 1 /\ try_from_price 1 0 11 10 = Err 1.
Proof. vm_compute. repeat split; reflexivity. Qed.
(* an intermediate u128 overflow (price * 10^20) reported as Overflow *)
Example c26_ex4 : try_from_price (2 ^ 127) 0 20 0 = Err 2.
Proof. vm_compute. reflexivity. Qed.
Example c26_ex5 : convert_to_u128_storage (2 ^ 128) 18 = Ok (34028236692093846346337460743176821145, 17)
                  /\ convert_to_u128_storage (2 ^ 192 - 1) 20 = Ok (62771017353866807638357894232076664161, 0)
                  /\ convert_to_u128_storage (2 ^ 192 - 1) 19 = Err 1.
Proof. vm_compute. repeat split; reflexivity. Qed.
Example c26_ex6 : pyth_with_confidence 6000012345678 1234567 (-8) 8 2 = Ok ((6000011, 10), (6000013, 10)).
Proof. vm_compute. reflexivity. Qed.
