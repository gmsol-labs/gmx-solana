(* C18 — specification of the RoleStore, representation invariant, and how each kind of update
   preserves the relation between the two. *)
From stdpp Require Import gmap.
From GV Require lib.Base C34.Model C34.Proofs C34.Refine C35.Model C18.Model.
Import GV.lib.Base(res, Ok, Err, rbind, of_opt).
Import GV.C34.Model GV.C34.Proofs GV.C34.Refine GV.C35.Model GV.C18.Model.
Open Scope Z_scope.

Local Notation R s := (abs (roles s)).
Local Notation M s := (abs (members s)).

(* The specification: roles with their stored name and an enabled flag, and a set of grants.
   Its operations mention no index, no bitmap and no array, only the two capacities. *)
Record astate := mkA {
  ar : gmap Z (list Z * bool);      (* role key -> (stored name bytes, enabled) *)
  ag : gset (Z * Z) }.              (* grants: (address, role key) *)

Definition amembers (A : astate) : gset Z := set_map fst (ag A).

Definition name_ok (stored n : list Z) : bool :=
  match bytes_to_str stored with Ok x => list_eqb x n | Err _ => false end.

(* lookup of a role by (key, name): Err = stored name does not read back as the given name *)
Definition a_status (A : astate) (r : role) : res (option bool) :=
  match (ar A !! r_key r : option (list Z * bool)) with
  | Some (nm, en) => if name_ok nm (r_name r) then Ok (Some en) else Err EC_ARG
  | None => Ok None
  end.

Definition fail (A : astate) (e : Z) : astate * res unit := (A, Err e).
Definition okA (A : astate) : astate * res unit := (A, Ok tt).

Definition a_enable (A : astate) (r : role) : astate * res unit :=
  match (ar A !! r_key r : option (list Z * bool)) with
  | Some (nm, en) =>
      if name_ok nm (r_name r) then
        if en then fail A EC_PRE else okA (mkA (<[r_key r := (nm, true)]> (ar A)) (ag A))
      else fail A EC_ARG
  | None =>
      match str_to_bytes NAME_LEN (r_name r) with
      | Err e => fail A (if e =? E_LEN then EC_LEN else EC_ARG)
      | Ok nb =>
          if decide (MAX_ROLES <= Z.of_nat (size (ar A))) then fail A EC_FULL
          else okA (mkA (<[r_key r := (nb, true)]> (ar A)) (ag A))
      end
  end.

Definition a_disable (A : astate) (r : role) : astate * res unit :=
  match (ar A !! r_key r : option (list Z * bool)) with
  | Some (nm, en) =>
      if name_ok nm (r_name r) then
        if en then okA (mkA (<[r_key r := (nm, false)]> (ar A)) (ag A)) else fail A EC_PRE
      else fail A EC_ARG
  | None => okA A
  end.

Definition a_has (A : astate) (a : Z) (r : role) : res bool :=
  if decide (a ∈ amembers A) then
    match a_status A r with
    | Err e => Err e
    | Ok None => Err EC_NOTFOUND
    | Ok (Some false) => Err EC_PRE
    | Ok (Some true) => Ok (bool_decide ((a, r_key r) ∈ ag A))
    end
  else Err EC_DENIED.

Definition a_grant (A : astate) (a : Z) (r : role) : astate * res unit :=
  match a_status A r with
  | Err e => fail A e
  | Ok None => fail A EC_NOTFOUND
  | Ok (Some false) => fail A EC_PRE
  | Ok (Some true) =>
      if decide ((a, r_key r) ∈ ag A) then fail A EC_PRE
      else if decide (a ∈ amembers A) then okA (mkA (ar A) ({[(a, r_key r)]} ∪ ag A))
      else if decide (MAX_MEMBERS <= Z.of_nat (size (amembers A))) then fail A EC_FULL
      else okA (mkA (ar A) ({[(a, r_key r)]} ∪ ag A))
  end.

Definition a_revoke (A : astate) (a : Z) (r : role) : astate * res unit :=
  match a_status A r with
  | Err e => fail A e
  | Ok None => fail A EC_NOTFOUND
  | Ok (Some _) =>
      if decide (a ∈ amembers A) then
        if decide ((a, r_key r) ∈ ag A) then okA (mkA (ar A) (ag A ∖ {[(a, r_key r)]}))
        else fail A EC_PRE
      else fail A EC_DENIED
  end.

Record rwf (s : rstore) : Prop := {
  rwf_roles : wf rmeta0 MAX_ROLES (roles s);
  rwf_members : wf 0 MAX_MEMBERS (members s);
  (* role indices are creation ranks: below the number of roles, pairwise distinct *)
  rwf_index : ∀ k md, R s !! k = Some md → 0 <= rm_index md < Z.of_nat (size (R s));
  rwf_inj : ∀ k1 k2 md1 md2, R s !! k1 = Some md1 → R s !! k2 = Some md2 →
            rm_index md1 = rm_index md2 → k1 = k2;
  (* a stored member has at least one bit, and only bits of existing roles *)
  rwf_val : ∀ a v, M s !! a = Some v → 0 <= v ∧ v ≠ 0;
  rwf_bits : ∀ a v i, M s !! a = Some v → 0 <= i → Z.testbit v i = true →
             ∃ k md, R s !! k = Some md ∧ rm_index md = i }.

Definition gbit (s : rstore) (a k : Z) : Prop :=
  ∃ v md, M s !! a = Some v ∧ R s !! k = Some md ∧ Z.testbit v (rm_index md) = true.

Definition meta_view (md : rmeta) : list Z * bool := (rm_name md, is_enabled md).

Definition sim (s : rstore) (A : astate) : Prop :=
  rwf s ∧ ar A = meta_view <$> R s ∧ ∀ a k, (a, k) ∈ ag A ↔ gbit s a k.

Lemma grant_is_member A a k : (a, k) ∈ ag A → a ∈ amembers A.
Proof. intros H. unfold amembers. apply elem_of_map. by exists (a, k). Qed.

Lemma cap_roles : 0 <= MAX_ROLES < 2 ^ 32.
Proof. unfold MAX_ROLES. lia. Qed.
Lemma cap_members : 0 <= MAX_MEMBERS < 2 ^ 32.
Proof. unfold MAX_MEMBERS. lia. Qed.

Lemma rwf_zero : rwf rstore0.
Proof.
  split; [apply wf_empty, cap_roles | apply wf_empty, cap_members | ..].
  all: unfold rstore0; cbn [roles members]; rewrite abs_empty; intros *; by rewrite lookup_empty.
Qed.

Lemma roles_size_le s : rwf s → Z.of_nat (size (R s)) <= 32.
Proof.
  intros W. rewrite (abs_size rmeta0 MAX_ROLES _ (rwf_roles s W)).
  destruct (rwf_roles s W) as [_ Hc _ _]. unfold MAX_ROLES in Hc. lia.
Qed.

Lemma index_lt_32 s k md : rwf s → R s !! k = Some md → 0 <= rm_index md < 32.
Proof.
  intros W E. pose proof (rwf_index s W k md E). pose proof (roles_size_le s W). lia.
Qed.

Lemma sim_zero : sim rstore0 (mkA ∅ ∅).
Proof.
  split; [apply rwf_zero|]. unfold gbit, rstore0. cbn [ar ag roles members]. rewrite !abs_empty. split.
  - by rewrite fmap_empty.
  - intros a k. split; [set_solver|]. intros (v & md & E & _). by rewrite lookup_empty in E.
Qed.

Lemma sim_members s A a : sim s A → a ∈ amembers A ↔ is_Some (M s !! a).
Proof.
  intros (W & _ & G). unfold amembers. rewrite elem_of_map. split.
  - intros ([a' k] & -> & H). apply G in H as (v & md & E & _). by exists v.
  - intros [v E]. destruct (rwf_val s W a v E) as [P N].
    assert (B : Z.testbit v (Z.log2 v) = true) by (apply Z.bit_log2; lia).
    destruct (rwf_bits s W a v _ E (Z.log2_nonneg v) B) as (k & md & Ek & Ei).
    exists (a, k). split; [done|]. apply G. exists v, md. by rewrite Ei.
Qed.

Lemma sim_members_size s A : sim s A → size (amembers A) = size (M s).
Proof.
  intros S. rewrite <- size_dom. f_equal. apply set_eq. intros a.
  by rewrite (sim_members s A a S), elem_of_dom.
Qed.

Lemma sim_roles_size s A : sim s A → size (ar A) = size (R s).
Proof. intros (_ & E & _). rewrite E. by rewrite map_size_fmap. Qed.

Lemma sim_role_lookup s A k : sim s A → ar A !! k = meta_view <$> (R s !! k).
Proof. intros (_ & E & _). rewrite E. by rewrite lookup_fmap. Qed.

Lemma name_check_ok md r : name_check md r = if name_ok (rm_name md) (r_name r) then Ok tt else Err EC_ARG.
Proof. unfold name_check, name_ok. destruct (bytes_to_str (rm_name md)); [|done]. by destruct (list_eqb _ _). Qed.

(* writing the metadata of role [k]: an existing role keeps its index, a new one takes the next
   creation rank (which no member bitmap can carry yet) *)
Lemma sim_set_role s A k md' roles' :
  sim s A → rm_index md' = from_option rm_index (Z.of_nat (size (R s))) (R s !! k) →
  wf rmeta0 MAX_ROLES roles' → abs roles' = <[k := md']> (R s) →
  sim (mkrs roles' (members s)) (mkA (<[k := meta_view md']> (ar A)) (ag A)).
Proof.
  intros (W & EA & G) Ei W' E'.
  assert (F : Z.of_nat (size (R s)) <= Z.of_nat (size (abs roles')) ∧
              0 <= rm_index md' < Z.of_nat (size (abs roles')) ∧
              (∀ k0 m0, R s !! k0 = Some m0 → rm_index m0 = rm_index md' → k0 = k) ∧
              (∀ a v, M s !! a = Some v → Z.testbit v (rm_index md') = true → is_Some (R s !! k))).
  { rewrite E'. destruct (R s !! k) as [md|] eqn:Ek; simpl in Ei.
    - rewrite map_size_insert_Some by done. pose proof (rwf_index s W k md Ek).
      split; [lia|]. split; [lia|]. split; [|by eauto].
      intros k0 m0 E0 I0. apply (rwf_inj s W k0 k m0 md E0 Ek). congruence.
    - rewrite map_size_insert_None by done. split; [lia|]. split; [lia|]. split.
      + intros k0 m0 E0 I0. pose proof (rwf_index s W k0 m0 E0). lia.
      + intros a v Ea B. destruct (rwf_bits s W a v (rm_index md') Ea) as (k1 & m1 & E1 & I1); [lia|done|].
        pose proof (rwf_index s W k1 m1 E1). lia. }
  destruct F as (Sz & I & Inj & Back).
  assert (Same : ∀ m0, R s !! k = Some m0 → rm_index md' = rm_index m0) by (intros m0 E0; by rewrite E0 in Ei).
  assert (L : ∀ k0 m0, abs roles' !! k0 = Some m0 ↔ (k = k0 ∧ md' = m0) ∨ (k ≠ k0 ∧ R s !! k0 = Some m0))
    by (intros; rewrite E'; apply lookup_insert_Some).
  (* an old entry read through the new map: at [k] it is [md'], with the same index *)
  assert (Fwd : ∀ k0 m0, R s !! k0 = Some m0 → ∃ m1, abs roles' !! k0 = Some m1 ∧ rm_index m1 = rm_index m0).
  { intros k0 m0 E0. destruct (decide (k = k0)) as [<-|N].
    - exists md'. split; [apply L; by left|by apply Same].
    - exists m0. split; [apply L; by right|done]. }
  split; [|split].
  - split; cbn [roles members]; [done|apply W| | |apply W|].
    + intros k0 m0 [[<- <-]|[N E0]]%L; [done|]. pose proof (rwf_index s W k0 m0 E0). lia.
    + intros k1 k2 m1 m2 [[<- <-]|[N1 E1]]%L [[<- <-]|[N2 E2]]%L Hi; try done.
      * symmetry. by apply (Inj k2 m2).
      * by apply (Inj k1 m1).
      * by apply (rwf_inj s W k1 k2 m1 m2).
    + intros a v i Ea Pi B. destruct (rwf_bits s W a v i Ea Pi B) as (k0 & m0 & E0 & <-).
      exists k0. by apply Fwd.
  - cbn [roles ar]. rewrite E', fmap_insert. by rewrite EA.
  - intros a k0. cbn [ag]. rewrite G. unfold gbit. cbn [roles members]. split.
    + intros (v & m0 & Ea & E0 & B). destruct (Fwd k0 m0 E0) as (m1 & E1 & I1).
      exists v, m1. by rewrite I1.
    + intros (v & m0 & Ea & [[<- <-]|[N E0]]%L & B).
      * destruct (Back a v Ea B) as [m1 E1]. exists v, m1. by rewrite <- (Same m1 E1).
      * by exists v, m0.
Qed.

(* the bitmap of an address; 0 for an address that is not stored *)
Definition bits (s : rstore) (a : Z) : Z := default 0 (M s !! a).

Lemma bits_roles s a : rwf s →
  0 <= bits s a ∧ ∀ i, 0 <= i → Z.testbit (bits s a) i = true → ∃ k md, R s !! k = Some md ∧ rm_index md = i.
Proof.
  intros W. unfold bits. destruct (M s !! a) as [v|] eqn:E; simpl.
  - split; [by apply (rwf_val s W a)|]. intros i. by apply (rwf_bits s W a).
  - split; [done|]. intros i _. by rewrite Z.bits_0.
Qed.

Lemma grants_of s A a k : sim s A →
  (a, k) ∈ ag A ↔ ∃ md, R s !! k = Some md ∧ Z.testbit (bits s a) (rm_index md) = true.
Proof.
  intros (_ & _ & G). rewrite G. unfold gbit, bits. split.
  - intros (v & md & -> & E & B). by exists md.
  - intros (md & E & B). destruct (M s !! a) as [v|]; simpl in B; [by exists v, md|]. by rewrite Z.bits_0 in B.
Qed.

Lemma testbit_flip v i (b : bool) j : 0 <= i → 0 <= j →
  Z.testbit ((if b then Z.setbit else Z.clearbit) v i) j = if decide (j = i) then b else Z.testbit v j.
Proof.
  intros Pi Pj. destruct b; case_decide as D; subst.
  - by apply Z.setbit_eq.
  - apply Z.setbit_neq; [done|congruence].
  - apply Z.clearbit_eq.
  - apply Z.clearbit_neq. congruence.
Qed.

Lemma flip_nonneg v i (b : bool) : 0 <= v → 0 <= i → 0 <= (if b then Z.setbit else Z.clearbit) v i.
Proof.
  intros Pv Pi. destruct b.
  - rewrite Z.setbit_spec'. apply Z.lor_nonneg. split; [done|]. apply Z.pow_nonneg. lia.
  - rewrite Z.clearbit_spec'. apply Z.ldiff_nonneg. by left.
Qed.

(* Setting (grant) or clearing (revoke) the bit of role [k] in the bitmap of [a] adds or removes the
   one grant (a, k): role indices are injective, so no other grant of [a] is affected. *)
Lemma grants_flip s A a k md (b : bool) k0 : sim s A → R s !! k = Some md →
  (a, k0) ∈ (if b then {[(a, k)]} ∪ ag A else ag A ∖ {[(a, k)]}) ↔
  ∃ m0, R s !! k0 = Some m0 ∧
        Z.testbit ((if b then Z.setbit else Z.clearbit) (bits s a) (rm_index md)) (rm_index m0) = true.
Proof.
  intros S Ek. pose proof S as (W & _). pose proof (rwf_index s W k md Ek) as [Pi _].
  assert (K : ∀ m0, R s !! k0 = Some m0 → 0 <= rm_index m0 ∧ (rm_index m0 = rm_index md ↔ k0 = k)).
  { intros m0 E0. split; [by apply (rwf_index s W k0)|].
    split; [apply (rwf_inj s W k0 k m0 md E0 Ek)|]. intros ->. congruence. }
  pose proof (λ j, testbit_flip (bits s a) (rm_index md) b j Pi) as B'.
  destruct b; simpl in B'; rewrite ?elem_of_union, ?elem_of_difference, elem_of_singleton, (grants_of s A a k0 S); split.
  - intros [[= ->]|(m0 & E0 & B0)].
    + exists md. rewrite B' by done. by rewrite decide_True.
    + exists m0. rewrite B' by (by apply K). split; [exact E0|]. case_decide; [reflexivity|exact B0].
  - intros (m0 & E0 & B0). rewrite B' in B0 by (by apply K). case_decide as D.
    + left. f_equal. by apply (K m0).
    + right. by exists m0.
  - intros [(m0 & E0 & B0) N]. exists m0. rewrite B' by (by apply K).
    rewrite decide_False; [done|]. intros D. apply N. f_equal. by apply (K m0).
  - intros (m0 & E0 & B0). rewrite B' in B0 by (by apply K). case_decide as D; [done|].
    split; [by exists m0|]. intros [= D']. by apply D, (K m0).
Qed.

(* The same on the store: the entry of [a] is rewritten, or dropped when its bitmap becomes 0. *)
Lemma sim_flip_bit s A a k md (b : bool) members' :
  sim s A → R s !! k = Some md →
  let v' := (if b then Z.setbit else Z.clearbit) (bits s a) (rm_index md) in
  wf 0 MAX_MEMBERS members' →
  abs members' = (if decide (v' = 0) then delete a (M s) else <[a := v']> (M s)) →
  sim (mkrs (roles s) members') (mkA (ar A) (if b then {[(a, k)]} ∪ ag A else ag A ∖ {[(a, k)]})).
Proof.
  intros S Ek v' W' E'. pose proof S as (W & EA & G).
  assert (L : ∀ a0 v0, abs members' !! a0 = Some v0 ↔
                       (a = a0 ∧ v' = v0 ∧ v' ≠ 0) ∨ (a ≠ a0 ∧ M s !! a0 = Some v0)).
  { intros a0 v0. rewrite E'. case_decide as Z0.
    - rewrite lookup_delete_Some. split; [by right|]. intros [(_ & _ & N)|?]; done.
    - rewrite lookup_insert_Some. split; [intros [[<- <-]|?]; [left|right]; done|].
      intros [(<- & <- & _)|?]; [left|right]; done. }
  clear E'.
  destruct (bits_roles s a W) as [Pv Hb]. pose proof (rwf_index s W k md Ek) as [Pi _].
  split; [|split; [done|]].
  - split; cbn [roles members]; try apply W; [done| |].
    + intros a0 v0 [(<- & <- & N)|[N E]]%L; [|by apply (rwf_val s W a0)].
      split; [by apply flip_nonneg|done].
    + intros a0 v0 i [(<- & <- & N)|[N E]]%L Pi' B.
      * unfold v' in B. rewrite testbit_flip in B by done. case_decide as D; [subst; by exists k, md|by apply Hb].
      * by apply (rwf_bits s W a0 v0 i).
  - intros a0 k0. cbn [ag]. unfold gbit. cbn [roles members]. destruct (decide (a0 = a)) as [->|Na].
    + rewrite (grants_flip s A a k md b k0 S Ek). fold v'. split.
      * intros (m0 & E0 & B0). exists v', m0. split; [|done]. apply L. left.
        split; [done|]. split; [done|]. intros Z0. rewrite Z0 in B0. by rewrite Z.bits_0 in B0.
      * intros (v0 & m0 & [(_ & <- & _)|[N _]]%L & E0 & B0); [by exists m0|done].
    + transitivity ((a0, k0) ∈ ag A).
      { destruct b.
        - rewrite elem_of_union, elem_of_singleton. split; [intros [[= ? _]|H]; done|by right].
        - rewrite elem_of_difference, elem_of_singleton. split; [by intros [H _]|].
          intros H. split; [done|]. by intros [= ? _]. }
      rewrite G. unfold gbit.
      split; intros (v0 & m0 & E0 & B0); exists v0, m0; (split; [|done]); [apply L; by right|].
      apply L in E0 as [(? & _)|[_ E0]]; done.
Qed.

Lemma status_sim s A r : sim s A →
  a_status A r =
    match R s !! r_key r with
    | Some md => if name_ok (rm_name md) (r_name r) then Ok (Some (is_enabled md)) else Err EC_ARG
    | None => Ok None
    end.
Proof.
  intros S. unfold a_status. rewrite (sim_role_lookup s A _ S).
  destruct (R s !! r_key r) as [md|]; simpl; done.
Qed.

Lemma role_index_lookup s r : rwf s →
  role_index s r = Ok (match R s !! r_key r with
                       | Some md => if name_ok (rm_name md) (r_name r) then Ok (Some (rm_index md)) else Err EC_ARG
                       | None => Ok None
                       end).
Proof.
  intros W. unfold role_index. rewrite (get_is_lookup rmeta0 MAX_ROLES _ _ (rwf_roles s W)). simpl.
  destruct (R s !! r_key r) as [md|]; [|done]. rewrite name_check_ok. by destruct (name_ok _ _).
Qed.

Lemma enabled_role_index_lookup s r : rwf s →
  enabled_role_index s r =
    Ok (match R s !! r_key r with
        | Some md => if name_ok (rm_name md) (r_name r)
                     then (if is_enabled md then Ok (Some (rm_index md)) else Err EC_PRE) else Err EC_ARG
        | None => Ok None
        end).
Proof.
  intros W. unfold enabled_role_index. rewrite (get_is_lookup rmeta0 MAX_ROLES _ _ (rwf_roles s W)). simpl.
  destruct (R s !! r_key r) as [md|]; [|done]. rewrite name_check_ok.
  destruct (name_ok _ _); [|done]. by destruct (is_enabled md).
Qed.

Lemma bit_get_ok v i : i < 32 → bit_get v i = Ok (Z.testbit v i).
Proof. intros H. unfold bit_get. destruct (Z.ltb_spec i 32); [done|lia]. Qed.
Lemma bit_set_ok v i b : i < 32 → bit_set v i b = Ok (if b then Z.setbit v i else Z.clearbit v i).
Proof. intros H. unfold bit_set. destruct (Z.ltb_spec i 32); [done|lia]. Qed.
