(* C29 — proofs about the price adjustment and the acceptance pipeline. *)
From GV Require Import lib.Base lib.DivLemmas lib.Checked C01.Model C26.Model C26.Proofs C29.Model.
Open Scope Z_scope.

Definition dec_ok (d : dec) : Prop := 0 <= fst d < 2 ^ 32 /\ 0 <= snd d <= 20.

(* this is what try_from_price produces *)
Lemma try_from_price_dec_ok price d td p x :
  0 <= price < 2 ^ 128 -> 0 <= d -> 0 <= td -> 0 <= p ->
  try_from_price price d td p = Ok x -> dec_ok x.
Proof.
  intros H1 H2 H3 H4 H. destruct x as [v m].
  pose proof (try_from_price_floor _ _ _ _ _ _ H1 H2 H3 H4 H) as [Hv _].
  apply try_from_price_ok in H; try assumption. destruct H as ((?&?&?&?) & _ & _ & ->).
  split; cbn [fst snd]; lia.
Qed.

Lemma dec_unit_bound d : dec_ok d -> 0 <= fst d * 10 ^ snd d < 2 ^ 32 * 10 ^ 20.
Proof. intros [Hv Hm]. apply unit_bound; assumption. Qed.

Lemma unit_of_ok d : dec_ok d -> unit_of d = Some (fst d * 10 ^ snd d).
Proof.
  intros H. pose proof (dec_unit_bound d H). destruct H as [Hv Hm]. pose proof u32_units_fit.
  apply to_unit_price_spec; try lia.
Qed.

Lemma with_unit_floor d x d' : dec_ok d -> 0 <= x ->
  with_unit d x false = Some d' ->
  snd d' = snd d /\ dec_ok d' /\ fst d' = x / 10 ^ snd d /\ fst d' * 10 ^ snd d <= x.
Proof.
  intros [Hv Hm] Hx. unfold with_unit. destruct (with_unit_price (snd d) x false) as [v|e] eqn:E; [|discriminate].
  intros [= <-]. unfold dec_ok. cbn [fst snd]. apply with_unit_price_floor in E; [|lia..]. destruct E as [-> ?].
  pose proof (DivLemmas.pow10_pos (snd d) ltac:(lia)) as P. pose proof (div_floor_spec x _ P).
  assert (0 <= x / 10 ^ snd d) by (apply div_nonneg; lia). repeat split; lia.
Qed.

Lemma with_unit_ceil d x d' : dec_ok d -> 0 <= x ->
  with_unit d x true = Some d' ->
  snd d' = snd d /\ dec_ok d' /\ (fst d' - 1) * 10 ^ snd d < x <= fst d' * 10 ^ snd d.
Proof.
  intros [Hv Hm] Hx. unfold with_unit. destruct (with_unit_price (snd d) x true) as [v|e] eqn:E; [|discriminate].
  intros [= <-]. unfold dec_ok. cbn [fst snd]. apply with_unit_price_ceil in E; [|lia..]. repeat split; lia.
Qed.

(* reference price used by adjust / validate: explicit, or the mid of the unit prices *)
Definition ref_unit (p : price) (ref : option dec) : Z :=
  match ref with
  | Some r => fst r * 10 ^ snd r
  | None => (fst (fst p) * 10 ^ snd (fst p) + fst (snd p) * 10 ^ snd (snd p)) / 2
  end.
Definition umin_of (p : price) : Z := fst (fst p) * 10 ^ snd (fst p).
Definition umax_of (p : price) : Z := fst (snd p) * 10 ^ snd (snd p).
Definition price_ok (p : price) : Prop := dec_ok (fst p) /\ dec_ok (snd p).
Definition ref_ok (ref : option dec) : Prop := match ref with Some r => dec_ok r | None => True end.

(* the max deviation: apply_factor never fails in the conversion range *)
Definition dev_of (factor : Z) (p : price) (ref : option dec) : Z := ref_unit p ref * factor / 10 ^ 20.

(* What adjust and validate_deviation compute before they compare: the unit prices, the reference
   (in the shape either function matches on) and the deviation, none of which can trap or fail on
   converted prices; the deviation may still exceed u128. *)
Lemma band_setup factor p ref : price_ok p -> ref_ok ref -> 0 <= factor ->
  let umin := umin_of p in let umax := umax_of p in
  let r := ref_unit p ref in let dev := dev_of factor p ref in
  unit_of (fst p) = Some umin /\ unit_of (snd p) = Some umax /\
  match ref with
  | Some r0 => match unit_of r0 with Some x => Some (Some x) | None => None end
  | None => Some (checked_mid umin umax)
  end = Some (Some r) /\
  match ref with
  | Some r0 => match unit_of r0 with Some x => Ok x | None => Err 9 end
  | None => of_opt 1 (checked_mid umin umax)
  end = Ok r /\
  apply_factor 128 (10 ^ 20) r factor = chk_u 128 dev /\
  0 <= umin < 2 ^ 32 * 10 ^ 20 /\ 0 <= umax < 2 ^ 32 * 10 ^ 20 /\ 0 <= r < 2 ^ 32 * 10 ^ 20 /\ 0 <= dev.
Proof.
  intros [Hmin Hmax] Hr Hf. cbv zeta.
  pose proof (dec_unit_bound _ Hmin) as Bmin. pose proof (dec_unit_bound _ Hmax) as Bmax.
  fold (umin_of p) in Bmin. fold (umax_of p) in Bmax.
  assert (Br : 0 <= ref_unit p ref < 2 ^ 32 * 10 ^ 20).
  { destruct ref as [r0|]; [exact (dec_unit_bound _ Hr)|]. unfold ref_unit. fold (umin_of p) (umax_of p). lia. }
  split; [exact (unit_of_ok _ Hmin)|]. split; [exact (unit_of_ok _ Hmax)|].
  assert (M : ref = None -> checked_mid (umin_of p) (umax_of p) = Some (ref_unit p ref)).
  { intros ->. unfold checked_mid. pose proof u32_units_fit.
    unfold uadd. rewrite chk_u_in by lia. reflexivity. }
  split; [|split].
  - destruct ref as [r0|]; [rewrite (unit_of_ok _ Hr)|rewrite M]; reflexivity.
  - destruct ref as [r0|]; [rewrite (unit_of_ok _ Hr)|rewrite M]; reflexivity.
  - repeat split; try lia. unfold dev_of. apply div_nonneg; [apply Z.mul_nonneg_nonneg; lia|reflexivity].
Qed.

Theorem adjust_some factor p ref p' :
  price_ok p -> ref_ok ref -> 0 <= factor ->
  adjust factor p ref = Some (Some p') ->
  let r := ref_unit p ref in let dev := dev_of factor p ref in
  snd (fst p') = snd (fst p) /\ snd (snd p') = snd (snd p) /\ price_ok p' /\
  (dev < abs_diff (umax_of p) r \/ dev < abs_diff (umin_of p) r) /\
  ((abs_diff (umax_of p) r <= dev /\ snd p' = snd p) \/
   (dev < abs_diff (umax_of p) r /\ fst (snd p') = (r + dev) / 10 ^ snd (snd p))) /\
  ((abs_diff (umin_of p) r <= dev /\ fst p' = fst p) \/
   (dev < abs_diff (umin_of p) r /\ dev <= r /\
    (fst (fst p') - 1) * 10 ^ snd (fst p) < r - dev <= fst (fst p') * 10 ^ snd (fst p))) /\
  r - dev <= umin_of p' /\ umax_of p' <= r + dev.
Proof.
  intros Hp Hr Hf. pose proof (band_setup factor p ref Hp Hr Hf) as S. cbv zeta in *.
  destruct S as (U1 & U2 & R & _ & AF & Bmin & Bmax & Br & Hdev). pose proof u32_units_fit as BIG.
  destruct p as [pmin pmax]. destruct Hp as [Hmin Hmax]. cbn [fst snd] in *.
  unfold adjust. rewrite U1, U2, R, AF. clear U1 U2 R AF.
  pose proof (eq_refl : umin_of (pmin, pmax) = fst pmin * 10 ^ snd pmin) as Emin.
  pose proof (eq_refl : umax_of (pmin, pmax) = fst pmax * 10 ^ snd pmax) as Emax.
  revert Emin Emax Bmin Bmax Br Hdev.
  generalize (umin_of (pmin, pmax)) (umax_of (pmin, pmax)) (ref_unit (pmin, pmax) ref) (dev_of factor (pmin, pmax) ref).
  intros umin umax r dev Emin Emax Bmin Bmax Br Hdev.
  destruct (chk_u 128 dev) as [dv|] eqn:Edev; [|discriminate].
  apply chk_u_some in Edev. destruct Edev as [Edev ->]. cbv zeta.
  unfold umin_of, umax_of, abs_diff. cbn [fst snd].
  destruct (dev <? Z.abs (umax - r)) eqn:Cmax.
  - (* max side out of band: replaced by floor((r + dev) / step) *)
    destruct (uadd 128 r dev) as [hi|] eqn:Ehi; [|discriminate].
    apply uadd_some in Ehi. destruct Ehi as [_ ->].
    destruct (with_unit pmax (r + dev) false) as [nm|] eqn:Wmax; [|discriminate].
    apply with_unit_floor in Wmax; [|assumption|lia]. destruct Wmax as (Wm1 & Dm & Wm2 & Fl).
    destruct (dev <? Z.abs (umin - r)) eqn:Cmin.
    + destruct (usub 128 r dev) as [lo|] eqn:Elo; [|discriminate].
      apply usub_some in Elo. destruct Elo as [Elo ->].
      destruct (with_unit pmin (r - dev) true) as [nn|] eqn:Wmin; [|discriminate].
      apply with_unit_ceil in Wmin; [|assumption|lia]. destruct Wmin as (Wn1 & Dn & Wn3).
      intros [= <-]. cbn [fst snd]. rewrite Wm1, Wn1.
      split; [reflexivity|]. split; [reflexivity|]. split; [exact (conj Dn Dm)|].
      split; [left; lia|]. split; [right; split; [lia|exact Wm2]|].
      split; [right; repeat split; lia|]. lia.
    + intros [= <-]. cbn [fst snd]. rewrite Wm1.
      split; [reflexivity|]. split; [reflexivity|]. split; [exact (conj Hmin Dm)|].
      split; [left; lia|]. split; [right; split; [lia|exact Wm2]|].
      split; [left; split; [lia|reflexivity]|]. lia.
  - (* max side in band: only the min side can have been replaced, by ceil((r - dev) / step) *)
    destruct (dev <? Z.abs (umin - r)) eqn:Cmin; [|discriminate].
    destruct (usub 128 r dev) as [lo|] eqn:Elo; [|discriminate].
    apply usub_some in Elo. destruct Elo as [Elo ->].
    destruct (with_unit pmin (r - dev) true) as [nn|] eqn:Wmin; [|discriminate].
    apply with_unit_ceil in Wmin; [|assumption|lia]. destruct Wmin as (Wn1 & Dn & Wn3).
    intros [= <-]. cbn [fst snd]. rewrite Wn1.
    split; [reflexivity|]. split; [reflexivity|]. split; [exact (conj Dn Hmax)|].
    split; [right; lia|]. split; [left; split; [lia|reflexivity]|].
    split; [right; repeat split; lia|]. lia.
Qed.

Theorem adjust_no_trap factor p ref :
  price_ok p -> ref_ok ref -> 0 <= factor -> adjust factor p ref <> None.
Proof.
  intros Hp Hr Hf. destruct (band_setup factor p ref Hp Hr Hf) as (U1 & U2 & R & _).
  destruct p as [pmin pmax]. cbn [fst snd] in *. unfold adjust. rewrite U1, U2, R.
  destruct (apply_factor _ _ _ _); [|discriminate]. cbv zeta.
  (* after the setup no branch returns the outer None *)
  repeat match goal with |- context [match ?x with _ => _ end] => destruct x; try discriminate end.
Qed.

Theorem adjust_in_band_none factor p ref :
  price_ok p -> ref_ok ref -> 0 <= factor ->
  let r := ref_unit p ref in let dev := dev_of factor p ref in
  dev < 2 ^ 128 -> abs_diff (umax_of p) r <= dev -> abs_diff (umin_of p) r <= dev ->
  adjust factor p ref = Some None.
Proof.
  intros Hp Hr Hf. destruct (band_setup factor p ref Hp Hr Hf) as (U1 & U2 & R & _ & AF & _ & _ & _ & Hdev).
  cbv zeta. intros Hd H1 H2. destruct p as [pmin pmax]. cbn [fst snd] in *. unfold adjust. rewrite U1, U2, R, AF.
  rewrite chk_u_in by lia.
  cbv zeta. replace (_ <? abs_diff (umax_of _) _) with false by lia.
  replace (_ <? abs_diff (umin_of _) _) with false by lia. reflexivity.
Qed.

Theorem from_price_ok p m a b :
  from_price p = Ok (m, a, b) <->
  snd (fst p) = m /\ snd (snd p) = m /\ fst (fst p) = a /\ fst (snd p) = b /\ a <> 0 /\ a <= b.
Proof.
  destruct p as [[minv minm] [maxv maxm]]. cbn [from_price fst snd].
  destruct (minm =? maxm) eqn:E1; cbn [negb]; [|split; [discriminate|lia]].
  destruct (minv =? 0) eqn:E2; [split; [discriminate|lia]|].
  destruct (maxv <? minv) eqn:E3; [split; [discriminate|lia]|].
  split; [intros [= <- <- <-]; repeat split; lia|].
  intros (<- & ? & <- & <- & ? & ?). reflexivity.
Qed.

Theorem adjusted_stored_in_band factor p ref p' m a b :
  price_ok p -> ref_ok ref -> 0 <= factor ->
  adjust factor p ref = Some (Some p') -> from_price p' = Ok (m, a, b) ->
  let r := ref_unit p ref in let dev := dev_of factor p ref in
  0 < a <= b /\ r - dev <= a * 10 ^ m <= b * 10 ^ m /\ b * 10 ^ m <= r + dev.
Proof.
  intros Hp Hr Hf HA HF. cbv zeta.
  pose proof (adjust_some factor p ref p' Hp Hr Hf HA) as H. cbv zeta in H.
  destruct H as (_ & _ & Hok & _ & _ & _ & Hlo & Hhi).
  apply from_price_ok in HF. destruct HF as (M1 & M2 & A & B & Ha & Hab).
  unfold umin_of, umax_of in *. rewrite M1, A in Hlo. rewrite M2, B in Hhi.
  destruct Hok as [[? ?] [? ?]]. pose proof (DivLemmas.pow10_pos m ltac:(lia)).
  assert (a * 10 ^ m <= b * 10 ^ m) by (apply Z.mul_le_mono_nonneg_r; lia). lia.
Qed.

(* the deviation rounded up to the precision step of the max price *)
Definition rounded_dev (dev m : Z) : Z := div_ceil dev (10 ^ m) * 10 ^ m.

Lemma rounded_dev_bounds dev m : 0 <= m -> dev <= rounded_dev dev m < dev + 10 ^ m.
Proof.
  intros Hm. unfold rounded_dev. pose proof (DivLemmas.pow10_pos m Hm).
  pose proof (div_ceil_spec dev (10 ^ m) ltac:(lia)). lia.
Qed.

Theorem validate_deviation_ok factor p ref :
  price_ok p -> ref_ok ref -> 0 <= factor ->
  validate_deviation factor p ref = Ok tt ->
  let r := ref_unit p ref in let dev := dev_of factor p ref in
  dev = 0 \/
  (0 < dev /\ abs_diff (umax_of p) r <= rounded_dev dev (snd (snd p))
            /\ abs_diff (umin_of p) r <= rounded_dev dev (snd (snd p))).
Proof.
  intros Hp Hr Hf. destruct (band_setup factor p ref Hp Hr Hf) as (U1 & U2 & _ & R & AF & _ & _ & _ & Hdev).
  cbv zeta. destruct p as [pmin pmax]. destruct Hp as [_ Hmax]. cbn [fst snd] in *.
  unfold validate_deviation. rewrite U1, U2, R, AF. clear U1 U2 R AF.
  generalize dependent (dev_of factor (pmin, pmax) ref). intros dev Hdev.
  destruct (chk_u 128 dev) as [dv|] eqn:Edev; [|discriminate].
  apply chk_u_some in Edev. destruct Edev as [_ ->].
  destruct (0 <? dev) eqn:Epos; [|intros _; left; lia].
  destruct (with_unit pmax dev true) as [rd|] eqn:W; [|discriminate].
  apply with_unit_ceil in W; [|assumption|lia]. destruct W as (W1 & Drd & W3).
  (* the rounded deviation converts back without trap, to the deviation rounded up to a step *)
  rewrite (unit_of_ok rd Drd), W1.
  replace (fst rd * 10 ^ snd pmax) with (rounded_dev dev (snd pmax)).
  2:{ unfold rounded_dev. f_equal. apply div_ceil_unique; [apply DivLemmas.pow10_pos; destruct Hmax|]; lia. }
  destruct (_ <? abs_diff (umax_of _) _) eqn:C1; [discriminate|].
  destruct (_ <? abs_diff (umin_of _) _) eqn:C2; [discriminate|].
  intros _. right. lia.
Qed.

Lemma validate_deviation_errs f p rf x : validate_deviation f p rf = Err x -> x = 1 \/ x = 2 \/ x = 9.
Proof.
  destruct p as [pa pb]. unfold validate_deviation.
  destruct (unit_of pa); [|intros [= <-]; tauto]. destruct (unit_of pb); [|intros [= <-]; tauto].
  destruct (match rf with Some r => _ | None => _ end) as [refp|y] eqn:ER.
  2:{ intros [= <-]. destruct rf as [r|].
      - destruct (unit_of r); [discriminate|injection ER as <-; tauto].
      - destruct (checked_mid _ _); [discriminate|injection ER as <-; tauto]. }
  destruct (apply_factor _ _ _ _); [|intros [= <-]; tauto].
  destruct (0 <? _); [|discriminate].
  destruct (with_unit _ _ _); [|intros [= <-]; tauto].
  destruct (unit_of _); [|intros [= <-]; tauto].
  destruct (_ <? _); [intros [= <-]; tauto|].
  destruct (_ <? _); [intros [= <-]; tauto|discriminate].
Qed.

Lemma from_price_errs p x : from_price p = Err x -> x = 1.
Proof.
  destruct p as [[? ?] [? ?]]. cbn [from_price].
  repeat match goal with |- context [if ?c then _ else _] => destruct c end; congruence.
Qed.

Theorem pipeline_wellformed allow fo p ref adj m a b :
  price_ok p -> ref_ok ref -> (forall f, fo = Some f -> 0 <= f) ->
  pipeline allow fo p ref = Ok (adj, (m, a, b)) -> 0 < a <= b /\ b < 2 ^ 32 /\ 0 <= m <= 20.
Proof.
  intros Hp Hr Hf H.
  (* in either mode the price handed to from_price is a converted or an adjusted one *)
  enough (S : exists q, price_ok q /\ from_price q = Ok (m, a, b)).
  { destruct S as (q & [[? ?] [? ?]] & FP). apply from_price_ok in FP. lia. }
  unfold pipeline in H. destruct fo as [f|].
  - specialize (Hf f eq_refl).
    destruct (if allow then adjust f p ref else Some None) as [adjr|] eqn:EA; [|discriminate].
    apply rbind_ok in H. destruct H as (_ & _ & H). apply rbind_ok in H. destruct H as (x & FP & [= _ ->]).
    eexists. split; [|exact FP]. destruct adjr as [q|]; [|exact Hp]. destruct allow; [|discriminate].
    pose proof (adjust_some f p ref q Hp Hr Hf EA) as A. cbv zeta in A. tauto.
  - apply rbind_ok in H. destruct H as (x & FP & [= _ ->]). exists p. split; assumption.
Qed.

Lemma pipeline_adjusted_allowed allow f p ref x : pipeline allow (Some f) p ref = Ok (true, x) -> allow = true.
Proof.
  unfold pipeline. destruct allow; [reflexivity|]. intros H.
  apply rbind_ok in H. destruct H as (_ & _ & H). apply rbind_ok in H. destruct H as (y & _ & [=]).
Qed.

Theorem pipeline_adjusted_in_band f p ref m a b :
  price_ok p -> ref_ok ref -> 0 <= f ->
  pipeline true (Some f) p ref = Ok (true, (m, a, b)) ->
  let r := ref_unit p ref in let dev := dev_of f p ref in
  0 < a <= b /\ r - dev <= a * 10 ^ m <= b * 10 ^ m /\ b * 10 ^ m <= r + dev.
Proof.
  intros Hp Hr Hf. unfold pipeline.
  destruct (adjust f p ref) as [[q|]|] eqn:EA; try discriminate.
  - destruct (validate_deviation _ _ _); cbn [rbind]; [|discriminate].
    destruct (from_price q) as [x|] eqn:FP; cbn [rbind]; [|discriminate].
    intros [= ->]. exact (adjusted_stored_in_band f p ref q m a b Hp Hr Hf EA FP).
  - destruct (validate_deviation _ _ _); cbn [rbind]; [|discriminate].
    destruct (from_price p); cbn [rbind]; discriminate.
Qed.

Theorem pipeline_unadjusted allow f p ref m a b :
  price_ok p -> ref_ok ref -> 0 <= f ->
  pipeline allow (Some f) p ref = Ok (false, (m, a, b)) ->
  let r := ref_unit p ref in let dev := dev_of f p ref in
  (allow = true -> adjust f p ref = Some None) /\
  p = ((a, m), (b, m)) /\ 0 < a <= b /\
  (dev = 0 \/ (abs_diff (b * 10 ^ m) r <= rounded_dev dev m /\ abs_diff (a * 10 ^ m) r <= rounded_dev dev m
               /\ rounded_dev dev m < dev + 10 ^ m)).
Proof.
  intros Hp Hr Hf. unfold pipeline.
  destruct (if allow then adjust f p ref else Some None) as [[q|]|] eqn:EA; try discriminate.
  - destruct (validate_deviation _ _ _); cbn [rbind]; [|discriminate].
    destruct (from_price q); cbn [rbind]; discriminate.
  - destruct (validate_deviation f p ref) as [[]|] eqn:V; cbn [rbind]; [|discriminate].
    destruct (from_price p) as [x|] eqn:FP; cbn [rbind]; [|discriminate].
    intros [= ->]. cbv zeta.
    apply from_price_ok in FP. destruct FP as (M1 & M2 & A & B & Ha & Hab).
    pose proof (validate_deviation_ok f p ref Hp Hr Hf V) as HV. cbv zeta in HV.
    destruct p as [[minv minm] [maxv maxm]]. cbn [fst snd] in *. subst.
    split; [intros ->; exact EA|]. split; [reflexivity|].
    destruct Hp as [[? ?] [? ?]]. cbn [fst snd] in *. split; [lia|].
    destruct HV as [HV|(_ & HV1 & HV2)]; [left; exact HV|right].
    split; [exact HV1|]. split; [exact HV2|]. apply rounded_dev_bounds. lia.
Qed.

(* the tolerance is real: an accepted, unadjusted price strictly outside the configured band *)
Lemma pipeline_rounded_tolerance_witness :
  let p : price := ((100001, 8), (101002, 8)) in
  let ref := Some (100001, 8) in
  let f := 1000000 * 10 ^ 12 in       (* 1 % *)
  pipeline false (Some f) p ref = Ok (false, (8, 100001, 101002)) /\
  dev_of f p ref < abs_diff (umax_of p) (ref_unit p ref).
Proof. vm_compute. split; reflexivity. Qed.

(* and with adjustment allowed, when the upper band edge is not representable in u32 *)
Lemma pipeline_adjust_failed_witness :
  let p : price := ((4294924050, 8), (4294924050, 8)) in
  let ref := Some (4294967000, 8) in
  let f := 1000 * 10 ^ 12 in          (* 0.001 % *)
  adjust f p ref = Some None /\
  pipeline true (Some f) p ref = Ok (false, (8, 4294924050, 4294924050)) /\
  dev_of f p ref < abs_diff (umax_of p) (ref_unit p ref).
Proof. vm_compute. repeat split; reflexivity. Qed.
