(* C35 — inversion of [str_to_bytes], position of the first NUL, UTF-8 around a NUL. *)
From GV Require Import lib.Base C35.Model.
Open Scope Z_scope.

Lemma blen_nonneg s : 0 <= blen s.
Proof. unfold blen. lia. Qed.

Lemma position_nul_app_nonul s t : has_nul s = false ->
  position_nul (s ++ 0 :: t) = Some (length s).
Proof.
  induction s as [|x r IH]; intros H; cbn in *.
  - reflexivity.
  - apply Bool.orb_false_elim in H as [Hx Hr]. rewrite Hx. rewrite (IH Hr). reflexivity.
Qed.

Lemma position_nul_none s : has_nul s = false -> position_nul s = None.
Proof.
  induction s as [|x r IH]; intros H; cbn in *; [reflexivity|].
  apply Bool.orb_false_elim in H as [Hx Hr]. rewrite Hx. now rewrite (IH Hr).
Qed.

Lemma position_nul_has s t : has_nul s = true ->
  exists n, position_nul (s ++ t) = Some n /\ position_nul s = Some n /\ (n < length s)%nat.
Proof.
  induction s as [|x r IH]; intros H; cbn in *; [discriminate|].
  destruct (x =? 0) eqn:Hx.
  - exists O. repeat split; lia.
  - cbn in H. destruct (IH H) as (n & E1 & E2 & L). exists (S n). rewrite E1, E2. repeat split; lia.
Qed.

Lemma position_nul_split s n : position_nul s = Some n ->
  s = firstn n s ++ 0 :: skipn (S n) s.
Proof.
  revert n. induction s as [|x r IH]; intros n H; cbn in H; [discriminate|].
  destruct (Z.eqb_spec x 0) as [->|N].
  - inversion H. reflexivity.
  - destruct (position_nul r) as [k|] eqn:E; [|discriminate]. inversion H. subst n.
    cbn. f_equal. now apply IH.
Qed.

Lemma firstn_app_exact (s t : list Z) : firstn (length s) (s ++ t) = s.
Proof. rewrite firstn_app, Nat.sub_diag, firstn_all. cbn. apply app_nil_r. Qed.

Lemma str_to_bytes_ok m s b :
  str_to_bytes m s = Ok b <->
  (blen s < m /\ has_nul s = false /\ b = s ++ repeat 0 (Z.to_nat (m - blen s))).
Proof.
  unfold str_to_bytes. destruct (Z.leb_spec m (blen s)); [split; [discriminate|intros [L _]; lia]|].
  destruct (has_nul s); split.
  - discriminate.
  - intros (_ & N & _). discriminate.
  - intros E. inversion E. repeat split; auto.
  - intros (_ & _ & ->). reflexivity.
Qed.

Lemma str_to_bytes_err m s e :
  str_to_bytes m s = Err e <->
  ((m <= blen s /\ e = E_LEN) \/ (blen s < m /\ has_nul s = true /\ e = E_FORMAT)).
Proof.
  unfold str_to_bytes. destruct (Z.leb_spec m (blen s)).
  - split; [intros E; inversion E; left; auto | intros [[_ ->]|[L _]]; [reflexivity|lia]].
  - destruct (has_nul s); split.
    + intros E. inversion E. right. auto.
    + intros [[L _]|(_ & _ & ->)]; [lia|reflexivity].
    + discriminate.
    + intros [[L _]|(_ & N & _)]; [lia|discriminate].
Qed.

Lemma stored_length m s b : str_to_bytes m s = Ok b -> blen b = m.
Proof.
  intros E. apply str_to_bytes_ok in E as (L & _ & ->). unfold blen in *.
  rewrite app_length, repeat_length. lia.
Qed.

(* the padding is not empty and starts with the first NUL *)
Theorem accepted_roundtrip m s b : utf8_valid s = true ->
  str_to_bytes m s = Ok b -> bytes_to_str b = Ok s.
Proof.
  intros U (L & N & ->)%str_to_bytes_ok. unfold bytes_to_str.
  destruct (Z.to_nat (m - blen s)) as [|k] eqn:E; [lia|]. cbn [repeat].
  rewrite (position_nul_app_nonul s _ N), firstn_app_exact. now rewrite U.
Qed.

Theorem roundtrip_iff m s : utf8_valid s = true ->
  (exists b, str_to_bytes m s = Ok b /\ bytes_to_str b = Ok s) <-> (blen s < m /\ has_nul s = false).
Proof.
  intros U. split.
  - intros (b & (L & N & _)%str_to_bytes_ok & _). auto.
  - intros [L N]. assert (E : str_to_bytes m s = Ok (s ++ repeat 0 (Z.to_nat (m - blen s)))).
    { apply str_to_bytes_ok. auto. }
    eexists. split; [exact E|exact (accepted_roundtrip m s _ U E)].
Qed.

(* a NUL byte can only follow a complete character: well-formed UTF-8 around a NUL is
   well-formed UTF-8 on both sides.  One character at a time: after the lead byte [a], its class
   fixes how many bytes follow; when [p] ends before them the byte checked in its place is the 0,
   which none of the ranges admits. *)
Lemma utf8_app_nul n : forall p q, (length p <= n)%nat ->
  utf8_valid (p ++ 0 :: q) = utf8_valid p && utf8_valid q.
Proof.
  induction n as [|n IH]; intros p q L; (destruct p as [|a p]; [reflexivity|]); cbn [length] in L; [lia|].
  cbn [app utf8_valid].
  destruct (rng 0 127 a); [apply IH; lia|].
  destruct p as [|b p]; cbn [app length] in *.
  { destruct (rng 194 223 a); [reflexivity|].
    destruct q as [|c q]; [reflexivity|].
    destruct (a =? 224), (rng 225 236 a), (a =? 237), (rng 238 239 a); try reflexivity.
    destruct q as [|d q]; [reflexivity|].
    destruct (a =? 240), (rng 241 243 a), (a =? 244); reflexivity. }
  destruct (rng 194 223 a); [rewrite IH by lia; apply andb_assoc|].
  destruct p as [|c p]; cbn [app length] in *.
  { destruct (a =? 224), (rng 225 236 a), (a =? 237), (rng 238 239 a);
      rewrite ?andb_false_r; try reflexivity.
    destruct q as [|d q]; [reflexivity|].
    destruct (a =? 240), (rng 241 243 a), (a =? 244); rewrite ?andb_false_r; reflexivity. }
  destruct (a =? 224); [rewrite IH by lia; apply andb_assoc|].
  destruct (rng 225 236 a); [rewrite IH by lia; apply andb_assoc|].
  destruct (a =? 237); [rewrite IH by lia; apply andb_assoc|].
  destruct (rng 238 239 a); [rewrite IH by lia; apply andb_assoc|].
  destruct p as [|d p]; cbn [app length] in *.
  { destruct (a =? 240), (rng 241 243 a), (a =? 244); rewrite ?andb_false_r; reflexivity. }
  destruct (a =? 240); [rewrite IH by lia; apply andb_assoc|].
  destruct (rng 241 243 a); [rewrite IH by lia; apply andb_assoc|].
  destruct (a =? 244); [rewrite IH by lia; apply andb_assoc|].
  reflexivity.
Qed.

Lemma list_eqb_refl a : list_eqb a a = true.
Proof. induction a as [|x r IH]; cbn; [reflexivity|]. now rewrite Z.eqb_refl, IH. Qed.

Definition name_a32 : list Z := repeat 97 32.            (* "a" x 32 *)
Definition name_nul : list Z := [97; 98; 0; 99; 100].    (* "ab\0cd" *)
