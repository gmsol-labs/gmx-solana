(* C42 — DFS as implemented: the (distances, predecessors) pair it returns is [good], the
   source keeps distance 0. *)
From GV Require Import lib.Base C42.Model C42.Proofs1 C42.Proofs2 C42.Proofs3.
Open Scope Z_scope.

Lemma out_edges_in g i e : In e (out_edges g i) -> In e (g_edges g) /\ e_src e = i.
Proof.
  unfold out_edges. intros H. apply in_rev in H. apply filter_In in H. destruct H as [H E].
  apply Z.eqb_eq in E. auto.
Qed.

Section DFS.
  Variable g : graph.
  Variable s : Z.
  Variable k : Z.
  Let n := Z.of_nat (length (g_toks g)).
  Hypothesis Hs : 0 <= s < n.
  Hypothesis Hwf : forall e, In e (g_edges g) -> 0 <= e_src e < n /\ 0 <= e_dst e < n.

  (* nodes in [vis] are untouched *)
  Definition frame (vis : list Z) (st st' : state) : Prop :=
    forall v, In v vis -> getd (dist st') v = getd (dist st) v /\ getd (pred st') v = getd (pred st) v.

  Definition post (vis : list Z) (st st' : state) : Prop :=
    lenst g st' /\ good g s st' /\ dle (dist st) (dist st') /\ frame vis st st'.

  Lemma post_refl vis st : lenst g st -> good g s st -> post vis st st.
  Proof. intros A B. split; [exact A|]. split; [exact B|]. split; [apply dle_refl|]. intros v _. auto. Qed.

  Lemma post_trans vis st1 st2 st3 : post vis st1 st2 -> post vis st2 st3 -> post vis st1 st3.
  Proof.
    intros [_ [_ [D1 F1]]] [A [B [D2 F2]]]. split; [exact A|]. split; [exact B|].
    split; [eapply dle_trans; eassumption|].
    intros v Hv. destruct (F1 v Hv) as [X1 Y1]. destruct (F2 v Hv) as [X2 Y2]. split; congruence.
  Qed.

  Lemma visit_post vis st cur d p : lenst g st -> good g s st -> 0 <= cur < n -> ~ In cur vis ->
    (forall best, getd (dist st) cur = Some best -> d < best) -> pred_ok g s st cur d p ->
    post vis st (set_node st cur d p).
  Proof.
    intros Hlen Hgood Hcur Hnv Hbest Hp.
    split; [apply set_node_lenst; exact Hlen|].
    split; [apply set_node_good; assumption|].
    split; [apply (set_node_dle g); assumption|].
    intros v Hv. assert (cur <> v) by (intros ->; contradiction).
    cbn. rewrite !getd_setd_neq by assumption. auto.
  Qed.

  (* what a call may assume about its arguments, and what it then guarantees *)
  Definition rec_ok (f : nat) : Prop :=
    forall cur distance predecessor steps vis st,
      lenst g st -> good g s st -> 0 <= cur < n -> ~ In cur vis ->
      (forall d, distance = Some d -> pred_ok g s st cur d predecessor) ->
      post vis st (dfs_rec f g k cur distance predecessor steps vis st).

  (* the loop of [dfs_rec] over edges l leaving [cur], which has distance d *)
  Definition edge_loop (f : nat) (cur d steps : Z) (vis : list Z) (l : list edge) (st : state) : state :=
    fold_left (fun st e => if memZ (e_dst e) vis then st
                           else dfs_rec f g k (e_dst e) (omap (fun w => w + d) (e_cost e))
                                        (Some (cur, e_mkt e)) (steps + 1) vis st) l st.

  Lemma fold_ok f : rec_ok f -> forall l cur d steps vis st,
    (forall e, In e l -> In e (g_edges g) /\ e_src e = cur) ->
    In cur vis -> lenst g st -> good g s st -> getd (dist st) cur = Some d ->
    post vis st (edge_loop f cur d steps vis l st).
  Proof.
    intros Hrec l. unfold edge_loop.
    induction l as [|e l IH]; intros cur d steps vis st Hl Hcur Hlen Hgood Hd.
    - cbn. apply post_refl; assumption.
    - cbn [fold_left].
      destruct (Hl e (or_introl eq_refl)) as [Hin Hsrc].
      assert (Hl' : forall e0, In e0 l -> In e0 (g_edges g) /\ e_src e0 = cur) by (intros; apply Hl; right; assumption).
      destruct (memZ (e_dst e) vis) eqn:Em.
      + apply IH; assumption.
      + assert (Hnot : ~ In (e_dst e) vis) by (intros H; apply memZ_in in H; congruence).
        assert (Hp : post vis st (dfs_rec f g k (e_dst e) (omap (fun w => w + d) (e_cost e))
                                          (Some (cur, e_mkt e)) (steps + 1) vis st)).
        { apply Hrec; auto; [apply (Hwf e Hin)|].
          intros d' Hd'. destruct (e_cost e) as [w|] eqn:Ew; [|discriminate].
          cbn in Hd'. inversion Hd'; subst d'. exists e, w, d. repeat split; auto. lia. }
        eapply post_trans; [exact Hp|].
        destruct Hp as [A [B [C F]]].
        apply IH; auto. destruct (F cur Hcur) as [X _]. congruence.
  Qed.

  (* A call that is not pruned writes d at cur and runs the loop with cur added to the visited set:
     the frame of the loop covers [vis] and cur itself. *)
  Lemma visit_ok f : rec_ok f -> forall cur d p steps vis st,
    lenst g st -> good g s st -> 0 <= cur < n -> ~ In cur vis ->
    (forall best, getd (dist st) cur = Some best -> d < best) -> pred_ok g s st cur d p ->
    let st' := edge_loop f cur d steps (cur :: vis) (out_edges g cur) (set_node st cur d p) in
    post vis st st' /\ getd (dist st') cur = Some d.
  Proof.
    intros Hrec cur d p steps vis st Hlen Hgood Hcur Hnv Hbest Hp st'.
    pose proof (visit_post vis st cur d p Hlen Hgood Hcur Hnv Hbest Hp) as Hp1.
    assert (Hd1 : getd (dist (set_node st cur d p)) cur = Some d)
      by (rewrite (set_node_dist g), Z.eqb_refl by assumption; reflexivity).
    destruct (fold_ok f Hrec (out_edges g cur) cur d steps (cur :: vis) _ (out_edges_in g cur)
                      (or_introl eq_refl) (proj1 Hp1) (proj1 (proj2 Hp1)) Hd1) as [A [B [C F]]].
    split.
    - eapply post_trans; [exact Hp1|]. split; [exact A|]. split; [exact B|]. split; [exact C|].
      intros v Hv. apply F. right. exact Hv.
    - destruct (F cur (or_introl eq_refl)) as [X _]. exact (eq_trans X Hd1).
  Qed.

  Lemma rec_ok_all f : rec_ok f.
  Proof.
    induction f as [|f IHf]; intros cur distance predecessor steps vis st Hlen Hgood Hcur Hnv Hpre.
    - cbn. apply post_refl; assumption.
    - cbn [dfs_rec]. destruct (k <? steps); [apply post_refl; assumption|].
      destruct distance as [d|]; [|apply post_refl; assumption].
      destruct (match getd (dist st) cur with Some best => best <=? d | None => false end) eqn:Epr;
        [apply post_refl; assumption|].
      apply (visit_ok f IHf cur d predecessor steps vis st); auto.
      intros best Hb. rewrite Hb in Epr. lia.
  Qed.

  Lemma empty_lenst : lenst g (empty_state g).
  Proof. unfold empty_state, lenst, lend. cbn [dist pred]. rewrite !repeat_length. split; reflexivity. Qed.

  Lemma empty_good : good g s (empty_state g).
  Proof.
    split; [intros j i m H | intros j a H]; cbn in H; rewrite getd_repeat_none in H; discriminate.
  Qed.

  Theorem dfs_result source res : 0 <= k ->
    index_of source (g_toks g) = Some s ->
    dfs g k source = Ok res ->
    good g s res /\ getd (dist res) s = Some 0.
  Proof.
    intros Hk Hix H. unfold dfs in H. rewrite Hix in H. inversion H; subst res. clear H.
    destruct (Z.to_nat (k + 2)) as [|f] eqn:Ef; [lia|].
    cbn [dfs_rec]. replace (k <? 0) with false by lia.
    assert (E0 : getd (dist (empty_state g)) s = None) by apply getd_repeat_none.
    rewrite E0.
    destruct (visit_ok f (rec_ok_all f) s 0 None 0 [] (empty_state g)) as [[_ [B _]] X];
      auto using empty_lenst, empty_good; [congruence | reflexivity].
  Qed.
End DFS.
