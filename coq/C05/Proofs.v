(* C05 — lemmas: value bound of a swap, funded impact, zero-fee / zero-impact conversion. *)
From GV Require Import lib.Base lib.DivLemmas MK.Market MK.Swap MK.MarketProofs MK.SwapProofs.
Open Scope Z_scope.

(* USD value of the positive price impact actually funded by the two swap-impact pools; the capped input is
   valued at the minimum input price, the price try_execute converts the token-in amount with *)
Definition funded_impact_value (ps : prices) (il : bool) (r : swap_report) (t : swap_trace) : Z :=
  if 0 <? sr_impact_value r
  then sr_impact_amount r * pr_max (side_price ps (negb il)) + st_capped_in t * pr_min (side_price ps il)
  else 0.

Section P.
  Variable w : Z.
  Hypothesis Hw : 1 <= w.
  Variable unit : Z.
  Hypothesis Hunit : 0 < unit.
  Variable cfg : config.

  Lemma swap_value_bound s il a ps s' r t :
    wf_state w s -> wf_prices w ps -> in_range w a ->
    swap_exec_trace w unit cfg s il a ps = Ok (s', r, t) ->
    sr_out r * pr_max (side_price ps (negb il))
      <= st_after_fees t * pr_min (side_price ps il) + funded_impact_value ps il r t.
  Proof.
    intros Hs Hp Ha H. pose proof (side_price_wf w ps il Hp) as [[Hmin _] _].
    app swap_exec_trace_ok H. destruct H. destruct sf_amounts. unfold funded_impact_value.
    destruct (0 <? sr_impact_value r) eqn:E.
    - destruct am_pos as (T & O & _); [lia|]. rewrite O, T in *. nia.
    - destruct am_nonpos as (T & O & _); [lia|]. rewrite O, T in *. nia.
  Qed.

  Lemma swap_funded_bounds s il a ps s' r t :
    wf_state w s -> wf_prices w ps -> in_range w a ->
    swap_exec_trace w unit cfg s il a ps = Ok (s', r, t) -> 0 < sr_impact_value r ->
    0 <= sr_impact_amount r <= pamount (swap_impact s) (negb il) /\
    0 <= st_capped_in t <= pamount (swap_impact s) il /\
    pamount (swap_impact s') (negb il) = pamount (swap_impact s) (negb il) - sr_impact_amount r /\
    pamount (swap_impact s') il = pamount (swap_impact s) il - st_capped_in t /\
    sr_impact_amount r * pr_max (side_price ps (negb il)) + st_capped_in t * pr_max (side_price ps il)
      <= sr_impact_value r /\
    (pr_min (side_price ps il) <= pr_max (side_price ps il) ->
       funded_impact_value ps il r t <= sr_impact_value r).
  Proof.
    intros Hs Hp Ha H Hpos. app swap_exec_trace_ok H. destruct H. destruct sf_amounts. unfold funded_impact_value.
    replace (0 <? sr_impact_value r) with true by lia.
    destruct (am_pos Hpos) as (T & O & B1 & B2 & B3).
    repeat split; try lia. intros Hmm. nia.
  Qed.

  Lemma swap_nonpositive_impact s il a ps s' r t :
    wf_state w s -> wf_prices w ps -> in_range w a ->
    swap_exec_trace w unit cfg s il a ps = Ok (s', r, t) -> sr_impact_value r <= 0 ->
    sr_out r = (st_after_fees t - sr_impact_amount r) * pr_min (side_price ps il) / pr_max (side_price ps (negb il)) /\
    sr_out r * pr_max (side_price ps (negb il)) <= a * pr_min (side_price ps il) /\
    pamount (swap_impact s') il = pamount (swap_impact s) il + sr_impact_amount r /\
    pamount (swap_impact s') (negb il) = pamount (swap_impact s) (negb il).
  Proof.
    intros Hs Hp Ha H Hneg. pose proof (side_price_wf w ps il Hp) as [[Hmin _] _].
    app swap_exec_trace_ok H. destruct H. destruct sf_amounts.
    destruct (am_nonpos Hneg) as (T & O & C & P & _).
    split; [|split; [|split]]; try lia.
    rewrite O, <- T. symmetry. apply div_floor_unique; lia.
  Qed.

  Lemma swap_zero_fee_zero_impact s il a ps s' r t :
    wf_state w s -> wf_prices w ps -> in_range w a ->
    fp_positive (c_swap_fee cfg) = 0 -> fp_negative (c_swap_fee cfg) = 0 ->
    swap_exec_trace w unit cfg s il a ps = Ok (s', r, t) -> sr_impact_value r = 0 ->
    sr_out r = a * pr_min (side_price ps il) / pr_max (side_price ps (negb il)) /\
    f_receiver (sr_fees r) = 0 /\ f_pool (sr_fees r) = 0 /\ sr_impact_amount r = 0.
  Proof.
    intros Hs Hp Ha Hf1 Hf2 H Hz.
    pose proof (swap_exec_trace_parts w unit cfg _ _ _ _ _ _ _ H) as (d & bc & _ & F).
    assert (Hff : fee_factor (c_swap_fee cfg) bc = 0) by (destruct bc; cbn; assumption).
    eapply apply_fees_zero in F; eauto. destruct F as (Faft & Fr & Fp).
    pose proof H as K. app swap_nonpositive_impact K. destruct K as (O & _).
    app swap_exec_trace_ok H. destruct H. destruct sf_amounts.
    destruct am_nonpos as (_ & _ & _ & _ & Z0 & _); [lia|]. specialize (Z0 Hz).
    rewrite O, Faft, Z0, Z.sub_0_r. auto.
  Qed.

  Lemma swap_zero_impact_config s il a ps s' r t :
    ip_positive (c_swap_impact cfg) = 0 -> ip_negative (c_swap_impact cfg) = 0 ->
    swap_exec_trace w unit cfg s il a ps = Ok (s', r, t) -> sr_impact_value r = 0.
  Proof.
    intros Hp Hn H.
    pose proof (swap_exec_trace_parts w unit cfg _ _ _ _ _ _ _ H) as (d & bc & I & _).
    eapply swap_impact_value_zero_factors; eassumption.
  Qed.
End P.
