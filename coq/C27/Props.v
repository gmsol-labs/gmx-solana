(* C27 — property theorems only.  Hypotheses are the Rust argument types:
   current_timestamp, ts : i64; market_close_timeout, last_update_diff : u32;
   status byte, price flags, policy flags: any Z (only the named bits are read). *)
From GV Require Import lib.Base C27.Model C27.Proofs.
Open Scope Z_scope.

(* is_market_open, computed with i64 saturating_sub, equals the specification on unbounded
   integers for ALL inputs, including differences beyond the 64-bit range *)
Theorem c27_is_market_open_eq : forall raw pflags lud ts now timeout policy,
  - 2 ^ 63 <= now < 2 ^ 63 -> - 2 ^ 63 <= ts < 2 ^ 63 -> 0 <= timeout < 2 ^ 32 -> 0 <= lud < 2 ^ 32 ->
  is_market_open raw pflags lud ts now timeout policy =
    negb (openness (market_status raw) policy =? 1) && flag pflags 0 &&
    (negb (flag pflags 1) || (now - (ts - lud_secs_spec pflags lud) <=? timeout)).
Proof. exact is_market_open_eq. Qed.

(* the property's wording *)
Theorem c27_is_market_open_iff : forall raw pflags lud ts now timeout policy,
  - 2 ^ 63 <= now < 2 ^ 63 -> - 2 ^ 63 <= ts < 2 ^ 63 -> 0 <= timeout < 2 ^ 32 -> 0 <= lud < 2 ^ 32 ->
  is_market_open raw pflags lud ts now timeout policy = true <->
  ~ closed_spec raw policy /\ flag pflags 0 = true /\
  (flag pflags 1 = true ->
     now - ts <= timeout /\ now - (ts - lud_secs_spec pflags lud) <= timeout).
Proof. exact is_market_open_iff. Qed.

(* the two saturating branches the code comments argue about *)
Theorem c27_saturating_overflow_is_stale : forall now ts timeout secs,
  - 2 ^ 63 <= now < 2 ^ 63 -> - 2 ^ 63 <= ts < 2 ^ 63 -> 0 <= timeout < 2 ^ 32 -> 0 <= secs < 2 ^ 32 ->
  2 ^ 63 <= now - ts -> (now - ts + secs <=? timeout) = false.
Proof. exact sat_overflow_closed. Qed.
Theorem c27_saturating_underflow_is_fresh : forall now ts timeout secs,
  - 2 ^ 63 <= now < 2 ^ 63 -> - 2 ^ 63 <= ts < 2 ^ 63 -> 0 <= timeout < 2 ^ 32 -> 0 <= secs < 2 ^ 32 ->
  now - ts < - 2 ^ 63 -> (now - ts + secs <=? timeout) = true.
Proof. exact sat_underflow_open. Qed.

(* last-update difference in seconds: as stored, or nanoseconds rounded UP *)
Theorem c27_last_update_diff_secs : forall pflags lud,
  last_update_diff_secs pflags lud = if flag pflags 1 then Some (lud_secs_spec pflags lud) else None.
Proof. exact last_update_diff_secs_eq. Qed.
Theorem c27_nanos_round_up : forall a, 0 <= a ->
  let s := u32_div_ceil a NANOS in 0 <= s /\ (s - 1) * NANOS < a <= s * NANOS.
Proof. exact u32_div_ceil_spec. Qed.

(* status / policy table; unknown raw bytes behave as Disabled (Skip) *)
Theorem c27_openness_closed : forall raw policy,
  openness (market_status raw) policy = 1 <-> closed_spec raw policy.
Proof. exact openness_closed. Qed.
Theorem c27_openness_skip : forall raw policy,
  openness (market_status raw) policy = 2 <-> ~ (1 <= raw <= 6).
Proof. exact openness_skip. Qed.
Theorem c27_openness_range : forall raw policy, 0 <= openness (market_status raw) policy <= 2.
Proof. exact openness_range. Qed.

(* non-vacuity, the repo's own extreme literals *)
Example c27_ex1 : is_market_open 0 3 4294967295 (- 2 ^ 63) (2 ^ 63 - 1) 4294967295 0 = false.
Proof. vm_compute. reflexivity. Qed.
Example c27_ex2 : is_market_open 0 3 4294967295 (2 ^ 63 - 1) (- 2 ^ 63) 0 0 = true.
Proof. vm_compute. reflexivity. Qed.
Example c27_ex3 : is_market_open 0 3 4294967295 (2 ^ 63 - 11) (2 ^ 63 - 1) 14 0 = false
               /\ is_market_open 0 3 4294967295 (2 ^ 63 - 11) (2 ^ 63 - 1) 15 0 = true.
Proof. vm_compute. split; reflexivity. Qed.
Example c27_ex4 : is_market_open 6 1 0 0 0 4294967295 0 = false /\ is_market_open 6 1 0 0 0 4294967295 32 = true
               /\ is_market_open 3 1 0 0 0 0 4 = false /\ is_market_open 99 1 0 0 0 0 0 = true.
Proof. vm_compute. repeat split; reflexivity. Qed.
