(* C37 — treasury factors stay valid; GT buyback payouts are proportional. *)
From GV Require Import lib.Base C37.Model C37.Proofs.
Open Scope Z_scope.

(* GT and buyback factors never exceed 100%, over any history of updates from a zeroed Config *)
Theorem c37_factors_le_unit : forall unit ops, 0 <= unit ->
  let c := fold_left (apply_cop unit) ops (MkC 0 0) in c_gt c <= unit /\ c_buyback c <= unit.
Proof. exact factors_le_unit. Qed.

Theorem c37_factor_above_unit_rejected : forall unit c f, unit < f ->
  set_gt_factor unit c f = Err 5 /\ set_buyback_factor unit c f = Err 5.
Proof. exact set_factor_above_unit_rejected. Qed.

(* one exchange claim: refused iff it exceeds the remaining confirmed GT; otherwise, per token, it
   pays the current balance times the GT amount over the remaining confirmed GT, rounded down
   ([claim1]), and reduces the remaining GT by the claim *)
Theorem c37_claim_exact : forall wa, 1 <= wa -> forall st g, wf_bank wa st -> 0 <= g ->
  (b_rem st < g -> claim wa st g = Err 6) /\
  (g <= b_rem st ->
     claim wa st g =
       Ok (MkB (b_conf st) (b_rem st - g)
               (map (fun kv => (fst kv, snd (fst (claim1 (snd kv) (b_rem st) g)))) (b_bal st)),
           if g =? 0 then []
           else map (fun kv => (fst kv, snd kv, fst (fst (claim1 (snd kv) (b_rem st) g))))
                    (filter (fun kv => negb (snd kv =? 0)) (b_bal st)))).
Proof. exact claim_spec. Qed.

Theorem c37_claim1_le_balance : forall B G g, 0 <= B -> 0 <= g <= G ->
  let '(p, B', G') := claim1 B G g in
  0 <= p <= B /\ B' = B - p /\ G' = G - g /\ B * G' <= B' * G /\
  (g <> 0 -> p = B * g / G /\ (g = G -> B' = 0)).
Proof. exact claim1_spec. Qed.

(* the claim sequence as a pure induction, per token: payouts never exceed what the bank holds
   (they sum, with the final balance, to the original balance), every claimant gets at least the
   floor share of the ORIGINAL balance, and when the remaining GT reaches zero the balance is zero *)
Theorem c37_claim_sequence : forall B0 G0 gs, 0 <= B0 -> 0 <= G0 ->
  Forall (fun g => 0 <= g) gs -> sumZ gs <= G0 ->
  let '(ps, Bf, Gf) := run_claims B0 G0 gs in
  length ps = length gs /\
  Forall2 (fun g p => 0 <= p /\ (g <> 0 -> B0 * g / G0 <= p)) gs ps /\
  sumZ ps + Bf = B0 /\ 0 <= Bf /\ Gf = G0 - sumZ gs /\
  (Gf = 0 -> 0 < sumZ gs -> Bf = 0).
Proof. exact claim_sequence. Qed.

(* the bank-level loop refines that arithmetic for every token, and never fails as long as the
   claims fit into the remaining confirmed GT *)
Theorem c37_bank_claims_refine : forall wa, 1 <= wa -> forall gs st, wf_bank wa st ->
  Forall (fun g => 0 <= g) gs -> sumZ gs <= b_rem st ->
  exists st' rows, bank_claims wa st gs = Ok (st', rows) /\
    b_rem st' = b_rem st - sumZ gs /\ b_conf st' = b_conf st /\ length rows = length gs /\
    Forall2 (fun kv kv' => fst kv' = fst kv /\
               snd kv' = snd (fst (run_claims (snd kv) (b_rem st) gs))) (b_bal st) (b_bal st').
Proof. exact bank_claims_refine. Qed.

(* the last claim drains the bank *)
Theorem c37_last_claim_drains : forall wa, 1 <= wa -> forall st gs, wf_bank wa st ->
  Forall (fun g => 0 <= g) gs -> sumZ gs = b_rem st -> 0 < b_rem st ->
  exists st' rows, bank_claims wa st gs = Ok (st', rows) /\ b_rem st' = 0 /\
    Forall (fun kv => snd kv = 0) (b_bal st') /\ map fst (b_bal st') = map fst (b_bal st).
Proof. exact all_claims_drain. Qed.

Example c37_ex1 : run_claims 1000 10 [3; 0; 2; 5] = ([300; 0; 200; 500], 0, 0)
  /\ run_claims 7 3 [1; 1; 1] = ([2; 2; 3], 0, 0).
Proof. vm_compute. split; reflexivity. Qed.
Example c37_ex2 :
  bank_claims 64 (MkB true 3 [(1, 7); (2, 0); (5, 100)]) [1; 1; 1]
  = Ok (MkB true 0 [(1, 0); (2, 0); (5, 0)],
        [[(1, 7, 2); (5, 100, 33)]; [(1, 5, 2); (5, 67, 33)]; [(1, 3, 3); (5, 34, 34)]]).
Proof. vm_compute. reflexivity. Qed.
