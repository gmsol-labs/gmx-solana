(* C32 — builder fee: the outcomes of compute and charge, the increase and decrease paths,
   settlement, and the escrow invariant over an order's life. *)
From GV Require Import lib.Base lib.DivLemmas C01.Model C01.Proofs C32.Model.
Open Scope Z_scope.

(* [lia] puts every section hypothesis about a variable of the goal into the proof term, needed or not:
   where a closed statement is stated with such a hypothesis, [Proof using] keeps it; elsewhere it is cleared. *)
Section P.
  Variables w wa unit : Z.
  Hypothesis Hw : 1 <= w.
  Hypothesis Hwa : 1 <= wa.
  Hypothesis Hunit : 0 < unit.

  Lemma compute_cases size factor pmin : 0 <= size -> 0 <= factor -> 0 <= pmin ->
    let v := size * factor / unit in let c := compute w unit size factor pmin in
    (factor = 0 /\ c = Ok 0) \/
    (factor <> 0 /\ (pmin = 0 \/ 2 ^ w <= v \/ 2 ^ w <= v + pmin) /\ c = Err 2) \/
    (factor <> 0 /\ pmin <> 0 /\ v + pmin < 2 ^ w /\ c = Ok ((v + pmin - 1) / pmin)).
  Proof.
    intros Hs Hf Hp v c. subst c. unfold compute. destruct (Z.eqb_spec factor 0) as [|F]; [auto|]. right.
    assert (Hv : 0 <= v) by (apply mul_div_nonneg; assumption).
    destruct (apply_factor w unit size factor) as [fv|] eqn:E1; cbn [of_opt rbind].
    - apply apply_factor_exact in E1 as [-> L]; [|lia..]. fold v.
      destruct (round_up_div w v pmin) as [r|] eqn:E2; cbn [of_opt].
      + apply round_up_div_some in E2 as (N & L2 & ->); auto.
      + apply round_up_div_none in E2; [|lia..]. left. split; [exact F|]. split; [tauto|reflexivity].
    - unfold apply_factor in E1. apply mul_div_none in E1; [|lia..]. fold v in E1.
      left. split; [exact F|]. split; [|reflexivity]. right. left. lia.
  Qed.

  Theorem fee_round_up size factor pmin fee : 0 <= size -> 0 <= factor -> 0 <= pmin ->
    compute w unit size factor pmin = Ok fee ->
    (factor = 0 /\ fee = 0) \/
    (factor <> 0 /\ pmin <> 0 /\ 0 <= fee /\
     pmin * (fee - 1) < size * factor / unit <= pmin * fee).
  Proof using Hw Hunit.
    intros Hs Hf Hp H.
    destruct (compute_cases size factor pmin Hs Hf Hp) as [(F & C)|[(F & _ & C)|(F & N & L & C)]];
      rewrite C in H; [injection H as <-; auto|discriminate|injection H as <-]. right.
    pose proof (ceil_spec (size * factor / unit) pmin ltac:(lia)) as S.
    repeat split; try lia. pose proof (mul_div_nonneg size factor unit Hs Hf Hunit). nia.
  Qed.

  (* fails only for a zero price or an overflow of the value / the rounding sum *)
  Theorem compute_err size factor pmin e : 0 <= size -> 0 <= factor -> 0 <= pmin ->
    compute w unit size factor pmin = Err e ->
    e = 2 /\ factor <> 0 /\ (pmin = 0 \/ 2 ^ w <= size * factor / unit \/ 2 ^ w <= size * factor / unit + pmin).
  Proof using Hw Hunit.
    intros Hs Hf Hp H.
    destruct (compute_cases size factor pmin Hs Hf Hp) as [(F & C)|[(F & D & C)|(F & N & L & C)]];
      rewrite C in H; [discriminate|injection H as <-; auto|discriminate].
  Qed.

  Theorem clamp_spec fee avail : clamp fee avail <= fee /\ clamp fee avail <= avail /\
    (clamp fee avail = fee \/ clamp fee avail = avail).
  Proof. unfold clamp. lia. Qed.

  Theorem increase_split_exact incr size factor pmin after fee : 0 <= incr < 2 ^ wa ->
    charge w wa unit incr size factor pmin = Ok (after, fee) ->
    after + fee = incr /\ 0 <= after /\ 0 <= fee /\ compute w unit size factor pmin = Ok fee.
  Proof using Type.
    intros Hi. unfold charge. rewrite rbind_ok. intros (p & H1 & H2).
    apply rbind_ok in H2 as (p64 & H2 & H3). apply of_opt_ok, chk_u_some in H2 as [H2 ->].
    destruct (Z.ltb_spec incr p); [discriminate|].
    apply rbind_ok in H3 as (a & H3 & [= <- <-]). apply of_opt_ok, usub_some in H3 as [H3 ->].
    repeat split; try lia. exact H1.
  Qed.

  Theorem increase_fails_cases incr size factor pmin e : 0 <= incr < 2 ^ wa ->
    charge w wa unit incr size factor pmin = Err e ->
    (compute w unit size factor pmin = Err e) \/
    (exists fee, compute w unit size factor pmin = Ok fee /\
                 ((e = 2 /\ (fee < 0 \/ 2 ^ wa <= fee)) \/ (e = 3 /\ incr < fee))).
  Proof using Type.
    clear Hw Hwa Hunit.   (* else lia puts it into the proof term and every user has to supply it *)
    intros Hi. unfold charge. destruct (compute w unit size factor pmin) as [p|e0] eqn:E1; cbn [rbind].
    - intros H. right. exists p. split; [reflexivity|].
      destruct (chk_u wa p) as [p64|] eqn:E2; cbn [of_opt rbind] in H.
      + apply chk_u_some in E2. destruct E2 as [E2 ->]. destruct (incr <? p) eqn:E3.
        * injection H as <-. right. lia.
        * assert (E4 : usub wa incr p = Some (incr - p)) by (apply chk_u_some; lia).
          rewrite E4 in H. discriminate.
      + injection H as <-. apply chk_u_none in E2. left. lia.
    - intros H; injection H as <-. left. reflexivity.
  Qed.

  Lemma record_ok rec amt r : record wa rec amt = Ok r <-> 0 <= rec + amt < 2 ^ wa /\ r = rec + amt.
  Proof. unfold record. rewrite of_opt_ok. apply uadd_some. Qed.

  (* the increase path records exactly the fee it routed to the escrow *)
  Theorem increase_path_ok rec incr size factor pmin after rec' routed : 0 <= incr < 2 ^ wa -> 0 <= rec ->
    increase_path w wa unit rec incr size factor pmin = Ok (after, rec', routed) ->
    after + routed = incr /\ rec' = rec + routed /\ 0 <= routed /\ 0 <= after /\
    (factor = 0 -> routed = 0) /\ (factor <> 0 -> compute w unit size factor pmin = Ok routed).
  Proof using Type.
    clear Hw Hwa Hunit.
    intros Hi Hr. unfold increase_path. destruct (factor =? 0) eqn:E.
    - intros H; injection H as <- <- <-. repeat split; lia.
    - rewrite rbind_ok. intros ([a f] & H1 & H2). apply increase_split_exact in H1; [|assumption].
      apply rbind_ok in H2 as (r & H2 & H3). apply record_ok in H2 as [_ ->].
      cbn [fst snd] in H3. injection H3 as <- <- <-.
      destruct H1 as (A & B & C & D). repeat split; try lia. intros _. exact D.
  Qed.

  Theorem decrease_recorded_le_output rec size factor pmin output rec' :
    0 <= size -> 0 <= factor -> 0 <= pmin -> 0 <= output -> 0 <= rec ->
    decrease_path w wa unit rec size factor pmin output = Ok rec' ->
    0 <= rec' - rec <= output /\
    (factor = 0 -> rec' = rec) /\
    (factor <> 0 -> exists fee, compute w unit size factor pmin = Ok fee /\ rec' - rec = Z.min fee output).
  Proof using Hwa.
    intros Hs Hf Hp Ho Hr. unfold decrease_path. destruct (factor =? 0) eqn:E.
    - intros H; injection H as <-. repeat split; lia.
    - rewrite rbind_ok. intros (payable & H1 & H2).
      apply rbind_ok in H2 as (r64 & H2 & H3). apply of_opt_ok, chk_u_some in H2 as [H2 ->].
      apply record_ok in H3 as [_ ->].
      unfold clamp in *. repeat split; try lia. intros _. exists payable. split; [exact H1|lia].
  Qed.

  Theorem settle_spec rec escrow : 0 <= rec -> 0 <= escrow ->
    let '(t, rec', esc') := settle rec escrow in
    0 <= t <= rec /\ t <= escrow /\ t = Z.min rec escrow /\ rec' = 0 /\ esc' = escrow - t /\ 0 <= esc'.
  Proof. intros Hr He. unfold settle. destruct (rec =? 0) eqn:E; simpl; lia. Qed.

  Theorem settle_idempotent rec escrow :
    let '(t, rec', esc') := settle rec escrow in settle rec' esc' = (0, rec', esc').
  Proof using Type. unfold settle. destruct (rec =? 0) eqn:E; simpl; [rewrite E|]; reflexivity. Qed.

  Definition binv (s : Z * Z * Z) : Prop := let '(rec, esc, paid) := s in 0 <= rec <= esc /\ 0 <= paid.
  Definition wf_bop (o : bop) : Prop := match o with BCharge a | BDeposit a => 0 <= a | BSettle => True end.

  Lemma binv_step s o : binv s -> wf_bop o -> binv (bstep wa s o).
  Proof using Type.
    clear Hw Hwa Hunit.
    destruct s as [[rec esc] paid]. intros (A & B) Ho. destruct o as [a|a|]; simpl in *.
    - destruct (record wa rec a) as [r|] eqn:E; simpl; [|lia]. apply record_ok in E. lia.
    - lia.
    - unfold settle. destruct (rec =? 0) eqn:E; simpl; lia.
  Qed.

  (* under the charging invariant (every recorded amount was routed into the escrow) the escrow
     always covers the record, every settlement pays the record in full, and the builder is never
     paid more than was charged *)
  Theorem order_life ops : Forall wf_bop ops ->
    forall s, binv s -> binv (fold_left (bstep wa) ops s).
  Proof using Type.
    intros Hf. rewrite Forall_forall in Hf. apply fold_left_inv.
    intros s o Hin Hs. apply binv_step; [exact Hs|apply Hf, Hin].
  Qed.

  Theorem settle_pays_in_full rec esc paid : binv (rec, esc, paid) ->
    bstep wa (rec, esc, paid) BSettle = (0, esc - rec, paid + rec).
  Proof.
    intros (A & B). simpl. unfold settle. destruct (rec =? 0) eqn:E; simpl.
    - assert (rec = 0) by lia. subst. replace (esc - 0) with esc by lia. replace (paid + 0) with paid by lia. reflexivity.
    - rewrite Z.min_l by lia. reflexivity.
  Qed.
End P.
