(* C07 — the invariant "pools = sums over the stored positions" is preserved by every operation,
   hence by every history. *)
From GV Require Import lib.Checked C07.Proofs C07.Corr.
Open Scope Z_scope.

(* Prop form of the oracle's invariant (C07/Corr.v: pos_shape_ok, sums_ok_for, world_ok) *)
Definition pos_shape (p : position) : Prop :=
  (0 < size_usd p /\ 0 < size_tok p /\ 0 <= coll p) \/ (size_usd p = 0 /\ size_tok p = 0 /\ coll p = 0).

Definition sums (wd : world) : Prop :=
  forall l c,
    amount (s_oi (fst wd) l) c = sum_over size_usd l c (snd wd) /\
    amount (s_oit (fst wd) l) c = sum_over size_tok l c (snd wd) /\
    amount (s_cs (fst wd) l) c = sum_over coll l c (snd wd).

Definition world_inv (wd : world) : Prop := sums wd /\ Forall pos_shape (snd wd).

Lemma pos_shape_iff p : pos_shape_ok p = true <-> pos_shape p.
Proof.
  unfold pos_shape_ok, pos_shape. rewrite orb_true_iff, !andb_true_iff, !Z.ltb_lt, Z.leb_le, !Z.eqb_eq. tauto.
Qed.

Lemma sums_ok_for_iff s ps l c : sums_ok_for (s, ps) l c = true <->
  amount (s_oi s l) c = sum_over size_usd l c ps /\ amount (s_oit s l) c = sum_over size_tok l c ps /\
  amount (s_cs s l) c = sum_over coll l c ps.
Proof. unfold sums_ok_for. rewrite !andb_true_iff, !Z.eqb_eq. tauto. Qed.

Lemma world_ok_iff wd : world_ok wd = true <-> world_inv wd.
Proof.
  unfold world_ok, world_inv, sums. destruct wd as [s ps]. cbn [fst snd].
  rewrite !andb_true_iff, !sums_ok_for_iff, forallb_forall, Forall_forall.
  setoid_rewrite pos_shape_iff. split.
  - intros ((((A & B) & C) & D) & E). split; [intros [] []; assumption|exact E].
  - intros [S F]. repeat split; try apply S. exact F.
Qed.

Lemma sum_over_set_pos f l c ps i q : (i < length ps)%nat ->
  sum_over f l c (set_pos ps i q) =
  sum_over f l c ps - hit (is_long (get_pos ps i)) (coll_long (get_pos ps i)) l c (f (get_pos ps i))
                   + hit (is_long q) (coll_long q) l c (f q).
Proof.
  revert i. induction ps as [|a r IH]; intros i Hi; [cbn in Hi; lia|].
  destruct i as [|j].
  - cbn [set_pos get_pos nth sum_over fold_right]. unfold hit.
    destruct (Bool.eqb (is_long a) l && Bool.eqb (coll_long a) c); destruct (Bool.eqb (is_long q) l && Bool.eqb (coll_long q) c); lia.
  - cbn [set_pos get_pos nth]. cbn [sum_over fold_right]. fold (sum_over f l c (set_pos r j q)). fold (sum_over f l c r).
    rewrite IH by (cbn in Hi; lia). unfold get_pos.
    destruct (Bool.eqb (is_long a) l && Bool.eqb (coll_long a) c); lia.
Qed.

Lemma sum_over_zero f l c ps : (forall p, In p ps -> f p = 0) -> sum_over f l c ps = 0.
Proof.
  induction ps as [|a r IH]; intros H; [reflexivity|].
  cbn [sum_over fold_right]. fold (sum_over f l c r). rewrite IH by (intros q Hq; apply H; right; exact Hq).
  rewrite (H a) by (left; reflexivity). destruct (_ && _); reflexivity.
Qed.

Lemma Forall_set_pos (P : position -> Prop) ps i q : Forall P ps -> P q -> Forall P (set_pos ps i q).
Proof.
  revert i. induction ps as [|a r IH]; intros i HF Hq; [constructor|].
  inversion HF; subst. destruct i; cbn; constructor; auto.
Qed.

Lemma get_pos_shape ps i : Forall pos_shape ps -> pos_shape (get_pos ps i).
Proof.
  intros HF. unfold get_pos. destruct (Nat.lt_ge_cases i (length ps)) as [Hlt|Hge].
  - rewrite Forall_forall in HF. apply HF. apply nth_In. exact Hlt.
  - rewrite nth_overflow by exact Hge. right. repeat split; reflexivity.
Qed.

Lemma mk_amts cfg s l c :
  oi_amt (mk_market cfg s) l c = amount (s_oi s l) c /\
  oit_amt (mk_market cfg s) l c = amount (s_oit s l) c /\
  cs_amt (mk_market cfg s) l c = amount (s_cs s l) c.
Proof. destruct l; repeat split; reflexivity. Qed.
Lemma st_of_amts m l c :
  amount (s_oi (st_of m) l) c = oi_amt m l c /\ amount (s_oit (st_of m) l) c = oit_amt m l c /\
  amount (s_cs (st_of m) l) c = cs_amt m l c.
Proof. destruct l; repeat split; reflexivity. Qed.

Section I.
  Variable w : Z.
  Hypothesis Hw : 1 <= w.
  Variable unit : Z.
  Variable cfg : config.

  (* the generic step: a position replaced by [q], pools moved by the same deltas *)
  Lemma inv_replace s ps i q m' du dt dc :
    world_inv (s, ps) -> (i < length ps)%nat ->
    let p := get_pos ps i in
    is_long q = is_long p -> coll_long q = coll_long p ->
    size_usd q = size_usd p + du -> size_tok q = size_tok p + dt -> coll q = coll p + dc ->
    pos_shape q ->
    moved (mk_market cfg s) m' (is_long p) (coll_long p) du dt dc ->
    world_inv (st_of m', set_pos ps i q).
  Proof.
    intros [S F] Hi p L C U T K Q (_ & O1 & O2 & O3). split.
    - intros l c. cbn [fst snd]. destruct (st_of_amts m' l c) as (-> & -> & ->).
      rewrite O1, O2, O3. destruct (mk_amts cfg s l c) as (-> & -> & ->).
      pose proof (S l c) as (S1 & S2 & S3). cbn [fst snd] in S1, S2, S3. rewrite S1, S2, S3.
      rewrite !sum_over_set_pos by exact Hi. fold p. rewrite L, C, U, T, K. unfold hit.
      destruct (Bool.eqb (is_long p) l && Bool.eqb (coll_long p) c); lia.
    - cbn [snd]. apply Forall_set_pos; assumption.
  Qed.

  Lemma empty_pos_fields p : is_long (empty_pos p) = is_long p /\ coll_long (empty_pos p) = coll_long p /\
    size_usd (empty_pos p) = 0 /\ size_tok (empty_pos p) = 0 /\ coll (empty_pos p) = 0.
  Proof. repeat split; reflexivity. Qed.

  Lemma open_of_decrease p m pr sd acc cw fl r :
    pos_shape p -> decrease w unit p m pr sd acc cw fl = Ok r -> 0 < size_usd p /\ 0 < size_tok p /\ 0 <= coll p.
  Proof using Hw. intros [Sh|E] H; [exact Sh|]. destruct (decrease_nonempty w Hw unit _ _ _ _ _ _ _ _ H E). Qed.

  (* a successful decrease (plain, liquidation or ADL) keeps the invariant *)
  Lemma inv_decrease s ps i pr sd acc wdr fl p1 m' rep :
    world_inv (s, ps) -> (i < length ps)%nat ->
    decrease w unit (get_pos ps i) (mk_market cfg s) pr sd acc wdr fl = Ok (p1, m', rep) ->
    world_inv (st_of m', set_pos ps i (stored p1 (dr_remove rep)))
    /\ (dr_remove rep = true -> size_usd p1 = 0 /\ size_tok p1 = 0 /\ coll p1 = 0).
  Proof using Hw.
    intros Inv Hi H.
    destruct (open_of_decrease _ _ _ _ _ _ _ _ (get_pos_shape ps i (proj2 Inv)) H) as (HS & HT & HC).
    destruct (decrease_spec w Hw unit _ _ _ _ _ _ _ _ _ _ HS HT HC H) as (_ & L & C & U & T & K & R1 & R2 & M).
    split; [|exact R1].
    apply (inv_replace s ps i _ m' (- dr_size_delta rep) (- dr_sdt rep) (- (coll (get_pos ps i) - coll p1)));
      try assumption; destruct (dr_remove rep); cbn;
      try (destruct (R1 eq_refl) as (Z1 & Z2 & Z3)); try lia; try assumption.
    - right. repeat split; reflexivity.
    - left. destruct (R2 eq_refl). lia.
  Qed.

  Lemma inv_decrease_b s ps i pr sd acc wdr fl p1 m' rep :
    world_inv (s, ps) -> (i < length ps)%nat ->
    decrease w unit (get_pos ps i) (mk_market cfg s) pr sd acc wdr fl = Ok (p1, m', rep) ->
    world_inv (st_of m', set_pos ps i (stored p1 (dr_remove rep)))
    /\ (if dr_remove rep then (size_usd p1 =? 0) && (size_tok p1 =? 0) && (coll p1 =? 0) else true) = true.
  Proof using Hw.
    intros Inv Hi H. destruct (inv_decrease _ _ _ _ _ _ _ _ _ _ _ Inv Hi H) as [I R]. split; [exact I|].
    destruct (dr_remove rep); [|reflexivity]. destruct (R eq_refl) as (-> & -> & ->). reflexivity.
  Qed.

  Lemma op_inv wd o : world_inv wd -> op_valid (snd wd) o = true ->
    world_inv (apply_outcome wd o (run_op w unit cfg wd o)) /\ removed_ok (run_op w unit cfg wd o) = true.
  Proof using Hw.
    destruct wd as [s ps]. intros Inv Ev. cbn [snd] in Ev.
    destruct o as [s'|i pr ci sd acc|i pr sd acc wdr fl|i pr sd acc wdr|i pr sd acc wdr];
      cbn [run_op apply_outcome op_index removed_ok]; [|apply Nat.ltb_lt in Ev; cbn [op_index] in Ev..].
    - (* update_fees_state: none of the C07 pools is written *)
      split; [|reflexivity]. destruct Inv as [S F]. split; [|exact F]. intros l c. specialize (S l c). cbn [fst snd] in *.
      destruct l; exact S.
    - split; [|reflexivity].
      destruct (increase w unit (get_pos ps i) (mk_market cfg s) pr ci sd acc) as [[[p1 m'] rep]|e] eqn:E; cbn; [|exact Inv].
      destruct (increase_spec w Hw unit _ _ _ _ _ _ _ _ _ E) as (_ & L & C & U & T & K & P1 & P2 & P3 & M).
      apply (inv_replace s ps i _ m' sd (ir_sdt rep) (ir_coll_delta rep)); try assumption.
      + rewrite T. destruct (get_pos_shape ps i (proj2 Inv)) as [(HS & _)|(HS & HT & _)].
        * replace (size_usd (get_pos ps i) =? 0) with false by (symmetry; apply Z.eqb_neq; lia). reflexivity.
        * rewrite HS, HT. reflexivity.
      + left. repeat split; assumption.
    - destruct (decrease w unit (get_pos ps i) (mk_market cfg s) pr sd acc wdr fl) as [[[p1 m'] rep]|e] eqn:E; cbn; [|auto].
      exact (inv_decrease_b _ _ _ _ _ _ _ _ _ _ _ Inv Ev E).
    - destruct (liquidate w unit (get_pos ps i) (mk_market cfg s) pr sd acc wdr) as [[[p1 m'] rep]|e] eqn:E; cbn; [|auto].
      exact (inv_decrease_b _ _ _ _ _ _ _ _ _ _ _ Inv Ev (proj2 (liquidate_decrease w unit _ _ _ _ _ _ _ E))).
    - destruct (auto_deleverage w unit (get_pos ps i) (mk_market cfg s) pr sd acc wdr) as [[[[[p1 m'] rep] b] a]|e] eqn:E; cbn; [|auto].
      destruct (auto_deleverage_spec w unit _ _ _ _ _ _ _ _ _ _ _ E) as (_ & _ & _ & D & _).
      exact (inv_decrease_b _ _ _ _ _ _ _ _ _ _ _ Inv Ev D).
  Qed.

  Theorem step_inv wd o : world_inv wd -> world_inv (step w unit cfg wd o).
  Proof using Hw.
    intros Inv. unfold step. destruct (op_valid (snd wd) o) eqn:Ev; [|exact Inv]. exact (proj1 (op_inv wd o Inv Ev)).
  Qed.

  (* C07 over whole histories, failed attempts included *)
  Theorem history_inv wd ops : world_inv wd -> world_inv (run w unit cfg wd ops).
  Proof.
    apply fold_left_inv. intros a o _. apply step_inv.
  Qed.

  (* a position reported as removed has zero size and zero collateral *)
  Theorem removed_is_empty wd o :
    world_inv wd -> op_valid (snd wd) o = true ->
    removed_ok (run_op w unit cfg wd o) = true.
  Proof using Hw. intros Inv Ev. exact (proj2 (op_inv wd o Inv Ev)). Qed.
End I.
