(* C16 — proofs.  The generic table law (any tables, any values, all keys); then its side
   conditions and the parameter-slot / naming / SDK agreement facts, decided by vm_compute over
   the REGENERATED tables (finite domains) and lifted to quantified statements. *)
From GV Require Import lib.Base lib.Checked gen.C16Tables C16.Model C16.ParamSpec.
From Coq Require Import String.
Open Scope string_scope.
Open Scope Z_scope.

Lemma lookup_in {A} (k : string) (l : list (string * A)) v : lookup k l = Some v -> In (k, v) l.
Proof.
  induction l as [|[k' v'] l IH]; cbn; [discriminate|].
  destruct (String.eqb k k') eqn:E; intros H.
  - apply String.eqb_eq in E. injection H as <-. subst k'. left. reflexivity.
  - right. exact (IH H).
Qed.

Lemma mem_true_iff k l : mem k l = true <-> In k l.
Proof. exact (existsb_eqb_In String.eqb String.eqb_eq k l). Qed.

Definition oseqb (a b : option string) : bool :=
  match a, b with
  | Some x, Some y => String.eqb x y
  | None, None => true
  | _, _ => false
  end.

Lemma oseqb_eq a b : oseqb a b = true -> a = b.
Proof.
  destruct a, b; cbn; try discriminate; try reflexivity.
  intros H. apply String.eqb_eq in H. subst. reflexivity.
Qed.

(* every row of g is found in s, and s has no key that g lacks *)
Definition agree_b (g s : list (string * string)) : bool :=
  forallb (fun kf => oseqb (lookup (fst kf) s) (Some (snd kf))) g
  && forallb (fun kf => is_some (lookup (fst kf) g)) s.

(* no two rows with different keys share a field *)
Definition inj_b (g : list (string * string)) : bool :=
  forallb (fun a => forallb (fun b => implb (String.eqb (snd a) (snd b)) (String.eqb (fst a) (fst b))) g) g.

Lemma agree_b_sound g s : agree_b g s = true -> forall k, lookup k g = lookup k s.
Proof.
  unfold agree_b. rewrite Bool.andb_true_iff, !forallb_forall. intros [Hg Hs] k.
  destruct (lookup k g) as [f|] eqn:Eg.
  - symmetry. apply oseqb_eq. exact (Hg _ (lookup_in _ _ _ Eg)).
  - destruct (lookup k s) as [f'|] eqn:Es; [|reflexivity].
    apply lookup_in, Hs in Es. cbn in Es. rewrite Eg in Es. discriminate.
Qed.

Lemma inj_b_sound g : inj_b g = true ->
  forall k k' f, lookup k g = Some f -> lookup k' g = Some f -> k = k'.
Proof.
  unfold inj_b. rewrite forallb_forall. intros H k k' f Hk Hk'.
  pose proof (H _ (lookup_in _ _ _ Hk)) as H1. rewrite forallb_forall in H1.
  pose proof (H1 _ (lookup_in _ _ _ Hk')) as H2. cbn in H2.
  rewrite String.eqb_refl in H2. apply String.eqb_eq. exact H2.
Qed.

Section TableLaw.
  Context {V : Type}.
  Variables (garms sarms : list (string * string)) (guard : list string).
  Hypothesis Hagree : forall k, lookup k garms = lookup k sarms.
  Hypothesis Hinj : forall k k' f, lookup k garms = Some f -> lookup k' garms = Some f -> k = k'.

  Theorem table_law : forall (c c' : @rec V) k v, tset sarms guard c k v = Some c' ->
    forall k', tget garms c' k' = if String.eqb k k' then Some v else tget garms c k'.
  Proof.
    intros c c' k v Hset k'. unfold tset in Hset.
    destruct (mem k guard); [discriminate|].
    destruct (lookup k sarms) as [f|] eqn:Ef; [|discriminate]. cbn in Hset. injection Hset as <-.
    unfold tget. destruct (String.eqb k k') eqn:Ek.
    - apply String.eqb_eq in Ek. subst k'. rewrite Hagree, Ef. cbn. unfold upd. rewrite String.eqb_refl. reflexivity.
    - destruct (lookup k' garms) as [f'|] eqn:Ef'; [|reflexivity]. cbn. unfold upd.
      destruct (String.eqb f' f) eqn:Eff; [|reflexivity].
      apply String.eqb_eq in Eff. subst f'. rewrite <- Hagree in Ef.
      rewrite (Hinj k k' f Ef Ef'), String.eqb_refl in Ek. discriminate.
  Qed.

  Theorem tset_defined : forall (c : @rec V) k v,
    tset sarms guard c k v = None <-> (mem k guard = true \/ lookup k garms = None).
  Proof.
    intros c k v. unfold tset. rewrite Hagree. destruct (mem k guard); [split; [left; reflexivity|reflexivity]|].
    destruct (lookup k sarms); cbn; split; intros H; try discriminate; try reflexivity.
    - destruct H; discriminate.
    - right. reflexivity.
  Qed.

  Theorem tset_frame : forall (c c' : @rec V) k v f, tset sarms guard c k v = Some c' ->
    lookup k sarms = Some f -> forall g, g <> f -> c' g = c g.
  Proof.
    intros c c' k v f Hset Hf g Hne. unfold tset in Hset. destruct (mem k guard); [discriminate|].
    rewrite Hf in Hset. cbn in Hset. injection Hset as <-. unfold upd.
    destruct (String.eqb g f) eqn:E; [apply String.eqb_eq in E; contradiction|reflexivity].
  Qed.
End TableLaw.

Lemma table_law_b {V} g s guard : agree_b g s = true -> inj_b g = true ->
  forall (c c' : @rec V) k v, tset s guard c k v = Some c' ->
  forall k', tget g c' k' = if String.eqb k k' then Some v else tget g c k'.
Proof. intros Ha Hi. exact (table_law g s guard (agree_b_sound _ _ Ha) (inj_b_sound _ Hi)). Qed.

(* flag containers: the law needs no side condition (the index of the first occurrence is injective) *)
Lemma index_of_nonneg f l : forall i, index_of f l = Some i -> 0 <= i.
Proof.
  induction l as [|g l IH]; cbn; intros i H; [discriminate|].
  destruct (String.eqb f g); [injection H as <-; lia|].
  destruct (index_of f l) as [j|]; [|discriminate]. injection H as <-. specialize (IH j eq_refl). lia.
Qed.

Lemma index_of_inj l : forall f f' i, index_of f l = Some i -> index_of f' l = Some i -> f = f'.
Proof.
  induction l as [|g l IH]; intros f f' i Hf Hf'; [discriminate|]. cbn in Hf, Hf'.
  destruct (String.eqb f g) eqn:E1, (String.eqb f' g) eqn:E2.
  - apply String.eqb_eq in E1, E2. congruence.
  - injection Hf as <-. destruct (index_of f' l) as [j|] eqn:Ej; [|discriminate].
    injection Hf' as Hj. apply index_of_nonneg in Ej. lia.
  - injection Hf' as <-. destruct (index_of f l) as [j|] eqn:Ej; [|discriminate].
    injection Hf as Hj. apply index_of_nonneg in Ej. lia.
  - destruct (index_of f l) as [j|] eqn:Ej; [|discriminate]. destruct (index_of f' l) as [j'|] eqn:Ej'; [|discriminate].
    injection Hf as Hj. injection Hf' as Hj'. apply (IH f f' j); [exact Ej|]. rewrite Ej'. f_equal. lia.
Qed.

Theorem flag_law : forall enum (b b' : bits) f v, fset enum b f v = Some b' ->
  forall f', fget enum b' f' = if String.eqb f f' then Some v else fget enum b f'.
Proof.
  intros enum b b' f v Hset f'. unfold fset in Hset.
  destruct (index_of f enum) as [i|] eqn:Ei; [|discriminate]. injection Hset as <-.
  unfold fget. destruct (String.eqb f f') eqn:E.
  - apply String.eqb_eq in E. subst f'. rewrite Ei. cbn. rewrite Z.eqb_refl. reflexivity.
  - destruct (index_of f' enum) as [j|] eqn:Ej; [|reflexivity]. cbn.
    destruct (j =? i) eqn:Eji; [|reflexivity]. apply Z.eqb_eq in Eji. subst j.
    rewrite (index_of_inj enum f f' i Ei Ej), String.eqb_refl in E. discriminate.
Qed.

Lemma p_agree : agree_b p_get p_get_mut = true. Proof. vm_compute. reflexivity. Qed.
Lemma p_inj : inj_b p_get = true. Proof. vm_compute. reflexivity. Qed.
Lemma p_all_keys_have_arms : filter (fun k => negb (is_some (lookup k p_get))) config_keys = [].
Proof. vm_compute. reflexivity. Qed.
Definition arms_without_key : list string := filter (fun k => negb (mem k config_keys)) (map fst p_get).
Lemma p_no_foreign_arms : arms_without_key = []. Proof. vm_compute. reflexivity. Qed.

Lemma p_key_has_arm : forall k, In k config_keys -> exists f, lookup k p_get = Some f.
Proof.
  intros k Hin. apply (none_fail _ _ p_all_keys_have_arms) in Hin.
  destruct (lookup k p_get) as [f|]; [exists f; reflexivity|discriminate].
Qed.

Lemma p_table_law : forall (c c' : @rec Z) k v, p_set_key c k v = Some c' ->
  forall k', p_get_key c' k' = if String.eqb k k' then Some v else p_get_key c k'.
Proof. exact (table_law_b _ _ _ p_agree p_inj). Qed.

Lemma p_key_writable : forall k, In k config_keys -> forall (c : @rec Z) v, exists c', p_set_key c k v = Some c'.
Proof.
  intros k Hin c v. destruct (p_key_has_arm k Hin) as [f Hf].
  unfold p_set_key, tset. cbn [mem existsb]. rewrite <- (agree_b_sound _ _ p_agree), Hf. cbn. eexists. reflexivity.
Qed.

Definition store_keys_without_arm : list string :=
  filter (fun k => negb (is_some (lookup k amount_get))) amount_keys
  ++ filter (fun k => negb (is_some (lookup k factor_get))) factor_keys
  ++ filter (fun k => negb (is_some (lookup k address_get))) address_keys.
Lemma store_all_keys_have_arms : store_keys_without_arm = []. Proof. vm_compute. reflexivity. Qed.

Lemma amount_table_law : forall (c c' : @rec Z) k v, amount_set_key c k v = Some c' ->
  forall k', amount_get_key c' k' = if String.eqb k k' then Some v else amount_get_key c k'.
Proof. apply table_law_b; vm_compute; reflexivity. Qed.
Lemma factor_table_law : forall (c c' : @rec Z) k v, factor_set_key c k v = Some c' ->
  forall k', factor_get_key c' k' = if String.eqb k k' then Some v else factor_get_key c k'.
Proof. apply table_law_b; vm_compute; reflexivity. Qed.
Lemma address_table_law : forall (c c' : @rec Z) k v, address_set_key c k v = Some c' ->
  forall k', address_get_key c' k' = if String.eqb k k' then Some v else address_get_key c k'.
Proof. apply table_law_b; vm_compute; reflexivity. Qed.

Definition store_writable_b (keys : list string) (arms : list (string * string)) (guard : list string) : list string :=
  filter (fun k => negb (mem k guard) && is_some (lookup k arms)) keys.
Lemma store_writable_keys :
  store_writable_b amount_keys amount_get_mut amount_write_guard = filter (fun k => negb (String.eqb k "claimable_time_window")) amount_keys
  /\ store_writable_b factor_keys factor_get_mut factor_write_guard = factor_keys
  /\ store_writable_b address_keys address_get_mut address_write_guard = address_keys.
Proof. vm_compute. repeat split. Qed.

Lemma claimable_time_window_write_rejected : forall (c : @rec Z) v, amount_set_key c "claimable_time_window" v = None.
Proof. intros. vm_compute. reflexivity. Qed.

Lemma sdk_tables_agree :
  (forall k, lookup k s_get = lookup k p_get)
  /\ s_config_flags = config_flags /\ s_market_flags = market_flags
  /\ s_helpers = p_helpers /\ s_zero_is_none = p_zero_is_none /\ s_enable_flag = p_enable_flag.
Proof. split; [apply agree_b_sound|repeat apply conj]; vm_compute; reflexivity. Qed.

(* cell cz is the field that k's arm in `get` reads (or is the flag k itself), and reads 0 as None iff zn *)
Definition src_is (cz : option (src * bool)) (get : list (string * string)) (k : string) (zn : bool) : bool :=
  match cz with
  | Some (SField f, z) => negb (mem k config_flags) && oseqb (lookup k get) (Some f) && Bool.eqb z zn
  | Some (SFlag f, z) => mem k config_flags && String.eqb f k && negb z && negb zn
  | _ => false
  end.

(* the cell the slot reads, given the switch state uc, is the one its named key reads *)
Definition p_slot_ok (slot : string) (uc : bool) : bool :=
  match lookup slot p_params, named_key uc slot with
  | Some s, Some k => src_is (slot_cell p_helpers p_zero_is_none uc s) p_get k (mem slot zero_means_unset)
  | _, _ => false
  end.

Lemma p_no_bad_slots : forall uc, filter (fun slot => negb (p_slot_ok slot uc)) (map fst p_params) = [].
Proof. intros []; vm_compute; reflexivity. Qed.
Lemma p_enable_is_spec : p_enable_flag = closed_switch_flag. Proof. vm_compute. reflexivity. Qed.

(* what reading the named key gives, as a parameter value *)
Definition key_view (c : @rec Z) (b : bits) (slot k : string) : option pval :=
  if mem k config_flags then (v <- p_get_flag b k ;; Some (PBool v))
  else (v <- p_get_key c k ;; Some (if mem slot zero_means_unset && (v =? 0) then PNone else PNum v)).

Lemma param_reads_named_key : forall slot, In slot (map fst p_params) -> forall c b closed en,
  p_get_flag b closed_switch_flag = Some en ->
  exists k, named_key (closed && en) slot = Some k /\ p_slot_value c b closed slot = key_view c b slot k.
Proof.
  intros slot Hin c b closed en Hen.
  apply (none_fail _ _ (p_no_bad_slots (closed && en))) in Hin. unfold p_slot_ok in Hin.
  unfold p_slot_value, slot_value. rewrite p_enable_is_spec. unfold p_get_flag in Hen. rewrite Hen. cbn [obind].
  destruct (lookup slot p_params) as [s|]; [|discriminate].
  destruct (named_key (closed && en) slot) as [k|]; [|discriminate]. exists k. split; [reflexivity|].
  cbn [obind]. unfold src_is in Hin.
  destruct (slot_cell p_helpers p_zero_is_none (closed && en) s) as [[cell z]|]; [|discriminate].
  cbn [obind]. unfold key_view, cell_value. cbn [fst snd].
  destruct cell as [f|f|fn fl|lit|e]; try discriminate.
  - apply andb_prop in Hin as [H Hz]. apply andb_prop in H as [Hnf Hl].
    apply Bool.negb_true_iff in Hnf. rewrite Hnf. apply oseqb_eq in Hl. apply Bool.eqb_prop in Hz. subst z.
    unfold p_get_key, tget. rewrite Hl. reflexivity.
  - apply andb_prop in Hin as [H Hzn]. apply andb_prop in H as [H Hz]. apply andb_prop in H as [Hf He].
    rewrite Hf. apply String.eqb_eq in He. subst f. unfold p_get_flag. reflexivity.
Qed.

Lemma write_observed : forall slot, In slot (map fst p_params) -> forall (c c' : @rec Z) b closed en k v,
  p_set_key c k v = Some c' -> p_get_flag b closed_switch_flag = Some en ->
  exists kn, named_key (closed && en) slot = Some kn /\
    p_slot_value c' b closed slot =
      if mem kn config_flags then p_slot_value c b closed slot
      else if String.eqb k kn then Some (if mem slot zero_means_unset && (v =? 0) then PNone else PNum v)
      else p_slot_value c b closed slot.
Proof.
  intros slot Hin c c' b closed en k v Hset Hen.
  destruct (param_reads_named_key slot Hin c b closed en Hen) as [kn [Hk Hv]].
  destruct (param_reads_named_key slot Hin c' b closed en Hen) as [kn' [Hk' Hv']].
  rewrite Hk in Hk'. injection Hk' as <-. exists kn. split; [exact Hk|].
  rewrite Hv', Hv. unfold key_view. destruct (mem kn config_flags); [reflexivity|].
  rewrite (p_table_law c c' k v Hset kn). destruct (String.eqb k kn); reflexivity.
Qed.

(* the same for an SDK slot; the two slots the spec names NZero / NNotConfig read a literal 0 / no config cell *)
Definition s_slot_ok (slot : string) (uc : bool) : bool :=
  match lookup slot s_params, sdk_named_key uc slot with
  | Some s, Some (NKey k) =>
      src_is (slot_cell s_helpers s_zero_is_none uc s) s_get k
             (existsb (fun z => String.eqb slot z) zero_means_unset)
  | Some (SLit 0), Some NZero => true
  | Some (SOther _), Some NNotConfig => true
  | _, _ => false
  end.
Lemma s_no_bad_slots : forall uc, filter (fun slot => negb (s_slot_ok slot uc)) (map fst s_params) = [].
Proof. intros []; vm_compute; reflexivity. Qed.

Definition slot_reads_key (k : string) : bool :=
  existsb (fun slot => oseqb (named_key false slot) (Some k) || oseqb (named_key true slot) (Some k)) (map fst p_params).
Definition unread_keys : list string := filter (fun k => negb (slot_reads_key k)) config_keys.
Definition unread_flags : list string := filter (fun k => negb (slot_reads_key k)) config_flags.

(* the keys the slots are named after, listed once; slot_reads_key k says that k is among them *)
Definition named_keys : list (option string) :=
  flat_map (fun slot => [named_key false slot; named_key true slot]) (map fst p_params).
Definition unread_in (named : list (option string)) (keys : list string) : list string :=
  filter (fun k => negb (existsb (fun n => oseqb n (Some k)) named)) keys.

Lemma existsb_pair {A B} (p : B -> bool) (f g : A -> B) l :
  existsb (fun x => p (f x) || p (g x)) l = existsb p (flat_map (fun x => [f x; g x]) l).
Proof. induction l as [|x l IH]; cbn; [reflexivity|]. rewrite IH, Bool.orb_assoc. reflexivity. Qed.

Lemma unread_in_named keys : filter (fun k => negb (slot_reads_key k)) keys = unread_in named_keys keys.
Proof.
  apply filter_ext. intros k. unfold slot_reads_key.
  rewrite (existsb_pair (fun n => oseqb n (Some k))). reflexivity.
Qed.

Lemma unread_keys_eq : unread_keys = keys_without_parameter /\ unread_flags = flags_without_parameter.
Proof. unfold unread_keys, unread_flags. rewrite !unread_in_named. vm_compute. split; reflexivity. Qed.

(* spec rows whose slot is not a slot of the code or whose key is neither a key nor a flag *)
Definition stale_spec_rows : list string :=
  map fst (filter (fun sk => negb (is_some (lookup (fst sk) p_params) && (mem (snd sk) config_keys || mem (snd sk) config_flags))) (param_key ++ closed_key)).
Lemma no_stale_spec_rows : stale_spec_rows = []. Proof. vm_compute. reflexivity. Qed.

Fixpoint contains (pat s : string) : bool :=
  match s with
  | EmptyString => String.eqb pat EmptyString
  | String _ r => String.prefix pat s || contains pat r
  end.

(* a `long` slot is named after a `long` key and its `short` twin after the same key with long replaced by
   short; a `short` slot after a `short` key; an unsided slot after an unsided key *)
Definition long_short_ok (sk : string * string) : bool :=
  let '(slot, k) := sk in
  if contains "long" slot
  then contains "long" k && negb (contains "short" k)
       && oseqb (slookup (replace_long slot) param_key) (Some (replace_long k))
       && negb (String.eqb (replace_long k) k)
  else if contains "short" slot
  then contains "short" k && negb (contains "long" k)
  else negb (contains "_long" k) && negb (contains "_short" k).
Lemma no_bad_long_short : filter (fun sk => negb (long_short_ok sk)) param_key = [].
Proof. vm_compute. reflexivity. Qed.

Lemma long_short_law : forall slot k, In (slot, k) param_key -> long_short_ok (slot, k) = true.
Proof. intros slot k. exact (none_fail _ _ no_bad_long_short (slot, k)). Qed.
