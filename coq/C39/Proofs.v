(* C39 — proofs: list-level specification of update_leaderboard, the state invariant of the
   competition, extension bounds. *)
From GV Require Import lib.Base lib.Checked C39.Model.
From Coq Require Import Permutation.
Open Scope Z_scope.

(* non-increasing by volume *)
Inductive desc : list entry -> Prop :=
| desc_nil : desc []
| desc_cons x l : Forall (fun y => snd y <= snd x) l -> desc l -> desc (x :: l).

Definition addrs (l : list entry) : list Z := map fst l.

(* 5 is MAX_LEN *)
Definition board_inv (b : list entry) : Prop :=
  (length b <= 5)%nat /\ NoDup (addrs b) /\ desc b.

Lemma desc_app l1 l2 :
  desc (l1 ++ l2) <-> desc l1 /\ desc l2 /\ (forall x y, In x l1 -> In y l2 -> snd y <= snd x).
Proof.
  induction l1 as [|a l1 IH]; simpl.
  - split. + intros H. repeat split; [constructor|exact H|]. intros x y []. + intros (_ & H & _). exact H.
  - split.
    + intros H. inversion H as [|? ? HF HD]; subst. apply IH in HD. destruct HD as (D1 & D2 & D3).
      rewrite Forall_app in HF. destruct HF as [F1 F2]. repeat split.
      * constructor; assumption.
      * assumption.
      * intros x y [<-|Hx] Hy. -- rewrite Forall_forall in F2. apply F2. exact Hy. -- apply D3; assumption.
    + intros (D1 & D2 & D3). inversion D1 as [|? ? HF HD]; subst. constructor.
      * rewrite Forall_app. split; [assumption|]. rewrite Forall_forall. intros y Hy. apply D3; [left; reflexivity|exact Hy].
      * apply IH. repeat split; try assumption. intros x y Hx Hy. apply D3; [right; exact Hx|exact Hy].
Qed.

Lemma desc_firstn n l : desc l -> desc (firstn n l).
Proof. intros H. rewrite <- (firstn_skipn n l) in H. apply desc_app in H. tauto. Qed.
Lemma desc_skipn n l : desc l -> desc (skipn n l).
Proof. intros H. rewrite <- (firstn_skipn n l) in H. apply desc_app in H. tauto. Qed.
Lemma desc_first_skip n l x y : desc l -> In x (firstn n l) -> In y (skipn n l) -> snd y <= snd x.
Proof. intros H. rewrite <- (firstn_skipn n l) in H. apply desc_app in H. destruct H as (_ & _ & H). apply H. Qed.

Lemma desc_In_head x l y : desc (x :: l) -> In y (x :: l) -> snd y <= snd x.
Proof. intros H [<-|Hy]; [lia|]. inversion H as [|? ? HF _]; subst. rewrite Forall_forall in HF. apply HF. exact Hy. Qed.

Lemma last_In {A} (l : list A) d : l <> [] -> In (last l d) l.
Proof.
  intros H. destruct (exists_last H) as (l' & z & ->). rewrite last_last. apply in_or_app. right. left. reflexivity.
Qed.

Lemma desc_last_min l d y : desc l -> In y l -> snd (last l d) <= snd y.
Proof.
  intros HD Hy. destruct (exists_last (l:=l)) as (l' & z & ->); [intros ->; destruct Hy|].
  rewrite last_last. apply desc_app in HD as (_ & _ & H).
  apply in_app_or in Hy as [Hy|[<-|[]]]; [apply H; [exact Hy|left; reflexivity]|lia].
Qed.

Lemma desc_nth l d : desc l -> forall i j, (i < j < length l)%nat -> snd (nth j l d) <= snd (nth i l d).
Proof.
  induction l as [|x l IH]; intros HD i j Hij; [simpl in Hij; lia|].
  inversion HD as [|? ? HF HD']; subst. destruct j as [|j]; [lia|]. simpl in Hij.
  destruct i as [|i].
  - simpl. rewrite Forall_forall in HF. apply HF. apply nth_In. lia.
  - simpl. apply IH; [exact HD'|lia].
Qed.

Lemma remove_first_In a l x : NoDup (addrs l) -> In x (remove_first a l) <-> In x l /\ fst x <> a.
Proof.
  induction l as [|e l IH]; simpl; intros N; [tauto|]. inversion N as [|? ? Hn Hd]; subst.
  destruct (Z.eqb_spec (fst e) a) as [<-|Hne]; [|simpl; rewrite (IH Hd)]; split.
  - intros H. split; [right; exact H|]. intros E. apply Hn. rewrite <- E. apply in_map, H.
  - intros [[<-|H] Hx]; [contradiction|exact H].
  - intros [<-|[H Hx]]; auto.
  - intros [[<-|H] Hx]; auto.
Qed.

Lemma remove_first_spec a l : NoDup (addrs l) -> desc l ->
  NoDup (addrs (remove_first a l)) /\ ~ In a (addrs (remove_first a l)) /\ desc (remove_first a l) /\
  ((In a (addrs l) /\ S (length (remove_first a l)) = length l) \/ (~ In a (addrs l) /\ remove_first a l = l)).
Proof.
  induction l as [|e l IH]; simpl; intros N D; [repeat split; auto|].
  inversion N as [|? ? Hn Hd]; inversion D as [|? ? HF HD]; subst.
  destruct (Z.eqb_spec (fst e) a) as [<-|Hne]; [repeat split; auto|].
  destruct (IH Hd HD) as (I1 & I2 & I3 & I4). simpl. split; [|split; [|split]].
  - constructor; [|exact I1]. intros Hin. apply Hn. apply in_map_iff in Hin as (x & Hx & Hi).
    apply in_map_iff. exists x. split; [exact Hx|apply (remove_first_In a l x Hd), Hi].
  - intros [H|H]; [contradiction|exact (I2 H)].
  - constructor; [|exact I3]. rewrite Forall_forall in *. intros y Hy. apply HF, (remove_first_In a l y Hd), Hy.
  - destruct I4 as [[Hi L]|[Hi E]]; [left; split; [right; exact Hi|simpl; rewrite L; reflexivity]|right].
    split; [intros [H|H]; [contradiction|exact (Hi H)]|rewrite E; reflexivity].
Qed.

Lemma insert_pos_spec v l : desc l ->
  (insert_pos v l <= length l)%nat /\
  Forall (fun e => v <= snd e) (firstn (insert_pos v l) l) /\
  Forall (fun e => snd e < v) (skipn (insert_pos v l) l).
Proof.
  induction l as [|e l IH]; intros HD.
  - simpl. repeat split; auto.
  - inversion HD as [|? ? HF HD']; subst. destruct (IH HD') as (L & F1 & F2).
    simpl insert_pos. destruct (insert_pos v l) as [|p] eqn:EP.
    + destruct (v <=? snd e) eqn:EV.
      * simpl. repeat split; [lia| |exact F2]. constructor; [lia|constructor].
      * simpl. repeat split; [lia|constructor|]. constructor; [lia|exact F2].
    + repeat split.
      * simpl. lia.
      * change (firstn (S (S p)) (e :: l)) with (e :: firstn (S p) l). constructor; [|exact F1].
        destruct l as [|y l']; [simpl in L; lia|]. simpl in F1. inversion F1; subst.
        rewrite Forall_forall in HF. specialize (HF y (or_introl eq_refl)). lia.
      * exact F2.
Qed.

Lemma insert_at_In n e l x : In x (insert_at n e l) <-> x = e \/ In x l.
Proof.
  unfold insert_at. rewrite in_app_iff. simpl.
  assert (E : In x l <-> In x (firstn n l) \/ In x (skipn n l)) by (rewrite <- in_app_iff, firstn_skipn; tauto).
  rewrite E. intuition.
Qed.

Lemma insert_at_length n e l : length (insert_at n e l) = S (length l).
Proof. unfold insert_at. rewrite app_length. simpl. rewrite <- plus_n_Sm, <- app_length, firstn_skipn. reflexivity. Qed.

Lemma insert_at_perm n e l : Permutation (insert_at n e l) (e :: l).
Proof. unfold insert_at. rewrite <- (firstn_skipn n l) at 3. symmetry. apply Permutation_middle. Qed.

Lemma insert_at_desc v t l :
  desc l -> desc (insert_at (insert_pos v l) (t, v) l).
Proof.
  intros HD. destruct (insert_pos_spec v l HD) as (L & F1 & F2). unfold insert_at.
  apply desc_app. repeat split.
  - apply desc_firstn. exact HD.
  - constructor; [|apply desc_skipn; exact HD]. eapply Forall_impl; [|exact F2]. simpl. intros; lia.
  - intros x y Hx [<-|Hy].
    + rewrite Forall_forall in F1. apply F1. exact Hx.
    + eapply desc_first_skip; eauto.
Qed.

Lemma NoDup_firstn {A} n (l : list A) : NoDup l -> NoDup (firstn n l).
Proof.
  revert l. induction n as [|n IH]; intros l H; [constructor|]. destruct l as [|a l]; [constructor|].
  simpl. inversion H; subst. constructor; [|auto]. intros Hin. apply in_firstn in Hin. contradiction.
Qed.

Lemma In_addrs a l : In a (addrs l) <-> exists v, In (a, v) l.
Proof.
  unfold addrs. rewrite in_map_iff. split.
  - intros ([x v] & E & H). simpl in E. subst. eauto.
  - intros (v & H). exists (a, v). auto.
Qed.

Lemma nodup_fun l a v w : NoDup (addrs l) -> In (a, v) l -> In (a, w) l -> v = w.
Proof.
  induction l as [|e l IH]; simpl; [tauto|]. intros H. inversion H as [|? ? Hn Hd]; subst.
  intros [->|H1] [E|H2].
  - congruence.
  - exfalso. apply Hn. apply In_addrs. eauto.
  - exfalso. apply Hn. subst e. apply In_addrs. eauto.
  - eauto.
Qed.

(* the volume of the last entry of a full board, 0 otherwise *)
Definition floor_of (l : list entry) : Z :=
  if (length l =? 5)%nat then snd (last l (0, 0)) else 0.

Lemma floor_of_ge (l : list entry) x : length l = 5%nat -> (forall y, In y l -> x <= snd y) -> x <= floor_of l.
Proof. intros L H. unfold floor_of. rewrite L. apply H, last_In. intros ->. discriminate. Qed.

Lemma floor_of_le (l : list entry) y : desc l -> (forall x, In x l -> 0 <= snd x) -> In y l -> floor_of l <= snd y.
Proof. intros D P Hy. unfold floor_of. destruct (length l =? 5)%nat; [apply desc_last_min; assumption|exact (P y Hy)]. Qed.

Lemma floor_of_nonneg (l : list entry) : (forall x, In x l -> 0 <= snd x) -> 0 <= floor_of l.
Proof.
  intros P. unfold floor_of. destruct (Nat.eqb_spec (length l) 5) as [L|]; [|lia].
  apply P, last_In. intros ->. discriminate.
Qed.

Lemma desc_firstn_or n l x : desc l -> In x l ->
  In x (firstn n l) \/ (length (firstn n l) = n /\ forall y, In y (firstn n l) -> snd x <= snd y).
Proof.
  intros D Hx. rewrite <- (firstn_skipn n l) in Hx. apply in_app_or in Hx as [H|H]; [left; exact H|right]. split.
  - apply firstn_length_le. destruct (le_lt_dec n (length l)) as [|Hl]; [assumption|].
    rewrite skipn_all2 in H by lia. destruct H.
  - intros y Hy. exact (desc_first_skip n l y x D Hy H).
Qed.

Section Upd.
  Variables (b : list entry) (t v : Z).
  Hypothesis HB : board_inv b.
  Let b' := update_leaderboard b t v.

  Let b1 := remove_first t b.
  Let pos := insert_pos v b1.
  Let ins := insert_at pos (t, v) b1.

  Let HB1 : NoDup (addrs b1) /\ ~ In t (addrs b1) /\ desc b1 /\
            ((In t (addrs b) /\ S (length b1) = length b) \/ (~ In t (addrs b) /\ b1 = b)).
  Proof. apply remove_first_spec; apply HB. Qed.

  Let HP : (pos <= length b1)%nat /\ Forall (fun e => v <= snd e) (firstn pos b1) /\
           Forall (fun e => snd e < v) (skipn pos b1).
  Proof. apply insert_pos_spec, HB1. Qed.

  (* The new board is always the first five of [ins], the other traders' entries with (t, v) put in
     its place; when the place is the sixth, that is the old board. *)
  Lemma upd_cases :
    b' = firstn 5 ins /\
    ((pos < 5)%nat \/
     ((5 <= pos)%nat /\ b' = b /\ ~ In t (addrs b) /\ length b = 5%nat /\ Forall (fun e => v <= snd e) b)).
  Proof.
    subst b'. unfold update_leaderboard. fold b1. fold pos. fold ins. unfold MAX_LEN.
    destruct (Nat.ltb_spec pos 5) as [E|E]; [split; [reflexivity|left; exact E]|].
    destruct HB as (L & _), HP as (LP & F1 & _), HB1 as (_ & _ & _ & [[_ L1]|[Hnot E1]]); [lia|].
    rewrite E1 in LP. assert (L5 : length b = 5%nat) by lia. assert (Ep : pos = 5%nat) by lia. split.
    - unfold ins, insert_at. rewrite E1, Ep, (firstn_all2 b), (skipn_all2 b), firstn_app, L5 by lia.
      rewrite (firstn_all2 b) by lia. symmetry. apply app_nil_r.
    - right. rewrite E1, Ep, firstn_all2 in F1 by lia. repeat split; auto; lia.
  Qed.

  Lemma ins_In x : In x ins <-> x = (t, v) \/ (In x b /\ fst x <> t).
  Proof. unfold ins. rewrite insert_at_In. unfold b1. rewrite remove_first_In by apply HB. reflexivity. Qed.

  Lemma ins_desc : desc ins.
  Proof. apply insert_at_desc, HB1. Qed.

  Lemma upd_inv : board_inv b'.
  Proof.
    rewrite (proj1 upd_cases). destruct HB1 as (N1 & N2 & _). repeat split.
    - rewrite firstn_length. lia.
    - unfold addrs. rewrite <- firstn_map. apply NoDup_firstn.
      apply (Permutation_NoDup (Permutation_sym (Permutation_map fst (insert_at_perm pos (t, v) b1)))).
      constructor; assumption.
    - apply desc_firstn, ins_desc.
  Qed.

  Lemma upd_sub x : In x b' -> x = (t, v) \/ (In x b /\ fst x <> t).
  Proof. rewrite (proj1 upd_cases). intros H. apply ins_In, (in_firstn x 5), H. Qed.

  Lemma upd_keep x : In x ins -> In x b' \/ (length b' = 5%nat /\ forall y, In y b' -> snd x <= snd y).
  Proof. rewrite (proj1 upd_cases). apply desc_firstn_or, ins_desc. Qed.

  Lemma upd_off x : x = (t, v) \/ (In x b /\ fst x <> t) -> ~ In (fst x) (addrs b') -> snd x <= floor_of b'.
  Proof.
    intros Hx Hn. destruct (upd_keep x (proj2 (ins_In x) Hx)) as [H|[L5 Hall]]; [|apply floor_of_ge; assumption].
    exfalso. apply Hn, in_map, H.
  Qed.

  Lemma upd_others x : In x b -> fst x <> t ->
    In x b' \/ (length b' = 5%nat /\ forall y, In y b' -> snd x <= snd y).
  Proof. intros Hx Hne. apply upd_keep, ins_In. auto. Qed.

  Lemma upd_trader :
    In (t, v) b' \/ (b' = b /\ ~ In t (addrs b) /\ length b = 5%nat /\ forall y, In y b -> v <= snd y).
  Proof.
    destruct upd_cases as (E & [P|(P & Eb & Hn & L5 & F)]).
    - left. rewrite E. unfold ins, insert_at. destruct HP as (LP & _).
      rewrite firstn_app. rewrite firstn_length. rewrite Nat.min_l by exact LP.
      apply in_or_app. right. destruct (5 - pos)%nat eqn:E5; [lia|]. simpl. left. reflexivity.
    - right. rewrite Forall_forall in F. auto.
  Qed.

  Lemma upd_length : (length b <= length b')%nat.
  Proof.
    rewrite (proj1 upd_cases). unfold ins. rewrite firstn_length, insert_at_length.
    destruct HB as (L & _), HB1 as (_ & _ & _ & [[_ L1]|[_ ->]]); lia.
  Qed.

  Lemma upd_newcomer : ~ In t (addrs b) -> In (t, v) b' -> length b = 5%nat -> snd (last b (0, 0)) < v.
  Proof.
    intros Hn Hin L5. destruct upd_cases as (_ & [P|(P & E & _)]).
    - destruct HP as (LP & _ & F2), HB1 as (_ & _ & D1 & [[Hi _]|[_ E1]]); [contradiction|]. rewrite E1 in *.
      (* some entry stands behind the insert position: it is below v, and the last entry is below it *)
      destruct (skipn pos b) as [|x r] eqn:Es.
      { apply (f_equal (@length _)) in Es. rewrite skipn_length in Es. simpl in Es. lia. }
      assert (Hx : In x b) by (apply (in_skipn x pos); rewrite Es; left; reflexivity).
      pose proof (desc_last_min b (0, 0) x D1 Hx). pose proof (Forall_inv F2) as Hlt. simpl in Hlt. lia.
    - exfalso. apply Hn. rewrite E in Hin. apply In_addrs. eauto.
  Qed.
  (* The floor does not sink: a full new board holds old entries and (t, v), and v is at least the
     trader's old entry, or above the old last entry if the trader is new. *)
  Lemma upd_floor : (forall x, In x b -> 0 <= snd x) -> 0 <= v -> (forall w, In (t, w) b -> w <= v) ->
    floor_of b <= floor_of b'.
  Proof.
    intros P Hv Hold. destruct HB as (L & _ & D). destruct (Nat.eqb_spec (length b') 5) as [E5|E5].
    - apply floor_of_ge; [exact E5|]. intros y Hy.
      destruct (upd_sub y Hy) as [->|[Hy' _]]; [|exact (floor_of_le b y D P Hy')].
      cbn [snd]. destruct (in_dec Z.eq_dec t (addrs b)) as [Hin|Hnin].
      + apply In_addrs in Hin as (w & Hw). pose proof (floor_of_le b (t, w) D P Hw). specialize (Hold w Hw). cbn [snd] in *. lia.
      + unfold floor_of. destruct (Nat.eqb_spec (length b) 5) as [L5|]; [|exact Hv].
        pose proof (upd_newcomer Hnin Hy L5). lia.
    - unfold floor_of. rewrite (proj2 (Nat.eqb_neq _ _) E5). destruct (Nat.eqb_spec (length b) 5); [|lia].
      pose proof upd_length. destruct upd_inv as (L' & _). lia.
  Qed.
End Upd.

Lemma pget_pset ps a p x : pget (pset ps a p) x = if x =? a then Some p else pget ps x.
Proof.
  induction ps as [|[y q] ps IH]; simpl.
  - rewrite (Z.eqb_sym a x). reflexivity.
  - destruct (y =? a) eqn:E; simpl.
    + assert (y = a) by lia. subst y. rewrite (Z.eqb_sym a x). destruct (x =? a); reflexivity.
    + rewrite IH. destruct (y =? x) eqn:E2; [|reflexivity].
      assert (y = x) by lia. subst y. rewrite E. reflexivity.
Qed.

Lemma pget_pdel ps a x : pget (pdel ps a) x = if x =? a then None else pget ps x.
Proof.
  induction ps as [|[y q] ps IH]; simpl.
  - destruct (x =? a); reflexivity.
  - destruct (y =? a) eqn:E; simpl.
    + rewrite IH. destruct (x =? a) eqn:E1; [reflexivity|]. destruct (y =? x) eqn:E2; [lia|reflexivity].
    + rewrite IH. destruct (y =? x) eqn:E2; [|reflexivity]. assert (y = x) by lia. subst y. rewrite E. reflexivity.
Qed.

Definition board (s : state) : list entry := c_board (s_comp s).

Record Inv (s : state) : Prop := mkInv {
  inv_board : board_inv (board s);
  inv_range : forall a p, pget (s_parts s) a = Some p -> 0 <= p_vol p <= U128MAX;
  (* every entry shows the participant's current volume *)
  inv_latest : forall a w, In (a, w) (board s) -> exists p, pget (s_parts s) a = Some p /\ p_vol p = w;
  (* a participant that is not shown has no more volume than the last entry of a full board
     (and no volume at all while the board is not full) *)
  inv_off : forall a p, pget (s_parts s) a = Some p -> ~ In a (addrs (board s)) -> p_vol p <= floor_of (board s)
}.

Lemma board_nonneg s x : Inv s -> In x (board s) -> 0 <= snd x.
Proof. intros I Hx. destruct x as [a w]. destruct (inv_latest s I a w Hx) as (p & Hp & <-). apply (inv_range s I a p Hp). Qed.

Lemma Inv_update s c' t p p' :
  Inv s -> pget (s_parts s) t = Some p ->
  p_vol p <= p_vol p' <= U128MAX ->
  c_board c' = update_leaderboard (board s) t (p_vol p') ->
  Inv (mkstate c' (pset (s_parts s) t p')).
Proof.
  intros I Hp Hv Hb.
  pose proof (inv_board s I) as HB.
  pose proof (inv_range s I t p Hp) as Hr.
  set (v := p_vol p') in *. set (b := board s) in *. set (b' := update_leaderboard b t v) in *.
  assert (Hmono : floor_of b <= floor_of b').
  { apply (upd_floor b t v HB); [intros x; apply board_nonneg, I|lia|].
    intros w Hw. destruct (inv_latest s I t w Hw) as (q & Hq & <-). rewrite Hp in Hq. injection Hq as <-. lia. }
  constructor; unfold board; simpl; try rewrite Hb.
  - apply upd_inv. exact HB.
  - intros a q. rewrite pget_pset. destruct (a =? t); [|apply (inv_range s I)].
    intros [= <-]. fold v. lia.
  - intros a w Hin. rewrite pget_pset. destruct (upd_sub b t v HB (a, w) Hin) as [[= -> ->]|[H Hne]].
    + rewrite Z.eqb_refl. eauto.
    + destruct (Z.eqb_spec a t); [contradiction|]. apply (inv_latest s I a w H).
  - intros a q. rewrite pget_pset. destruct (Z.eqb_spec a t) as [->|Hne].
    + intros [= <-] Hnin. apply (upd_off b t v HB (t, v)); auto.
    + intros Hq Hnin. destruct (in_dec Z.eq_dec a (addrs b)) as [Hin|Hnin'].
      * apply In_addrs in Hin as (w & Hw).
        destruct (inv_latest s I a w Hw) as (q' & Hq' & <-). rewrite Hq in Hq'. injection Hq' as <-.
        apply (upd_off b t v HB (a, p_vol q)); auto.
      * pose proof (inv_off s I a q Hq Hnin'). fold b in H. lia.
Qed.

Lemma Inv_create s t now : Inv s -> pget (s_parts s) t = None ->
  Inv (mkstate (s_comp s) (pset (s_parts s) t (mkpart 0 now 0))).
Proof.
  intros I Hp. constructor; unfold board; simpl.
  - apply (inv_board s I).
  - intros a q. rewrite pget_pset. destruct (a =? t); [|apply (inv_range s I)].
    intros [= <-]. simpl. unfold U128MAX. lia.
  - intros a w Hin. rewrite pget_pset. destruct (Z.eqb_spec a t) as [->|]; [|apply (inv_latest s I a w Hin)].
    destruct (inv_latest s I t w Hin) as (q & Hq & _). congruence.
  - intros a q. rewrite pget_pset. destruct (a =? t); [|apply (inv_off s I)].
    intros [= <-] _. apply floor_of_nonneg. intros x. apply board_nonneg, I.
Qed.

Lemma Inv_close s t : Inv s -> board s = [] -> Inv (mkstate (s_comp s) (pdel (s_parts s) t)).
Proof.
  intros I Hb. constructor; unfold board in *; simpl; rewrite ?Hb.
  - split; [simpl; lia|split; constructor].
  - intros a q. rewrite pget_pdel. destruct (a =? t); [discriminate|apply (inv_range s I)].
  - intros a w [].
  - intros a q. rewrite pget_pdel. destruct (a =? t); [discriminate|].
    intros Hq _. pose proof (inv_off s I a q Hq) as H. unfold board in H. rewrite Hb in H. apply H. intros [].
Qed.

Lemma trade_volume_nonneg oi x y : 0 <= trade_volume oi x y.
Proof. unfold trade_volume. destruct oi; lia. Qed.

Lemma sat_u128_add v d : 0 <= v <= U128MAX -> 0 <= d -> v <= sat_u128 (v + d) <= U128MAX.
Proof. unfold sat_u128, U128MAX. intros. lia. Qed.

Lemma apply_trade_spec c t p now vol c' p' :
  apply_trade c t p now vol = (c', p') ->
  p_vol p' = sat_u128 (p_vol p + vol) /\
  c_board c' = update_leaderboard (c_board c) t (p_vol p') /\
  c_start c' = c_start c /\ c_cap c' = c_cap c /\ c_dur c' = c_dur c /\
  (c_end c' = c_end c \/ c_end c' = extend_end (c_end c) (c_dur c) (c_cap c) now).
Proof.
  unfold apply_trade. intros H.
  destruct (sat_i64 (now - p_last p) <=? c_win c);
    [destruct (c_thr c <=? sat_u128 (p_merged p + vol))|destruct (c_thr c <=? vol)];
    injection H as <- <-; simpl; auto 10.
Qed.

Lemma step_trade_inv s t now success ev cv kind extra auth_ok s' :
  step s (Trade t now success ev cv kind extra auth_ok) = Ok s' ->
  s' = s \/
  exists p vol c' p', is_ongoing (s_comp s) now = true /\ pget (s_parts s) t = Some p /\ 0 < vol /\
    apply_trade (s_comp s) t p now vol = (c', p') /\ s' = mkstate c' (pset (s_parts s) t p').
Proof.
  cbn [step]. intro H. destruct auth_ok; [|discriminate].
  destruct (cv =? 0); [|discriminate]. destruct (kind =? ORDER_KIND); [|discriminate]. cbn [negb] in H.
  destruct (extra <? 2); [discriminate|].
  destruct success; cbn [negb] in H; [|left; congruence].
  destruct (is_ongoing (s_comp s) now); cbn [negb] in H; [|left; congruence].
  destruct ev as [[[user before] after]|]; [|left; congruence].
  destruct (user =? t); cbn [negb] in H; [|discriminate].
  pose proof (trade_volume_nonneg (c_only_inc (s_comp s)) before after) as Hv.
  destruct (Z.eqb_spec (trade_volume (c_only_inc (s_comp s)) before after) 0); [left; congruence|].
  destruct (pget (s_parts s) t) as [p|]; [|discriminate].
  destruct (apply_trade (s_comp s) t p now (trade_volume (c_only_inc (s_comp s)) before after)) as [c' p'] eqn:EA.
  injection H as <-. right. exists p, (trade_volume (c_only_inc (s_comp s)) before after), c', p'.
  repeat split; auto. lia.
Qed.

Lemma step_create_inv s t now s' : step s (Create t now) = Ok s' ->
  s' = s \/ (pget (s_parts s) t = None /\ s' = mkstate (s_comp s) (pset (s_parts s) t (mkpart 0 now 0))).
Proof.
  cbn [step]. destruct (pget (s_parts s) t); [left; congruence|].
  destruct (t =? 0); [discriminate|]. intros [= <-]. auto.
Qed.

Lemma step_close_inv s t now s' : step s (Close t now) = Ok s' ->
  (now < c_start (s_comp s) \/ c_end (s_comp s) < now) /\ s' = mkstate (s_comp s) (pdel (s_parts s) t).
Proof.
  cbn [step]. destruct (pget (s_parts s) t); [|discriminate].
  destruct (Z.ltb_spec now (c_start (s_comp s))); [intros [= <-]; auto|].
  destruct (Z.ltb_spec (c_end (s_comp s)) now); [intros [= <-]; auto|discriminate].
Qed.

Definition not_close (o : op) : Prop := match o with Close _ _ => False | _ => True end.

Lemma step_Inv s o s' : Inv s -> not_close o -> step s o = Ok s' -> Inv s'.
Proof.
  intros I NC H. destruct o as [t now success ev cv kind extra auth_ok|t now|t now]; [| |destruct NC].
  - apply step_trade_inv in H as [->|(p & vol & c' & p' & _ & Hp & Hv & EA & ->)]; [exact I|].
    apply apply_trade_spec in EA as (Ev & Eb & _). pose proof (inv_range s I t p Hp).
    eapply Inv_update; eauto. rewrite Ev. apply sat_u128_add; lia.
  - apply step_create_inv in H as [->|(Hp & ->)]; [exact I|apply Inv_create; assumption].
Qed.

Lemma step_vol_mono s o s' a p : Inv s -> not_close o -> step s o = Ok s' ->
  pget (s_parts s) a = Some p -> exists p', pget (s_parts s') a = Some p' /\ p_vol p <= p_vol p'.
Proof.
  intros I NC H Ha. destruct o as [t now success ev cv kind extra auth_ok|t now|t now]; [| |destruct NC].
  - apply step_trade_inv in H as [->|(q & vol & c' & p' & _ & Hq & Hv & EA & ->)]; [exists p; split; [auto|lia]|].
    apply apply_trade_spec in EA as (Ev & _). simpl. rewrite pget_pset.
    destruct (Z.eqb_spec a t) as [->|]; [|exists p; split; [auto|lia]].
    rewrite Hq in Ha. injection Ha as ->. exists p'. split; [reflexivity|].
    pose proof (inv_range s I t p Hq). rewrite Ev. apply sat_u128_add; lia.
  - apply step_create_inv in H as [->|(Hp & ->)]; [exists p; split; [auto|lia]|]. simpl. rewrite pget_pset.
    destruct (Z.eqb_spec a t) as [->|]; [congruence|]. exists p; split; [auto|lia].
Qed.

Lemma step_total_Inv s o : Inv s -> not_close o -> Inv (step_total s o).
Proof. intros I NC. unfold step_total. destruct (step s o) eqn:E; [eapply step_Inv; eauto|exact I]. Qed.

Theorem Inv_run_no_close ops : forall s, Inv s -> Forall not_close ops -> Inv (run s ops).
Proof.
  intros s I F. rewrite Forall_forall in F. unfold run. apply fold_left_inv; [|exact I].
  intros a o Ho Ia. exact (step_total_Inv a o Ia (F o Ho)).
Qed.

Lemma Inv_init start end_ thr dur cap oi win : Inv (init_state start end_ thr dur cap oi win).
Proof.
  constructor; unfold board; simpl.
  - repeat split; [simpl; lia|constructor|constructor].
  - intros a p H; discriminate.
  - intros a w [].
  - intros a p H; discriminate.
Qed.

Lemma extend_end_ge e d c n : e <= extend_end e d c n.
Proof. unfold extend_end. lia. Qed.

Lemma extend_end_bounds e d c n : I64MIN <= e -> e <= extend_end e d c n <= Z.max e (n + c).
Proof. unfold extend_end, sat_i64, I64MIN, I64MAX. intros. lia. Qed.

Lemma extend_end_range e d c n : I64MIN <= e <= I64MAX -> I64MIN <= extend_end e d c n <= I64MAX.
Proof. unfold extend_end, sat_i64, I64MIN, I64MAX. intros. lia. Qed.

Lemma step_frame s o s' : step s o = Ok s' ->
  c_start (s_comp s') = c_start (s_comp s) /\ c_cap (s_comp s') = c_cap (s_comp s) /\
  c_end (s_comp s) <= c_end (s_comp s') /\
  (is_ongoing (s_comp s) (op_now o) = false -> s_comp s' = s_comp s).
Proof.
  intros H. destruct o as [t now success ev cv kind extra auth_ok|t now|t now]; simpl op_now.
  - apply step_trade_inv in H as [->|(p & vol & c' & p' & EO & _ & _ & EA & ->)]; [repeat split; auto; lia|].
    apply apply_trade_spec in EA as (_ & _ & Es & Ec & _ & Ee). simpl. rewrite EO.
    repeat split; auto; [|discriminate]. destruct Ee as [->| ->]; [lia|apply extend_end_ge].
  - apply step_create_inv in H as [->|(_ & ->)]; simpl; repeat split; auto; lia.
  - apply step_close_inv in H as (_ & ->). simpl. repeat split; auto; lia.
Qed.

Fixpoint mono_from (t : Z) (ops : list op) : Prop :=
  match ops with [] => True | o :: r => t <= op_now o /\ mono_from (op_now o) r end.
Fixpoint last_time (t : Z) (ops : list op) : Z :=
  match ops with [] => t | o :: r => last_time (op_now o) r end.

(* The invariant relative to the time tl of the last instruction.  A participant can close only before
   the start (the board is still empty) or after the end; after the end a shown participant may go, so
   [Inv] is claimed only up to the end time and afterwards the shape of the board alone.  This needs a
   monotone clock: a close after the end followed by an earlier trade would break [Inv]. *)
Definition TInv (tl : Z) (s : state) : Prop :=
  board_inv (board s) /\ c_start (s_comp s) <= c_end (s_comp s) /\
  (tl <= c_end (s_comp s) -> Inv s) /\
  (tl < c_start (s_comp s) -> board s = []).

Lemma step_total_TInv tl s o : TInv tl s -> tl <= op_now o -> TInv (op_now o) (step_total s o).
Proof.
  intros (HB & HSE & HI & HE) Ht. unfold step_total. destruct (step s o) as [s'|e] eqn:E.
  2:{ split; [exact HB|split; [exact HSE|split]]; intros; [apply HI|apply HE]; lia. }
  destruct (step_frame s o s' E) as (Es & _ & Ee & Hout).
  assert (Hsame : not_close o -> s_comp s' = s_comp s -> TInv (op_now o) s').
  { intros NC EC. unfold TInv, board in *. rewrite EC. split; [exact HB|split; [exact HSE|split]].
    - intros Hle. apply (step_Inv s o s'); [apply HI; lia|exact NC|exact E].
    - intros Hlt. apply HE. lia. }
  destruct o as [t now success ev cv kind extra auth_ok|t now|t now]; simpl op_now in *.
  - destruct (is_ongoing (s_comp s) now) eqn:EO; [|apply Hsame; [exact I|apply Hout; reflexivity]].
    apply andb_prop in EO as [E1 E2].
    assert (I' : Inv s') by (refine (step_Inv _ _ _ (HI _) _ E); [lia|exact I]).
    split; [apply (inv_board s' I')|split; [lia|split]]; [intros _; exact I'|intros; lia].
  - apply Hsame; [exact I|]. apply step_create_inv in E as [->|(_ & ->)]; reflexivity.
  - apply step_close_inv in E as (EW & ->). unfold TInv, board in *. simpl in *.
    split; [exact HB|split; [exact HSE|split]].
    + intros Hle. destruct EW as [EW|EW]; [|lia]. apply Inv_close; [apply HI|apply HE]; lia.
    + intros Hlt. apply HE. lia.
Qed.

Theorem TInv_run ops : forall tl s, TInv tl s -> mono_from tl ops -> TInv (last_time tl ops) (run s ops).
Proof.
  induction ops as [|o ops IH]; intros tl s HT HM; [exact HT|]. destruct HM as [H1 H2].
  unfold run. simpl. apply IH; [apply (step_total_TInv tl); assumption|exact H2].
Qed.

Lemma TInv_init t0 start end_ thr dur cap oi win :
  init_rc t0 start end_ thr dur cap win = 0 -> TInv t0 (init_state start end_ thr dur cap oi win).
Proof.
  intros H. unfold init_rc in H.
  destruct (t0 <? start) eqn:E1; simpl in H; [|discriminate].
  destruct (start <? end_) eqn:E2; simpl in H; [|discriminate].
  split; [|split; [|split]]; unfold board; simpl; try lia.
  - split; [simpl; lia|split; constructor].
  - intros _. apply Inv_init.
  - reflexivity.
Qed.

Lemma frozen_after_end s o : c_end (s_comp s) < op_now o -> s_comp (step_total s o) = s_comp s.
Proof.
  intros H. unfold step_total. destruct (step s o) as [s'|] eqn:E; [|reflexivity].
  apply (step_frame s o s' E). unfold is_ongoing. apply andb_false_intro2. lia.
Qed.

Theorem step_end_bounds s o s' : I64MIN <= c_end (s_comp s) -> step s o = Ok s' ->
  c_end (s_comp s) <= c_end (s_comp s') <= Z.max (c_end (s_comp s)) (op_now o + c_cap (s_comp s)) /\
  (c_end (s_comp s') <> c_end (s_comp s) -> exists t sc ev cv k x au, o = Trade t (op_now o) sc ev cv k x au).
Proof.
  intros HR H. pose proof (step_frame s o s' H) as (_ & _ & Hge & _).
  destruct o as [t now success ev cv kind extra auth_ok|t now|t now]; simpl op_now.
  - split; [|intros _; eauto 10].
    apply step_trade_inv in H as [->|(p & vol & c' & p' & _ & _ & _ & EA & ->)]; [lia|].
    apply apply_trade_spec in EA as (_ & _ & _ & _ & _ & Ee). simpl in *.
    destruct Ee as [->| ->]; [lia|apply extend_end_bounds; exact HR].
  - apply step_create_inv in H as [->|(_ & ->)]; simpl; split; try lia; congruence.
  - apply step_close_inv in H as (_ & ->). simpl. split; [lia|congruence].
Qed.

Theorem run_end_bounds ops : forall s tmax, I64MIN <= c_end (s_comp s) ->
  Forall (fun o => op_now o <= tmax) ops ->
  c_end (s_comp s) <= c_end (s_comp (run s ops)) <= Z.max (c_end (s_comp s)) (tmax + c_cap (s_comp s)) /\
  c_cap (s_comp (run s ops)) = c_cap (s_comp s).
Proof.
  intros s tmax HR HF. rewrite Forall_forall in HF. unfold run. apply fold_left_inv; [|split; [lia|reflexivity]].
  intros s1 o Ho ((C1 & C2) & C3). unfold step_total. destruct (step s1 o) as [s2|e] eqn:E; [|auto].
  pose proof (step_end_bounds s1 o s2 ltac:(lia) E) as ((B1 & B2) & _).
  pose proof (step_frame s1 o s2 E) as (_ & Ecap & _ & _). specialize (HF o Ho).
  rewrite Ecap, C3 in *. split; [lia|reflexivity].
Qed.

Definition top_board (s : state) : Prop :=
  (length (board s) <= 5)%nat /\ NoDup (addrs (board s)) /\
  (forall i j, (i < j < length (board s))%nat -> snd (nth j (board s) (0, 0)) <= snd (nth i (board s) (0, 0))).
Definition shows_latest (s : state) : Prop :=
  forall a w, In (a, w) (board s) -> exists p, pget (s_parts s) a = Some p /\ p_vol p = w.
Definition off_board_bounded (s : state) : Prop :=
  forall a p, pget (s_parts s) a = Some p -> ~ In a (addrs (board s)) ->
    (length (board s) = 5%nat -> p_vol p <= snd (last (board s) (0, 0))) /\
    (length (board s) <> 5%nat -> p_vol p = 0).

Lemma board_inv_top s : board_inv (board s) -> top_board s.
Proof. intros (L & N & D). repeat split; auto. apply desc_nth. exact D. Qed.

Lemma Inv_readable s : Inv s -> top_board s /\ shows_latest s /\ off_board_bounded s.
Proof.
  intros I. split; [apply board_inv_top, (inv_board s I)|split].
  - exact (inv_latest s I).
  - intros a p Hp Hn. pose proof (inv_off s I a p Hp Hn) as H. pose proof (inv_range s I a p Hp) as R.
    unfold floor_of in H. split; intros L.
    + rewrite L in H. exact H.
    + apply Nat.eqb_neq in L. rewrite L in H. lia.
Qed.

Theorem history_no_close s ops : Inv s -> Forall not_close ops ->
  let s' := run s ops in top_board s' /\ shows_latest s' /\ off_board_bounded s'.
Proof. intros I F. apply Inv_readable. apply Inv_run_no_close; assumption. Qed.

Theorem history_monotone_clock t0 start end_ thr dur cap oi win ops :
  init_rc t0 start end_ thr dur cap win = 0 -> mono_from t0 ops ->
  let s' := run (init_state start end_ thr dur cap oi win) ops in
  top_board s' /\
  (last_time t0 ops <= c_end (s_comp s') -> shows_latest s' /\ off_board_bounded s').
Proof.
  intros Hi Hm s'. destruct (TInv_run ops t0 _ (TInv_init t0 start end_ thr dur cap oi win Hi) Hm) as (HB & _ & HI & _).
  split; [apply board_inv_top; exact HB|]. intros Hle. apply Inv_readable. apply HI. exact Hle.
Qed.

Theorem run_frozen_after_end ops : forall s, Forall (fun o => c_end (s_comp s) < op_now o) ops ->
  s_comp (run s ops) = s_comp s.
Proof.
  intros s F. rewrite Forall_forall in F. unfold run.
  apply (fold_left_inv step_total (fun s' => s_comp s' = s_comp s)); [|reflexivity].
  intros a o Ho E. rewrite <- E. apply frozen_after_end. rewrite E. exact (F o Ho).
Qed.

Theorem history_volumes_monotone ops : forall s a p, Inv s -> Forall not_close ops ->
  pget (s_parts s) a = Some p -> exists p', pget (s_parts (run s ops)) a = Some p' /\ p_vol p <= p_vol p'.
Proof.
  intros s a p I F Ha. rewrite Forall_forall in F. unfold run.
  refine (proj2 (fold_left_inv step_total
    (fun s' => Inv s' /\ exists p', pget (s_parts s') a = Some p' /\ p_vol p <= p_vol p') ops _ s _)).
  - intros s1 o Ho (I1 & q & Hq & Hle). split; [exact (step_total_Inv s1 o I1 (F o Ho))|].
    unfold step_total. destruct (step s1 o) as [s2|] eqn:E; [|eauto].
    destruct (step_vol_mono s1 o s2 a q I1 (F o Ho) E Hq) as (p' & Hp' & Hle'). exists p'. split; [exact Hp'|lia].
  - split; [exact I|]. exists p. split; [exact Ha|lia].
Qed.
