(* C06 — markets without open positions: there is no pnl to cap and there are no pending borrowing fees. *)
From GV Require Import lib.Base lib.DivLemmas C01.Proofs MK.Market MK.Liquidity MK.MarketProofs MK.SwapProofs
  C06.PoolValue.
Open Scope Z_scope.

(* no open interest (usd and tokens, both sides) and nothing borrowed *)
Definition no_oi (s : mstate) : Prop :=
  oi_long s = mkPool 0 0 /\ oi_short s = mkPool 0 0 /\ oit_long s = mkPool 0 0 /\ oit_short s = mkPool 0 0 /\
  total_borrowing s = mkPool 0 0.

Lemma no_oi_same_rest a b : same_rest a b -> no_oi a -> no_oi b.
Proof. unfold same_rest, no_oi. intuition congruence. Qed.

Section P.
  Variable w : Z.
  Hypothesis Hw : 1 <= w.
  Variable unit : Z.
  Hypothesis Hunit : 0 < unit.
  Variable cfg : config.

  Let P2 : 0 < 2 ^ w. Proof. apply pow2_pos; lia. Qed.

  Lemma chk_u_0 : chk_u w 0 = Some 0.
  Proof. apply chk_u_some. lia. Qed.

  Lemma merged_0 : merged w (mkPool 0 0) = Ok 0.
  Proof. unfold merged, uadd. cbn. rewrite chk_u_0. reflexivity. Qed.

  Lemma oi_amount_no_oi s il : no_oi s -> oi_amount w s il = Ok 0.
  Proof. intros (A & B & _). unfold oi_amount. destruct il; rewrite ?A, ?B; apply merged_0. Qed.
  Lemma oit_amount_no_oi s il : no_oi s -> oit_amount w s il = Ok 0.
  Proof. intros (_ & _ & A & B & _). unfold oit_amount. destruct il; rewrite ?A, ?B; apply merged_0. Qed.

  Lemma pnl_no_oi s index il mx : no_oi s -> pnl w s index il mx = Ok 0.
  Proof. intros H. unfold pnl. rewrite oi_amount_no_oi, oit_amount_no_oi by assumption. reflexivity. Qed.

  Lemma reserved_value_no_oi s index il : no_oi s -> reserved_value w s index il = Ok 0.
  Proof.
    intros H. unfold reserved_value. destruct il.
    - rewrite oit_amount_no_oi by assumption. cbn. unfold umul. cbn. rewrite chk_u_0. reflexivity.
    - apply oi_amount_no_oi; assumption.
  Qed.

  Lemma tpbf_no_oi s ps il x : no_oi s -> total_pending_borrowing_fees w unit cfg s ps il = Ok x -> x = 0.
  Proof.
    intros H E. pose proof H as (_ & _ & _ & _ & TB). unfold total_pending_borrowing_fees in E.
    rewrite oi_amount_no_oi in E by assumption. cbn [rbind] in E. rinv E.
    apply obind_some in E. destruct E as (t & E1 & E2).
    app apply_factor_zero E1. subst t. rewrite TB in E2. apply usub_some in E2. destruct il; cbn in E2; lia.
  Qed.

  Lemma same_pending_no_oi a b ps : no_oi a -> same_rest a b -> same_pending w unit cfg a b ps.
  Proof.
    intros H R il x y Ex Ey. apply (tpbf_no_oi _ _ _ _ H) in Ex. apply (tpbf_no_oi _ _ _ _ (no_oi_same_rest _ _ R H)) in Ey.
    congruence.
  Qed.

  (* without open positions there is no pnl to cap *)
  Lemma uncapped_no_oi s ps : no_oi s -> uncapped_market w unit cfg s ps.
  Proof.
    intros H k mx v _ E. apply pool_value_decomp in E; [|exact Hw].
    destruct E as (bl & bs & tbp & lp0 & lp & sp0 & sp & d & n & E1 & E2 & E3 & E4 & E5 & E6 & E7 & E8 & ->).
    pose proof E4 as E4'. pose proof E6 as E6'. rewrite pnl_no_oi in E4', E6' by assumption.
    injection E4' as <-. injection E6' as <-. injection E5 as <-. injection E7 as <-.
    exists bl, bs, tbp, 0, 0, d, n. auto 8.
  Qed.

  Lemma no_oi_follows a b ps : no_oi a -> follows_liquidity w unit cfg a b ps.
  Proof.
    intros H. split; [apply uncapped_no_oi, H|]. intros R.
    split; [apply uncapped_no_oi, (no_oi_same_rest _ _ R H)|apply same_pending_no_oi; assumption].
  Qed.
End P.
