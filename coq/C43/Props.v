(* C43 — property theorems.  Model: crates/sdk/src/utils/fixed.rs + the rust_decimal
   operations it calls (C43/Model.v).  Kinds k of round trip (Model.forward / Model.backward):
     0 unsigned_fixed_to_decimal / decimal_to_value           (u128, any decimals)
     1 signed_fixed_to_decimal   / decimal_to_signed_value    (i128)
     2 unsigned_amount_to_decimal/ decimal_to_amount          (u64)
     3 signed_amount_to_decimal  / decimal_to_signed_value    (i64)
     4 unsigned_value_to_decimal / decimal_to_value at 20 decimals (u128)
     5 signed_value_to_decimal   / decimal_to_signed_value at 20 decimals (i128)
   [kind_in_range k num] is the Rust input type; decimals range over all of u8. *)
From GV Require Import lib.Base C43.Model C43.Proofs.
Open Scope Z_scope.

(* Round trip, supported range: magnitude <= 2^96-1 and decimals <= 28 give back the original. *)
Theorem c43_roundtrip_supported : forall k num D,
  0 <= k <= 5 -> kind_in_range k num = true -> 0 <= D <= 255 -> (k <= 3 -> D <= 28) ->
  Z.abs num <= MAX_REPR ->
  roundtrip k num D = (FSome (mkDec (num <? 0) (Z.abs num) (kind_decimals k D)), Some (Ok num)).
Proof. exact roundtrip_supported. Qed.

(* Complete characterisation of every round trip, all inputs (u8 decimals):
   None exactly under the stated conditions; otherwise a valid Decimal that denotes
   trunc/10^D where trunc = the input with its low [drop] digits zeroed, and the way back
   returns trunc or "value is too big". *)
Theorem c43_roundtrip_characterised : forall k num D,
  0 <= k <= 5 -> kind_in_range k num = true -> 0 <= D <= 255 ->
  rt_out k num D (roundtrip k num D).
Proof. exact roundtrip_spec. Qed.

(* The forward conversions never panic: a scale that is still above 28 after the digits are cut is
   reported as None (class 3). *)
Theorem c43_forward_never_panics : forall k num D,
  0 <= k <= 5 -> kind_in_range k num = true -> 0 <= D <= 255 -> forward k num D <> FPanic.
Proof. exact forward_never_panics. Qed.

(* Outside classes 1 and 2 nothing is scaled or truncated: the Decimal denotes num/10^D exactly
   and the way back returns the original or an error. *)
Theorem c43_no_silent_loss_outside_classes : forall k num D d,
  0 <= k <= 5 -> kind_in_range k num = true -> 0 <= D <= 255 ->
  ~ class_truncated k num D -> ~ class_scaled k num D ->
  forward k num D = FSome d ->
  valid d /\ mantissa d * 10 ^ kind_decimals k D = num * 10 ^ dsc d /\
  (forall v, backward k d (kind_decimals k D) = Ok v -> v = num).
Proof. exact no_silent_loss_outside_classes. Qed.

(* Inside classes 1 and 2 the loss is real (so the classes are not wider than the defect). *)
Theorem c43_silent_loss_inside_classes : forall k num D d,
  0 <= k <= 5 -> kind_in_range k num = true -> 0 <= D <= 255 ->
  class_truncated k num D \/ class_scaled k num D ->
  forward k num D = FSome d ->
  mantissa d * 10 ^ kind_decimals k D <> num * 10 ^ dsc d.
Proof. exact silent_loss_inside_classes. Qed.

(* Errors of the way back after a successful forward conversion: only "value is too big", only
   for a zero amount at >= 67 decimals or an unsigned input above i128::MAX (class 5). *)
Theorem c43_backward_err : forall k num D d e,
  0 <= k <= 5 -> kind_in_range k num = true -> 0 <= D <= 255 ->
  forward k num D = FSome d ->
  backward k d (kind_decimals k D) = Err e ->
  e = 1 /\ ((dm d = 0 /\ 67 <= D /\ (k = 2 \/ k = 3)) \/ ((k = 0 \/ k = 4) /\ 2 ^ 127 <= num)).
Proof. exact backward_err. Qed.

(* Back conversion of an ARBITRARY valid Decimal (96-bit magnitude, scale <= 28) to any u8
   decimals: exact multiplication when decimals >= scale, half-up rounding otherwise; an error
   exactly when the image leaves i128 (or for zero at >= 67 decimals). *)
Theorem c43_rescale_to_mantissa_spec : forall d decimals, valid d -> 0 <= decimals <= 255 ->
  rescale_to_mantissa d decimals =
    if (dm d =? 0) && (67 <=? decimals) then Err 1
    else if in_s 128 (target d decimals) then Ok (target d decimals) else Err 1.
Proof. exact rescale_to_mantissa_spec. Qed.

(* ... and it never panics: the model has no panic site on the way back (the error messages format
   the value as it was before rescale); a panic of the real code shows as BPanic in the
   correspondence check (class 6). *)
Theorem c43_back_never_panics : forall d decimals, valid d -> 0 <= decimals <= 255 ->
  rescale_to_mantissa d decimals <> Err E_PANIC.
Proof. intros d decimals _ _. apply rescale_to_mantissa_no_panic. Qed.

(* the scale reached by rescale when scaling up (determines j uniquely) *)
Theorem c43_rescale_up_scale : forall d decimals, valid d -> dm d <> 0 -> dsc d < decimals ->
  exists j, 0 <= j /\ dsc (rescale d decimals) = dsc d + j /\ dsc d + j <= decimals /\
            dm d * 10 ^ j < 2 ^ 96 /\ (dsc d + j < decimals -> 2 ^ 96 <= dm d * 10 ^ (j + 1)).
Proof. exact rescale_up_scale. Qed.

(* the same for the way back of a round trip *)
Theorem c43_backward_never_panics : forall k num D d,
  0 <= k <= 5 -> kind_in_range k num = true -> 0 <= D <= 255 ->
  forward k num D = FSome d -> backward k d (kind_decimals k D) <> Err E_PANIC.
Proof. intros k num D d _ _ _ _. apply backward_no_panic. Qed.

(* rust_decimal's divide-and-round-on-the-last-remainder loop is floor + first dropped digit >= 5 *)
Theorem c43_rescale_down_closed : forall m diff, 0 <= m < 2 ^ 96 -> 1 <= diff ->
  rescale_down m diff = m / 10 ^ diff + (if 10 ^ diff <=? 2 * (m mod 10 ^ diff) then 1 else 0).
Proof. exact rescale_down_closed. Qed.

(* class 1 *)
Theorem c43_above96_truncated_refuted : exists num D d v,
  kind_in_range 1 num = true /\ 0 <= D <= 28 /\
  roundtrip 1 num D = (FSome d, Some (Ok v)) /\ v <> num /\
  mantissa d * 10 ^ D <> num * 10 ^ dsc d.
Proof.
  exists 70849174009812161477555991609872364776, 21,
         (mkDec false 7084917400981216147755599160 11), 70849174009812161477555991600000000000.
  vm_compute. repeat split; congruence.
Qed.
(* class 2 *)
Theorem c43_decimals_above28_scaled_refuted : exists num D d v,
  kind_in_range 2 num = true /\ 28 < D <= 255 /\
  roundtrip 2 num D = (FSome d, Some (Ok v)) /\ v <> num.
Proof.
  exists 18446744073709551615, 29, (mkDec false 1844674407370955161 28), 18446744073709551610.
  vm_compute. repeat split; congruence.
Qed.
(* class 3: u128::MAX at 48 decimals leaves scale 37 after 11 digits are cut: None *)
Example c43_ex_former_panic_is_none : forward 0 340282366920938463463374607431768211455 48 = FNone.
Proof. vm_compute. reflexivity. Qed.
(* class 4: representable (10^30 / 10^2 = 10^28 < 2^96) but rejected *)
Theorem c43_large_representable_rejected_refuted : exists num D m s,
  kind_in_range 0 num = true /\ 0 <= D <= 28 /\ 0 <= m <= MAX_REPR /\ 0 <= s <= 28 /\
  m * 10 ^ D = num * 10 ^ s /\ forward 0 num D = FNone.
Proof. exists (10 ^ 30), 2, (10 ^ 28), 0. vm_compute. repeat split; congruence. Qed.
(* class 5: exact Decimal, cannot come back *)
Theorem c43_back_above_i128_refuted : exists num D d,
  kind_in_range 0 num = true /\ 0 <= D <= 28 /\
  roundtrip 0 num D = (FSome d, Some (Err 1)) /\ mantissa d * 10 ^ D = num * 10 ^ dsc d.
Proof.
  exists (3 * 10 ^ 38), 20, (mkDec false (3 * 10 ^ 27) 9). vm_compute. repeat split; congruence.
Qed.

(* class 6: 1e-28 to 67 decimals has the image 10^39, outside i128: an error *)
Example c43_ex_former_back_panic_is_err : decimal_to_signed_value (mkDec false 1 28) 67 = Err 1.
Proof. vm_compute. reflexivity. Qed.

Example c43_ex_supported_nontrivial :
  roundtrip 1 (-429663361044608151) 20 = (FSome (mkDec true 429663361044608151 20), Some (Ok (-429663361044608151))).
Proof. vm_compute. reflexivity. Qed.
Example c43_ex_large_exact :   (* above 96 bits but no digit lost: round trip exact *)
  roundtrip 0 (79228162514264337593543950340 * 10) 10
  = (FSome (mkDec false 7922816251426433759354395034 8), Some (Ok (79228162514264337593543950340 * 10))).
Proof. vm_compute. reflexivity. Qed.
Example c43_ex_rescale_compensated :   (* fixed.rs test: dec!(1234567891) to 20 decimals *)
  decimal_to_signed_value (mkDec false 1234567891 0) 20 = Ok 123456789100000000000000000000.
Proof. vm_compute. reflexivity. Qed.
Example c43_ex_half_up : decimal_to_signed_value (mkDec false 145 2) 1 = Ok 15
                          /\ decimal_to_signed_value (mkDec false 1449 3) 1 = Ok 14.
Proof. vm_compute. split; reflexivity. Qed.
