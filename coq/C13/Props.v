From GV Require Import lib.Base C01.Model C13.Model C13.Proofs C13.History.
Open Scope Z_scope.

(* the per-second borrowing factor (exponent formula or kink model) is an unsigned machine number *)
Theorem c13_factor_per_second_unsigned : forall w, 1 <= w -> forall unit, 0 < unit -> forall c e l f,
  bfps w unit c e l = Ok f -> 0 <= f < 2 ^ w.
Proof. intros w Hw unit Hu. exact (bfps_range w Hw unit). Qed.

(* UpdateBorrowingState: both cumulative factors are >= their previous values; total_borrowing and
   everything else in the projection is untouched; the report tells the new factors *)
Theorem c13_cum_factor_monotone : forall w, 1 <= w -> forall unit, 0 < unit -> forall c e s now d nl ns s',
  cum_ok w s -> execute w unit c e s now = Ok (d, nl, ns, s') ->
  cum_l s <= cum_l s' /\ cum_s s <= cum_s s' /\ cum_ok w s' /\
  tb_l s' = tb_l s /\ tb_s s' = tb_s s /\ b_clock s' = now /\
  nl = cum_l s' /\ ns = cum_s s' /\ d = Z.max 0 (now - b_clock s).
Proof. intros w Hw unit Hu. exact (execute_monotone w Hw unit). Qed.

(* a position size change settles the position at the current cumulative factor and moves the
   side's total_borrowing by exactly floor(new*F/unit) - floor(old*bf/unit) *)
Theorem c13_position_change_exact : forall w, 1 <= w -> forall unit, 0 < unit -> forall s x n s' x',
  0 <= x_size x -> 0 <= x_bf x -> 0 <= n -> 0 <= cum s (x_long x) ->
  pos_change w unit s x n = Ok (s', x') ->
  x' = BP (x_long x) n (cum s (x_long x)) /\
  s' = set_tb s (x_long x) (tb s (x_long x) + n * cum s (x_long x) / unit - x_size x * x_bf x / unit) /\
  0 <= tb s' (x_long x) < 2 ^ w.
Proof. intros w Hw unit Hu. exact (pos_change_spec w Hw unit Hu). Qed.

(* Histories: for every interleaving of borrowing updates (any times, any market quantities) and
   position size changes (any positions, any new sizes), failed operations changing nothing:
     total_borrowing[side] = sum over positions of floor(size * factor-at-last-settle / unit)   (exactly)
     every position's factor <= the side's cumulative factor
     the cumulative factors are >= their initial values. *)
Theorem c13_total_borrowing_exact_over_histories : forall w, 1 <= w -> forall unit, 0 < unit -> forall c ops,
  Forall op_ok ops -> forall st, inv w unit st ->
  let st' := hrun w unit c st ops in
  inv w unit st' /\ cum_l (fst st) <= cum_l (fst st') /\ cum_s (fst st) <= cum_s (fst st').
Proof. intros w Hw unit Hu. exact (history_inv w Hw unit Hu). Qed.

(* "up to per-position rounding" against the un-rounded sum *)
Theorem c13_total_borrowing_rounding : forall w, 1 <= w -> forall unit, 0 < unit -> forall s xs l,
  inv w unit (s, xs) ->
  unit * tb s l <= zsum (exact l) xs <= unit * tb s l + (unit - 1) * zsum (one l) xs.
Proof. intros w Hw unit Hu. exact (total_borrowing_rounding w unit Hu). Qed.

(* total_pending_borrowing_fees: given the side's open interest is the sum of its position sizes
   (property C07), the subtraction never fails and the result is >= 0; the only failures are a
   failing per-second factor / factor overflow (next_cum) or an overflow of floor(OI*F/unit). *)
Theorem c13_pending_borrowing_defined_nonneg : forall w, 1 <= w -> forall unit, 0 < unit -> forall c e s xs l now,
  inv w unit (s, xs) -> e_oi e l = zsum (sizeof l) xs ->
  match total_pending w unit c e s l now with
  | Ok v => exists F d, next_cum w unit c e s l (elapsed s now) = Ok (F, d) /\ cum s l <= F /\
                        v = e_oi e l * F / unit - tb s l /\ 0 <= v
  | Err k => k <> 1 \/ (exists k', next_cum w unit c e s l (elapsed s now) = Err k') \/
             (exists F d, next_cum w unit c e s l (elapsed s now) = Ok (F, d) /\ 2 ^ w <= e_oi e l * F / unit)
  end.
Proof. intros w Hw unit Hu. exact (total_pending_nonneg w Hw unit Hu). Qed.

Theorem c13_history_pending_borrowing_nonneg : forall w, 1 <= w -> forall unit, 0 < unit -> forall c ops st e l now,
  Forall op_ok ops -> inv w unit st ->
  let st' := hrun w unit c st ops in
  e_oi e l = zsum (sizeof l) (snd st') ->
  match total_pending w unit c e (fst st') l now with
  | Ok v => 0 <= v
  | Err k => k <> 1 \/ (exists k', next_cum w unit c e (fst st') l (elapsed (fst st') now) = Err k') \/
             (exists F d, next_cum w unit c e (fst st') l (elapsed (fst st') now) = Ok (F, d) /\ 2 ^ w <= e_oi e l * F / unit)
  end.
Proof.
  intros w Hw unit Hu c ops st e l now Ho Hi st' Hoi.
  destruct (history_inv w Hw unit Hu c ops Ho st Hi) as (J & _). fold st' in J.
  destruct st' as [s' xs']. cbn [fst snd] in *.
  pose proof (total_pending_nonneg w Hw unit Hu c e s' xs' l now J Hoi) as HP.
  destruct (total_pending w unit c e s' l now) as [v|k]; [|exact HP].
  destruct HP as (F & d & _ & _ & _ & Hv). exact Hv.
Qed.

(* a position's own pending borrowing fee: floor(size*(F - bf)/unit) >= 0, fails only on overflow *)
Theorem c13_position_pending_nonneg : forall w, 1 <= w -> forall unit, 0 < unit -> forall s xs x,
  inv w unit (s, xs) -> In x xs ->
  match pos_pending w unit s x with
  | Ok v => v = x_size x * (cum s (x_long x) - x_bf x) / unit /\ 0 <= v
  | Err k => k = 1 /\ 2 ^ w <= x_size x * (cum s (x_long x) - x_bf x) / unit
  end.
Proof. intros w Hw unit Hu. exact (pos_pending_nonneg w Hw unit Hu). Qed.

Theorem c13_history_position_pending_nonneg : forall w, 1 <= w -> forall unit, 0 < unit -> forall c ops st x,
  Forall op_ok ops -> inv w unit st ->
  let st' := hrun w unit c st ops in
  In x (snd st') ->
  match pos_pending w unit (fst st') x with
  | Ok v => 0 <= v
  | Err k => k = 1 /\ 2 ^ w <= x_size x * (cum (fst st') (x_long x) - x_bf x) / unit
  end.
Proof.
  intros w Hw unit Hu c ops st x Ho Hi st' Hin.
  destruct (history_inv w Hw unit Hu c ops Ho st Hi) as (J & _). fold st' in J.
  destruct st' as [s' xs']. cbn [fst snd] in *.
  pose proof (pos_pending_nonneg w Hw unit Hu s' xs' x J Hin) as HP.
  destruct (pos_pending w unit s' x) as [v|k]; [tauto|exact HP].
Qed.

(* non-vacuity *)
Definition ex_cfg : bcfg := BC (10^9) (10^9) 28 28 true 750000000 19 47 750000000 19 47 (10^9) false (2^64 - 1).
Definition ex_env : benv := BE 400000000000 123 (50000 * 10^9) (20000 * 10^9) 1000000000000 100000000000000 123 1.
Definition ex_st : bstate * list bpos := (BS 1000 2000 0 0 100, [BP true 0 0; BP false 0 0; BP true 0 0]).
Definition ex_ops : list bop :=
  [OPos 0%nat (50000 * 10^9 + 7); OUpd 5000 ex_env; OPos 2%nat (333 * 10^9 + 1); OPos 1%nat (20000 * 10^9);
   OUpd 90000 ex_env; OPos 0%nat (25000 * 10^9 + 3); OUpd 90500 ex_env; OPos 2%nat 0].

Example c13_ex_inv : inv 64 (10^9) ex_st.
Proof. unfold inv, ex_st, cum_ok, pos_wf; cbn. repeat split; try lia; repeat constructor; cbn; lia. Qed.
Example c13_ex_bfps : bfps 64 (10^9) ex_cfg ex_env true = Ok 7 /\ bfps 64 (10^9) ex_cfg ex_env false = Ok 0.
Proof. vm_compute. split; reflexivity. Qed.
Example c13_ex_hist : hrun 64 (10^9) ex_cfg ex_st ex_ops =
  (BS 633800 2000 15757500000 40000000 90500, [BP true (25000 * 10^9 + 3) 630300; BP false (20000 * 10^9) 2000; BP true 0 633800]).
Proof. vm_compute. reflexivity. Qed.
