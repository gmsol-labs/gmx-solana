(* C20 — property theorems, about the model of Model.v (tied to the real entrypoints by
   harness/src/bin/c20.rs).  `is_keeper e` / `is_config_keeper e`: the caller is a member, has the role's
   bit and the role is enabled in the store.  All statements are for ALL environments, keys, values,
   updatable sets, configurations and buffers. *)
From GV Require Import lib.Base gen.C19Tables C20.Model C20.Proofs.
From Coq Require Import String.
Open Scope string_scope.
Open Scope Z_scope.

(* a market keeper may update ANY valid key (value or flag: V is arbitrary), updatable or not *)
Theorem c20_keeper_any_key : forall (V : Type) e valid upd (c : @cfg V) k v,
  signed e = true -> is_keeper e = true -> valid k = true ->
  update_one e true valid upd c k v = Ok (cset c k v).
Proof. exact @keeper_any_key. Qed.

(* a market-config keeper (who is not a market keeper) updates exactly the updatable keys
   — in a store whose MARKET_KEEPER role is enabled (see c20_mk_role_not_enabled_refuted below) *)
Theorem c20_config_keeper_only_updatable : forall (V : Type) e valid upd (c : @cfg V) k v,
  signed e = true -> is_keeper e = false -> is_config_keeper e = true -> mk_status e = Enabled -> valid k = true ->
  (upd k = true -> update_one e true valid upd c k v = Ok (cset c k v))
  /\ (upd k = false -> exists code, update_one e true valid upd c k v = Err code).
Proof. exact @config_keeper_only_updatable. Qed.

(* whenever an update is accepted the caller signed, the market belongs to the store, the key is valid, exactly
   that key was written, and the caller is a keeper or a config keeper with an updatable key — in EVERY store *)
Theorem c20_accepted_update_is_entitled : forall (V : Type) e store_ok valid upd (c c' : @cfg V) k v,
  update_one e store_ok valid upd c k v = Ok c' ->
  signed e = true /\ store_ok = true /\ valid k = true /\ c' = cset c k v
  /\ (is_keeper e = true \/ (is_config_keeper e = true /\ upd k = true)).
Proof. intros V e store_ok valid upd c c' k v E. apply update_one_ok_iff in E. tauto. Qed.

(* anyone else is rejected (single key, flag and buffer) *)
Theorem c20_others_rejected : forall (V : Type) e store_ok valid upd now b (c : @cfg V) k v,
  is_keeper e = false -> is_config_keeper e = false ->
  (exists code, update_one e store_ok valid upd c k v = Err code)
  /\ (exists code, update_with_buffer e store_ok upd now b c = Err code).
Proof. intros. split; [apply others_rejected_one|apply others_rejected_buffer]; assumption. Qed.

(* buffers are all-or-nothing for a config keeper: applied completely iff every entry is updatable *)
Theorem c20_buffer_all_or_nothing : forall (V : Type) e upd now b (c : @cfg V),
  signed e = true -> b_store_ok b = true -> b_owner_ok b = true -> now < b_expiry b ->
  is_keeper e = false -> is_config_keeper e = true -> mk_status e = Enabled ->
  (all_updatable upd (b_entries b) = true -> update_with_buffer e true upd now b c = Ok (writes c (b_entries b)))
  /\ (all_updatable upd (b_entries b) = false -> exists code, update_with_buffer e true upd now b c = Err code).
Proof. exact @buffer_all_or_nothing. Qed.

(* a keeper's buffer is applied completely iff every entry decodes *)
Theorem c20_keeper_buffer : forall (V : Type) e upd now b (c : @cfg V),
  signed e = true -> b_store_ok b = true -> b_owner_ok b = true -> now < b_expiry b -> is_keeper e = true ->
  (all_decodable (b_entries b) = true -> update_with_buffer e true upd now b c = Ok (writes c (b_entries b)))
  /\ (all_decodable (b_entries b) = false -> exists code, update_with_buffer e true upd now b c = Err code).
Proof. exact @keeper_buffer. Qed.

(* an accepted buffer was the caller's own, of this store, unexpired, applied in full, by an entitled caller *)
Theorem c20_accepted_buffer_is_entitled : forall (V : Type) e store_ok upd now b (c c' : @cfg V),
  update_with_buffer e store_ok upd now b c = Ok c' ->
  signed e = true /\ store_ok = true /\ b_store_ok b = true /\ b_owner_ok b = true /\ now < b_expiry b
  /\ c' = writes c (b_entries b)
  /\ (is_keeper e = true \/ (is_config_keeper e = true /\ all_updatable upd (b_entries b) = true)).
Proof. intros V e store_ok upd now b c c' E. apply buffer_ok_iff in E. tauto. Qed.

(* an expired buffer is never applied, whoever calls *)
Theorem c20_expired_never_applied : forall (V : Type) e store_ok upd now b (c : @cfg V),
  b_expiry b <= now -> exists code, update_with_buffer e store_ok upd now b c = Err code.
Proof. exact @expired_never_applied. Qed.

(* the updatable set follows grants and revocations: a request must change the bit, a successful request sets it to
   the requested value and touches no other key; after a revocation the config keeper is rejected for that key *)
Theorem c20_set_updatable_spec : forall valid upd k v upd', set_updatable valid upd k v = Ok upd' ->
  valid k = true /\ upd k = negb v /\ upd' k = v /\ forall k', k' <> k -> upd' k' = upd k'.
Proof. exact set_updatable_ok. Qed.
Theorem c20_set_updatable_must_change : forall valid upd k,
  set_updatable valid upd k (upd k) = Err E_PRECOND \/ valid k = false.
Proof. exact set_updatable_same_rejected. Qed.
Theorem c20_revoked_key_rejected : forall (V : Type) e valid upd upd' (c : @cfg V) k v,
  set_updatable valid upd k false = Ok upd' ->
  signed e = true -> is_keeper e = false -> is_config_keeper e = true -> mk_status e = Enabled ->
  exists code, update_one e true valid upd' c k v = Err code.
Proof. exact revoked_key_rejected. Qed.

(* FINDING (class 1, MarketKeeperRoleNotEnabled): where MARKET_KEEPER is disabled or was never created, every
   update is rejected — also the config keeper's request for an updatable key, which the property text grants *)
Theorem c20_mk_role_not_enabled_blocks_everyone : forall e valid upd (c : @cfg Z) k v,
  mk_status e <> Enabled -> exists code, update_one e true valid upd c k v = Err code.
Proof. exact (mk_not_enabled_blocks_everyone Z). Qed.

Lemma c20_mk_role_not_enabled_refuted :
  exists e k, signed e = true /\ is_config_keeper e = true /\
    update_one e true (fun _ => true) (fun _ => true) (fun _ => 0) k 5 = Err E_PRECOND.
Proof. exists (mkEnv Disabled Enabled true false true true), "funding_fee_min_factor_per_second". repeat split. Qed.

(* tie to the source: in the access table REGENERATED from lib.rs the three entrypoints carry exactly the
   attribute the model starts with — ensure_has_any_role([MARKET_KEEPER, MARKET_CONFIG_KEEPER]) on a Signer *)
Definition entry_guards : list (string * guard) :=
  map (fun i => (i_name i, i_guard i))
      (filter (fun i => String.eqb (i_prog i) "store" && String.prefix "update_market_config" (i_name i)) instructions).
Theorem c20_entry_guards :
  entry_guards = [("update_market_config", GAny ["MARKET_KEEPER"; "MARKET_CONFIG_KEEPER"]);
                  ("update_market_config_flag", GAny ["MARKET_KEEPER"; "MARKET_CONFIG_KEEPER"]);
                  ("update_market_config_with_buffer", GAny ["MARKET_KEEPER"; "MARKET_CONFIG_KEEPER"])].
Proof. vm_compute. reflexivity. Qed.

(* non-vacuity *)
Example c20_example_config_keeper :
  let e := mkEnv Enabled Enabled true false true true in
  let upd k := String.eqb k "reserve_factor" in
  update_one e true (fun _ => true) upd (fun _ => 0) "reserve_factor" 7 = Ok (cset (fun _ => 0) "reserve_factor" 7)
  /\ update_one e true (fun _ => true) upd (fun _ => 0) "min_collateral_value" 7 = Err E_PERM
  /\ update_with_buffer e true upd 10 (mkBuf true true 11 [(Some "reserve_factor", 1); (Some "min_collateral_value", 2)]) (fun _ => 0) = Err E_PERM
  /\ (exists c', update_with_buffer e true upd 10 (mkBuf true true 11 [(Some "reserve_factor", 1); (Some "reserve_factor", 2)]) (fun _ => 0) = Ok c' /\ c' "reserve_factor" = 2)
  /\ update_with_buffer e true upd 11 (mkBuf true true 11 [(Some "reserve_factor", 1)]) (fun _ => 0) = Err E_INVALID_ARG.
Proof. repeat split; try reflexivity. eexists. split; reflexivity. Qed.
