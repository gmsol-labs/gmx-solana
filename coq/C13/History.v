(* C13 — histories, pending borrowing fees, rounding bound. *)
From GV Require Import lib.Base lib.DivLemmas C01.Model C01.Proofs C13.Model C13.Proofs.
Open Scope Z_scope.

Section H.
  Variable w : Z.
  Hypothesis Hw : 1 <= w.
  Variable unit : Z.
  Hypothesis Hunit : 0 < unit.

  Theorem history_inv c ops : Forall op_ok ops -> forall st, inv w unit st ->
    let st' := hrun w unit c st ops in
    inv w unit st' /\ cum_l (fst st) <= cum_l (fst st') /\ cum_s (fst st) <= cum_s (fst st').
  Proof.
    intros Ho st Hi. unfold hrun.
    apply (fold_left_inv _ (fun s' => inv w unit s' /\ cum_l (fst st) <= cum_l (fst s') /\ cum_s (fst st) <= cum_s (fst s'))).
    - intros a o Hin (Ia & L1 & L2). rewrite Forall_forall in Ho.
      destruct (hstep_inv w Hw unit Hunit c a o (Ho o Hin) Ia) as (J & M1 & M2). split; [exact J|lia].
    - split; [exact Hi|lia].
  Qed.

  (* sum of per-position floors <= floor of (sum of sizes) * F, for any F above every position's factor *)
  Lemma zsum_contrib_le_floor l F xs : 0 <= F ->
    Forall (fun x => 0 <= x_size x /\ 0 <= x_bf x /\ (x_long x = l -> x_bf x <= F)) xs ->
    zsum (contrib unit l) xs <= zsum (sizeof l) xs * F / unit /\ 0 <= zsum (sizeof l) xs /\
    0 <= zsum (contrib unit l) xs.
  Proof.
    intros HF. induction 1 as [|x r (Hs & Hb & Hle) _ IH]; cbn [zsum].
    - rewrite Z.mul_0_l, Z.div_0_l by lia. lia.
    - destruct IH as (IH1 & IH2 & IH3). unfold contrib at 1 3, sizeof at 1 3.
      destruct (Bool.eqb (x_long x) l) eqn:E.
      + apply eqb_prop in E. specialize (Hle E).
        assert (0 <= x_size x * x_bf x / unit) by (apply div_nonneg; nia).
        assert (x_size x * x_bf x / unit <= x_size x * F / unit) by (apply div_mono_num; [lia|nia]).
        pose proof (div_add_super (x_size x * F) (zsum (sizeof l) r * F) unit Hunit) as HS.
        replace (x_size x * F + zsum (sizeof l) r * F) with ((x_size x + zsum (sizeof l) r) * F) in HS by ring.
        lia.
      + rewrite !Z.add_0_l. auto.
  Qed.

  (* OI hypothesis (property C07): the side's open interest is the sum of its position sizes *)
  Theorem total_pending_nonneg c e s xs l now : inv w unit (s, xs) ->
    e_oi e l = zsum (sizeof l) xs ->
    match total_pending w unit c e s l now with
    | Ok v => exists F d, next_cum w unit c e s l (elapsed s now) = Ok (F, d) /\ cum s l <= F /\
                          v = e_oi e l * F / unit - tb s l /\ 0 <= v
    | Err k => k <> 1 \/ (exists k', next_cum w unit c e s l (elapsed s now) = Err k') \/
               (exists F d, next_cum w unit c e s l (elapsed s now) = Ok (F, d) /\ 2 ^ w <= e_oi e l * F / unit)
    end.
  Proof.
    intros (T1 & T2 & F & C) Hoi. unfold total_pending.
    destruct (next_cum w unit c e s l (elapsed s now)) as [[nx d]|k] eqn:E; cbn [rbind].
    2:{ right. left. eauto. }
    pose proof E as E'. apply next_cum_spec in E'; [|assumption|unfold elapsed; lia].
    destruct E' as (D1 & -> & D3). cbn [fst].
    assert (HC : 0 <= cum s l) by (destruct C; unfold cum; destruct l; lia).
    assert (HB : zsum (contrib unit l) xs <= zsum (sizeof l) xs * (cum s l + d) / unit /\ 0 <= zsum (sizeof l) xs /\
                 0 <= zsum (contrib unit l) xs).
    { apply zsum_contrib_le_floor; [lia|]. eapply Forall_impl; [|exact F].
      intros x (A1 & A2 & A3). repeat split; try lia. intros <-. lia. }
    assert (HT : tb s l = zsum (contrib unit l) xs) by (unfold tb; destruct l; assumption).
    destruct (apply_factor w unit (e_oi e l) (cum s l + d)) as [t|] eqn:Ea; cbn [obind of_opt].
    - apply apply_factor_exact in Ea; [|lia..]. destruct Ea as [-> Hlt].
      destruct (usub w (e_oi e l * (cum s l + d) / unit) (tb s l)) as [v|] eqn:Eu; cbn [of_opt].
      + apply usub_some in Eu. destruct Eu as [Eu ->]. exists (cum s l + d), d. repeat split; try lia; reflexivity.
      + exfalso. apply chk_u_none in Eu. rewrite Hoi, HT in *. lia.
    - right. right. exists (cum s l + d), d. split; [reflexivity|].
      unfold apply_factor in Ea. apply mul_div_none in Ea; lia.
  Qed.

  Theorem pos_pending_nonneg s xs x : inv w unit (s, xs) -> In x xs ->
    match pos_pending w unit s x with
    | Ok v => v = x_size x * (cum s (x_long x) - x_bf x) / unit /\ 0 <= v
    | Err k => k = 1 /\ 2 ^ w <= x_size x * (cum s (x_long x) - x_bf x) / unit
    end.
  Proof.
    intros (_ & _ & F & C) Hin. rewrite Forall_forall in F. destruct (F x Hin) as (Hs & Hb1 & Hb2).
    assert (HC : cum s (x_long x) < 2 ^ w) by (destruct C; unfold cum; destruct (x_long x); lia).
    unfold pos_pending.
    replace (usub w (cum s (x_long x)) (x_bf x)) with (Some (cum s (x_long x) - x_bf x))
      by (symmetry; apply usub_some; lia).
    cbn [of_opt rbind].
    destruct (apply_factor w unit (x_size x) (cum s (x_long x) - x_bf x)) as [v|] eqn:E; cbn [of_opt].
    - apply apply_factor_exact in E; [|lia..]. destruct E as [-> _]. split; [reflexivity|]. apply div_nonneg; nia.
    - split; [reflexivity|]. unfold apply_factor in E. apply mul_div_none in E; lia.
  Qed.

  Theorem total_borrowing_rounding s xs l : inv w unit (s, xs) ->
    unit * tb s l <= zsum (exact l) xs <= unit * tb s l + (unit - 1) * zsum (one l) xs.
  Proof.
    intros (T1 & T2 & F & C).
    assert (HT : tb s l = zsum (contrib unit l) xs) by (unfold tb; destruct l; assumption).
    rewrite HT. clear T1 T2 HT C.
    induction F as [|x r (Hs & Hb & _) _ IH]; cbn [zsum].
    - lia.
    - unfold contrib, exact, one in *. destruct (Bool.eqb (x_long x) l).
      + pose proof (div_floor_spec (x_size x * x_bf x) unit Hunit). nia.
      + lia.
  Qed.
End H.
