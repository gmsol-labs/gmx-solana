(* PS — basic lemmas about the result monad and the checked helpers of PS/Model.v, shared by the C07..C11 proofs. *)
From GV Require Import lib.Base lib.DivLemmas C01.Model C01.Proofs PS.Model.
Open Scope Z_scope.

Ltac ok_inj H := lazymatch type of H with
  | of_opt _ _ = Ok _ => apply of_opt_ok in H
  | Ok _ = Ok _ => injection H as H end.

Lemma sadd_ok w a b r : sadd w a b = Some r <-> (- 2 ^ (w - 1) <= a + b < 2 ^ (w - 1) /\ r = a + b).
Proof. exact (sadd_some w a b r). Qed.

Lemma rsigned_ok w a r : rsigned w a = Ok r <-> (a < 2 ^ (w - 1) /\ r = a).
Proof. unfold rsigned. rewrite of_opt_ok. apply to_signed_some. Qed.

Lemma ropp_iff w a r : ropp w a = Ok r <-> (- 2 ^ (w - 1) < a < 2 ^ (w - 1) /\ r = - a).
Proof.
  unfold ropp. rewrite rbind_ok. setoid_rewrite rsigned_ok. setoid_rewrite of_opt_ok. setoid_rewrite sneg_some.
  split; [intros (s & [Hs ->] & H)|intros [H ->]; exists a]; lia.
Qed.

Lemma ropp_val w a r : ropp w a = Ok r -> r = - a.
Proof. intros H. apply ropp_iff in H. apply H. Qed.

Section L.
  Variable w : Z.
  Hypothesis Hw : 1 <= w.
  Variable unit : Z.
  Hypothesis Hunit : 0 < unit.

  Lemma ropp_ok a r : 0 <= a -> ropp w a = Ok r -> a < 2 ^ (w - 1) /\ r = - a.
  Proof using Hw. intros _ H. apply ropp_iff in H. split; apply H. Qed.

  Lemma af_ok v f r : 0 <= v -> 0 <= f -> af w unit v f = Ok r -> r = v * f / unit /\ 0 <= r < 2 ^ w.
  Proof.
    intros Hv Hf H. apply of_opt_ok, apply_factor_exact in H; try lia.
    destruct H as [-> H]. split; [reflexivity|]. split; [apply mul_div_nonneg; assumption|lia].
  Qed.

  Lemma mul_div_signed_quot a n d r : 0 <= a -> 0 <= d ->
    mul_div_signed w a n d = Some r -> 0 < d /\ r = Z.quot (a * n) d.
  Proof.
    intros Ha Hd H. apply mul_div_signed_some in H; [|assumption..]. destruct H as (Hd0 & _ & ->). split; [lia|].
    destruct (Z.ltb_spec 0 n).
    - rewrite Z.abs_eq, quot_nonneg_div by nia. reflexivity.
    - rewrite Z.abs_neq, quot_neg_num by nia. replace (- (a * n)) with (a * - n) by lia. reflexivity.
  Qed.

  Lemma quot_mono a b c : 0 < c -> a <= b -> Z.quot a c <= Z.quot b c.
  Proof. intros. apply Z.quot_le_mono; lia. Qed.

  Lemma quot_nonneg a c : 0 < c -> 0 <= a -> 0 <= Z.quot a c.
  Proof. intros. apply Z.quot_pos; lia. Qed.
  Lemma quot_mul_mono c x y t : 0 <= c -> 0 < t -> x <= y -> Z.quot (c * x) t <= Z.quot (c * y) t.
  Proof. intros. apply quot_mono; [assumption|apply Z.mul_le_mono_nonneg_l; assumption]. Qed.
  Lemma quot_mul_nonneg c x t : 0 <= c -> 0 < t -> 0 <= x -> 0 <= Z.quot (c * x) t.
  Proof. intros. apply quot_nonneg; [assumption|apply Z.mul_nonneg_nonneg; assumption]. Qed.
  Lemma quot_share_le a b n : 0 <= a <= b -> 0 < b -> 0 <= n -> 0 <= Z.quot (a * n) b <= n.
  Proof.
    intros [Ha Hab] Hb Hn. split; [apply quot_mul_nonneg; assumption|].
    replace n with (Z.quot (b * n) b) at 2 by (rewrite Z.mul_comm; apply Z.quot_mul; lia).
    apply quot_mono; [assumption|apply Z.mul_le_mono_nonneg_r; assumption].
  Qed.
  Lemma quot_nonpos a c : 0 < c -> a <= 0 -> Z.quot a c <= 0.
  Proof. intros Hc Ha. rewrite quot_neg_num by lia. assert (0 <= (- a) / c) by (apply div_nonneg; lia). lia. Qed.

  Lemma quot_bounds a c : 0 < c -> Z.abs (c * Z.quot a c - a) < c.
  Proof.
    intros Hc. destruct (Z_lt_le_dec a 0).
    - rewrite quot_neg_num by lia. pose proof (div_floor_spec (- a) c Hc). lia.
    - rewrite quot_nonneg_div by lia. pose proof (div_floor_spec a c Hc). lia.
  Qed.
End L.
