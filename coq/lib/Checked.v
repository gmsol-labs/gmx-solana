(* Inversion lemmas for the definitions of lib/Base.v (the range checks, the checked operations,
   the two monads), so that a proof about a model need not unfold them, and a few list facts. *)
From GV Require Import lib.Base.
Open Scope Z_scope.

(* the failure condition read off a characterisation of success *)
Lemma none_iff {A} (o : option A) (Q : A -> Prop) :
  (forall r, o = Some r <-> Q r) -> (o = None <-> forall r, ~ Q r).
Proof.
  intros H. split.
  - intros -> r Hr. apply H in Hr. discriminate.
  - intros N. destruct o as [x|]; [|reflexivity]. destruct (N x). apply H. reflexivity.
Qed.

Lemma in_u_iff w z : in_u w z = true <-> 0 <= z < 2 ^ w.
Proof. unfold in_u. rewrite andb_true_iff, Z.leb_le, Z.ltb_lt. tauto. Qed.

Lemma in_s_iff w z : in_s w z = true <-> - 2 ^ (w - 1) <= z < 2 ^ (w - 1).
Proof. unfold in_s. rewrite andb_true_iff, Z.leb_le, Z.ltb_lt. tauto. Qed.

Lemma chk_u_some w z r : chk_u w z = Some r <-> (0 <= z < 2 ^ w /\ r = z).
Proof.
  unfold chk_u. rewrite <- in_u_iff. destruct (in_u w z); split.
  - intros [= <-]. auto.
  - intros [_ ->]. reflexivity.
  - discriminate.
  - intros [[=] _].
Qed.

Lemma chk_u_none w z : chk_u w z = None <-> (z < 0 \/ 2 ^ w <= z).
Proof.
  rewrite (none_iff _ _ (chk_u_some w z)). split.
  - intros N. specialize (N z). lia.
  - intros H r. lia.
Qed.

Lemma chk_u_in w z : 0 <= z < 2 ^ w -> chk_u w z = Some z.
Proof. intros H. apply chk_u_some. auto. Qed.

Lemma chk_u_out w z : (z < 0 \/ 2 ^ w <= z) -> chk_u w z = None.
Proof. apply chk_u_none. Qed.

Lemma chk_s_some w z r : chk_s w z = Some r <-> (- 2 ^ (w - 1) <= z < 2 ^ (w - 1) /\ r = z).
Proof.
  unfold chk_s. rewrite <- in_s_iff. destruct (in_s w z); split.
  - intros [= <-]. auto.
  - intros [_ ->]. reflexivity.
  - discriminate.
  - intros [[=] _].
Qed.

Lemma chk_s_none w z : chk_s w z = None <-> (z < - 2 ^ (w - 1) \/ 2 ^ (w - 1) <= z).
Proof.
  rewrite (none_iff _ _ (chk_s_some w z)). split.
  - intros N. specialize (N z). lia.
  - intros H r. lia.
Qed.

Lemma to_signed_some w a r : to_signed w a = Some r <-> (a < 2 ^ (w - 1) /\ r = a).
Proof.
  unfold to_signed. destruct (Z.ltb_spec a (2 ^ (w - 1))); split; try discriminate.
  - intros [= <-]. auto.
  - intros [_ ->]. reflexivity.
  - lia.
Qed.

Lemma to_signed_none w a : to_signed w a = None <-> 2 ^ (w - 1) <= a.
Proof. unfold to_signed. destruct (Z.ltb_spec a (2 ^ (w - 1))); split; try discriminate; try reflexivity; lia. Qed.

Lemma uadd_some w a b r : uadd w a b = Some r <-> (0 <= a + b < 2 ^ w /\ r = a + b).
Proof. apply chk_u_some. Qed.
Lemma usub_some w a b r : usub w a b = Some r <-> (0 <= a - b < 2 ^ w /\ r = a - b).
Proof. apply chk_u_some. Qed.
Lemma umul_some w a b r : umul w a b = Some r <-> (0 <= a * b < 2 ^ w /\ r = a * b).
Proof. apply chk_u_some. Qed.
Lemma udiv_some w a b r : udiv w a b = Some r <-> (b <> 0 /\ r = a / b).
Proof.
  unfold udiv. destruct (Z.eqb_spec b 0); split; try discriminate.
  - tauto.
  - intros [= <-]. auto.
  - intros [_ ->]. reflexivity.
Qed.
Lemma sadd_some w a b r : sadd w a b = Some r <-> (- 2 ^ (w - 1) <= a + b < 2 ^ (w - 1) /\ r = a + b).
Proof. apply chk_s_some. Qed.
Lemma ssub_some w a b r : ssub w a b = Some r <-> (- 2 ^ (w - 1) <= a - b < 2 ^ (w - 1) /\ r = a - b).
Proof. apply chk_s_some. Qed.
Lemma smul_some w a b r : smul w a b = Some r <-> (- 2 ^ (w - 1) <= a * b < 2 ^ (w - 1) /\ r = a * b).
Proof. apply chk_s_some. Qed.
Lemma sneg_some w a r : sneg w a = Some r <-> (- 2 ^ (w - 1) <= - a < 2 ^ (w - 1) /\ r = - a).
Proof. apply chk_s_some. Qed.
Lemma sdiv_some w a b r :
  sdiv w a b = Some r <-> (b <> 0 /\ - 2 ^ (w - 1) <= Z.quot a b < 2 ^ (w - 1) /\ r = Z.quot a b).
Proof.
  unfold sdiv. destruct (Z.eqb_spec b 0).
  - split; [discriminate|tauto].
  - rewrite chk_s_some. tauto.
Qed.

Lemma obind_some {A B} (a : option A) (f : A -> option B) r :
  obind a f = Some r <-> exists x, a = Some x /\ f x = Some r.
Proof.
  destruct a; cbn; split; try discriminate; eauto.
  - intros (x & [= <-] & H). exact H.
  - intros (x & [=] & _).
Qed.

Lemma obind_none {A B} (a : option A) (f : A -> option B) :
  obind a f = None <-> a = None \/ exists x, a = Some x /\ f x = None.
Proof.
  destruct a; cbn; split; eauto.
  - intros [[=]|(x & [= <-] & H)]. exact H.
Qed.

Lemma rbind_ok {A B} (a : res A) (f : A -> res B) r :
  rbind a f = Ok r <-> exists x, a = Ok x /\ f x = Ok r.
Proof.
  destruct a; cbn; split; try discriminate; eauto.
  - intros (x & [= <-] & H). exact H.
  - intros (x & [=] & _).
Qed.

(* [rbind_ok] in continuation form, for inverting a long chain of binds one step at a time *)
Lemma rbind_elim {A B} (a : res A) (f : A -> res B) r (P : Prop) :
  rbind a f = Ok r -> (forall x, a = Ok x -> f x = Ok r -> P) -> P.
Proof. intros H K. apply rbind_ok in H. destruct H as (x & E & H). exact (K x E H). Qed.

Lemma rbind_err {A B} (a : res A) (f : A -> res B) e :
  rbind a f = Err e <-> a = Err e \/ exists x, a = Ok x /\ f x = Err e.
Proof.
  destruct a; cbn; split; eauto.
  - intros [[=]|(x & [= <-] & H)]. exact H.
  - intros [= ->]. auto.
  - intros [[= ->]|(x & [=] & _)]. reflexivity.
Qed.

Lemma of_opt_ok {A} e (o : option A) x : of_opt e o = Ok x <-> o = Some x.
Proof. destruct o; cbn; split; try discriminate; congruence. Qed.

Lemma of_opt_err {A} e (o : option A) e' : of_opt e o = Err e' <-> o = None /\ e' = e.
Proof.
  destruct o; cbn; split; try discriminate.
  - intros [[=] _].
  - intros [= <-]. auto.
  - intros [_ ->]. reflexivity.
Qed.

(* [bind_ok H as x E]: from H : (x <-- a ;; f x) = Ok r, get E : a = Ok x (or o = Some x when a is
   [of_opt _ o]) and H : f x = Ok r *)
Tactic Notation "bind_ok" hyp(H) "as" ident(x) ident(E) :=
  apply (rbind_elim _ _ _ _ H); clear H; intros x E H;
  lazymatch type of E with of_opt _ _ = Ok _ => apply of_opt_ok in E | _ => idtac end.

(* the usual step of a model function: a checked operation, failing with its own error code *)
Lemma rbind_of_opt_ok {A B} e (o : option A) (f : A -> res B) r :
  rbind (of_opt e o) f = Ok r <-> exists x, o = Some x /\ f x = Ok r.
Proof. rewrite rbind_ok. setoid_rewrite of_opt_ok. reflexivity. Qed.

Lemma of_opt_chk_u e w v : 0 <= v -> of_opt e (chk_u w v) = if v <? 2 ^ w then Ok v else Err e.
Proof. intros Hv. destruct (Z.ltb_spec v (2 ^ w)); [rewrite chk_u_in|rewrite chk_u_out]; auto. Qed.

Lemma filter_nil_forall {A} (f : A -> bool) (l : list A) :
  filter f l = [] -> forall x, In x l -> f x = false.
Proof.
  intros E x Hx. destruct (f x) eqn:F; [|reflexivity].
  assert (In x (filter f l)) by (apply filter_In; auto). rewrite E in *. contradiction.
Qed.

(* the offenders of a boolean test listed by [filter]: none means the test holds throughout *)
Lemma none_fail {A} (ok : A -> bool) (l : list A) :
  filter (fun x => negb (ok x)) l = [] -> forall x, In x l -> ok x = true.
Proof. intros H x Hin. apply Bool.negb_false_iff, (filter_nil_forall _ _ H x Hin). Qed.

Lemma in_skipn {A} (x : A) n l : In x (skipn n l) -> In x l.
Proof. rewrite <- (firstn_skipn n l) at 2. intros; apply in_or_app; auto. Qed.

Lemma in_firstn {A} (x : A) n l : In x (firstn n l) -> In x l.
Proof. rewrite <- (firstn_skipn n l) at 2. intros; apply in_or_app; auto. Qed.

Lemma existsb_eqb_In {A} (eqb : A -> A -> bool) : (forall a b, eqb a b = true <-> a = b) ->
  forall x l, existsb (eqb x) l = true <-> In x l.
Proof.
  intros Heq x l. rewrite existsb_exists. split.
  - intros (y & Hy & E). apply Heq in E. subst. exact Hy.
  - intros H. exists x. split; [exact H|apply Heq; reflexivity].
Qed.

Lemma existsb_Zeqb_In x l : existsb (Z.eqb x) l = true <-> In x l.
Proof. apply existsb_eqb_In, Z.eqb_eq. Qed.

Lemma NoDup_snoc {A} (l : list A) x : NoDup (l ++ [x]) <-> NoDup l /\ ~ In x l.
Proof. rewrite (NoDup_Add (Add_app x l [])), app_nil_r. tauto. Qed.

Lemma fold_left_inv {A B} (f : A -> B -> A) (P : A -> Prop) l :
  (forall a x, In x l -> P a -> P (f a x)) -> forall a, P a -> P (fold_left f l a).
Proof.
  induction l as [|x l IH]; intros Hf a Ha; [exact Ha|].
  apply IH; [intros; apply Hf; [right|]; assumption | apply Hf; [left; reflexivity | exact Ha]].
Qed.
