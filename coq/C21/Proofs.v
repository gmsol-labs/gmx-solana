(* C21 — the revision-stamped copy-on-write buffer refines plain transactions; mint / burn requests of the
   liquidity market are only accumulated until the operation ends. *)
From GV Require Import lib.Base lib.Checked C21.Model.
Open Scope Z_scope.

(* invariant: no buffer entry is stamped with a future revision *)
Definition inv (m : bstate) : Prop := forall k, erev (buffer m k) <= brev m.

(* the write-set an operation has accumulated so far *)
Definition absW (m : bstate) (k : Z) : option (list Z) :=
  if dirty m k then Some (ev (buffer m k)) else None.

Definition R (m : bstate) (t : tstate) : Prop :=
  inv m /\ (forall k, tS t k = ev (storage m k)) /\ (forall k, tW t k = absW m k) /\ tn t = brev m.

Fixpoint n_ops (h : list hitem) : Z :=
  match h with [] => 0 | HSetTime _ :: r => n_ops r | HOp _ _ :: r => 1 + n_ops r end.

(* what a list of mint / burn requests amounts to, accounted independently of [lm_run]: the totals of the
   accepted requests *)
Fixpoint lm_sums (sup tm tb : Z) (acts : list lact) : Z * Z :=
  match acts with
  | [] => (tm, tb)
  | LMint amt :: r =>
      if in_u 64 amt && (in_u 64 (tm + amt) && in_u 64 (sup + (tm + amt))) then lm_sums sup (tm + amt) tb r
      else lm_sums sup tm tb r
  | LBurn amt :: r =>
      if in_u 64 amt && (in_u 64 (tb + amt) && in_u 64 (sup - (tb + amt))) then lm_sums sup tm (tb + amt) r
      else lm_sums sup tm tb r
  | LSupply :: r => lm_sums sup tm tb r
  end.

Lemma inv_init t0 : inv (init t0).
Proof. intros k. cbn. lia. Qed.

Lemma start_ok m : brev m + 1 < 2 ^ 64 -> 0 <= brev m ->
  start m = Ok (mkb (storage m) (buffer m) (brev m + 1)).
Proof.
  intros H H0. unfold start. assert (C : chk_u 64 (brev m + 1) = Some (brev m + 1)) by (apply chk_u_some; lia).
  now rewrite C.
Qed.

Lemma start_clean m m' : inv m -> start m = Ok m' ->
  storage m' = storage m /\ buffer m' = buffer m /\ brev m' = brev m + 1 /\ inv m' /\
  forall k, dirty m' k = false.
Proof.
  intros I E. unfold start in E. destruct (chk_u 64 (brev m + 1)) as [r|] eqn:C; [|discriminate].
  apply chk_u_some in C as [_ ->]. injection E as <-. cbn. repeat split; auto.
  - intros k. cbn. specialize (I k). lia.
  - intros k. unfold dirty. cbn. specialize (I k). apply Z.eqb_neq. lia.
Qed.

Lemma R_start m t m' : R m t -> start m = Ok m' -> R m' (tstart t).
Proof.
  intros (I & HS & HW & Hn) E.
  destruct (start_clean m m' I E) as (Es & Eb & Er & I' & D).
  split; [exact I'|]. split; [|split].
  - intros k. cbn. rewrite Es. apply HS.
  - intros k. cbn. unfold absW. now rewrite D.
  - cbn. lia.
Qed.

Lemma get_R m t k : R m t -> get m k = tget t k.
Proof.
  intros (I & HS & HW & Hn). unfold get, tget. rewrite HW. unfold absW.
  destruct (dirty m k); [reflexivity|]. symmetry. apply HS.
Qed.

Lemma get_mut_storage m k f : storage (get_mut m k f) = storage m /\ brev (get_mut m k f) = brev m.
Proof. split; reflexivity. Qed.

Lemma get_mut_R m t k f : R m t -> R (get_mut m k f) (tget_mut t k f).
Proof.
  intros HR. pose proof (get_R m t k HR) as G. destruct HR as (I & HS & HW & Hn).
  split; [|split; [|split]].
  - intros j. unfold get_mut, upd. cbn. destruct (Z.eqb_spec j k); cbn; [lia|apply I].
  - intros j. cbn. apply HS.
  - intros j. cbn. unfold absW, dirty, get_mut, upd. cbn.
    destruct (Z.eqb_spec j k) as [->|N].
    + cbn. rewrite Z.eqb_refl. f_equal. f_equal. rewrite <- G. unfold get, dirty.
      destruct (erev (buffer m k) =? brev m); reflexivity.
    + rewrite HW. reflexivity.
  - cbn. exact Hn.
Qed.

Lemma astep_frame now m a : storage (fst (astep now m a)) = storage m /\ brev (fst (astep now m a)) = brev m.
Proof. unfold astep. destruct a; cbn [gstep]; try destruct (_ : bool); cbn [fst]; auto. Qed.

Lemma gacts_frame now acts : forall m,
  storage (fst (gacts bstate get get_mut brev now m acts)) = storage m /\
  brev (fst (gacts bstate get get_mut brev now m acts)) = brev m.
Proof.
  induction acts as [|a r IH]; intros m; cbn [gacts]; [auto|].
  destruct (astep_frame now m a) as [S1 B1]. unfold astep in *.
  destruct (gstep bstate get get_mut brev now m a) as [m1 o1]. cbn [fst] in *.
  destruct (IH m1) as [S2 B2]. destruct (gacts bstate get get_mut brev now m1 r) as [m2 os]. cbn [fst] in *.
  split; congruence.
Qed.

Lemma gstep_sim now m t a : R m t ->
  R (fst (astep now m a)) (fst (gstep tstate tget tget_mut tn now t a)) /\
  snd (astep now m a) = snd (gstep tstate tget tget_mut tn now t a).
Proof.
  intros HR. unfold astep.
  destruct a as [k|k is_long d|c|c|is_long|is_long amt|is_long amt| |v| ]; cbn [gstep].
  (* reads *)
  1, 3, 5, 8: rewrite (get_R m t _ HR); cbn; auto.
  (* mark the entry, read it back, and write it if the new value is accepted *)
  1-4: rewrite (get_R _ _ _ (get_mut_R m t _ (fun v => v) HR)); destruct (_ : bool); cbn [fst snd];
       auto using get_mut_R.
  - cbn [fst snd]. auto using get_mut_R.
  - destruct HR as (I & HS & HW & Hn). cbn. rewrite Hn. repeat split; auto.
Qed.

Lemma gacts_sim now acts : forall m t, R m t ->
  R (fst (gacts bstate get get_mut brev now m acts)) (fst (gacts tstate tget tget_mut tn now t acts)) /\
  snd (gacts bstate get get_mut brev now m acts) = snd (gacts tstate tget tget_mut tn now t acts).
Proof.
  induction acts as [|a r IH]; intros m t HR; cbn [gacts].
  - cbn. auto.
  - destruct (gstep_sim now m t a HR) as (R1 & O1). unfold astep in *.
    destruct (gstep bstate get get_mut brev now m a) as [m1 o1].
    destruct (gstep tstate tget tget_mut tn now t a) as [t1 o1'].
    cbn [fst snd] in *.
    destruct (IH m1 t1 R1) as (R2 & O2).
    destruct (gacts bstate get get_mut brev now m1 r) as [m2 os].
    destruct (gacts tstate tget tget_mut tn now t1 r) as [t2 os'].
    cbn [fst snd] in *. split; [exact R2|]. rewrite O1, O2; reflexivity.
Qed.

Lemma commit_keys_spec m ks : forall st k,
  commit_keys m ks st k = if existsb (Z.eqb k) ks && dirty m k then buffer m k else st k.
Proof.
  induction ks as [|j r IH]; intros st k; cbn [commit_keys existsb].
  - reflexivity.
  - rewrite IH. destruct (Z.eqb_spec k j) as [->|N]; cbn [orb].
    + destruct (dirty m j) eqn:D.
      * rewrite Bool.andb_true_r. destruct (existsb (Z.eqb j) r); cbn; [reflexivity|].
        unfold upd. now rewrite Z.eqb_refl.
      * rewrite Bool.andb_false_r. reflexivity.
    + destruct (existsb (Z.eqb k) r && dirty m k); [reflexivity|].
      destruct (dirty m j); [|reflexivity]. unfold upd. destruct (Z.eqb_spec k j); [contradiction|reflexivity].
Qed.

Lemma all_keys_spec k : existsb (Z.eqb k) all_keys = in_keys k.
Proof.
  unfold all_keys, in_keys. cbn [existsb].
  repeat match goal with |- context [k =? ?c] => destruct (Z.eqb_spec k c) as [->|?]; [reflexivity|] end.
  cbn [orb].
  symmetry. apply Bool.andb_false_iff. rewrite Z.leb_gt, Z.ltb_ge. lia.
Qed.

Lemma commit_storage m k :
  storage (commit m) k = if in_keys k && dirty m k then buffer m k else storage m k.
Proof. unfold commit. cbn [storage]. rewrite commit_keys_spec. now rewrite all_keys_spec. Qed.

Lemma R_commit m t : R m t -> R (commit m) (tcommit t).
Proof.
  intros (I & HS & HW & Hn). split; [|split; [|split]].
  - exact I.
  - intros k. cbn [tcommit tS]. rewrite commit_storage. rewrite HW. unfold absW.
    destruct (in_keys k); cbn [andb]; [|apply HS].
    destruct (dirty m k); [reflexivity|apply HS].
  - intros k. cbn. apply HW.
  - exact Hn.
Qed.

Lemma run_op_sim now m t acts cm : R m t -> 0 <= brev m -> brev m + 1 < 2 ^ 64 ->
  exists m', run_op now m acts cm = Ok (m', snd (trun_op now t acts cm)) /\
             R m' (fst (trun_op now t acts cm)) /\ brev m' = brev m + 1 /\
             (cm = false -> storage m' = storage m).
Proof.
  intros HR H0 Hb. unfold run_op, trun_op. rewrite (start_ok m Hb H0). cbn [rbind].
  set (m0 := mkb (storage m) (buffer m) (brev m + 1)).
  assert (R0 : R m0 (tstart t)) by (apply (R_start m t m0 HR); apply start_ok; assumption).
  destruct (gacts_sim now acts m0 (tstart t) R0) as (R1 & O1). destruct (gacts_frame now acts m0) as (S1 & B1).
  destruct (gacts bstate get get_mut brev now m0 acts) as [m1 os].
  destruct (gacts tstate tget tget_mut tn now (tstart t) acts) as [t1 os'].
  cbn [fst snd] in *. subst os'.
  destruct cm.
  - exists (commit m1). split; [reflexivity|]. split; [now apply R_commit|]. split; [exact B1|]. discriminate.
  - exists m1. split; [reflexivity|]. split; [exact R1|]. split; [exact B1|]. intros _. exact S1.
Qed.

Lemma n_ops_nonneg h : 0 <= n_ops h.
Proof. induction h as [|[ts|a c] r IH]; cbn [n_ops]; lia. Qed.

Lemma run_hist_sim h : forall now m t, R m t -> 0 <= brev m -> brev m + n_ops h < 2 ^ 64 ->
  exists m', run_hist now m h = Ok (m', snd (trun_hist now t h)) /\ R m' (fst (trun_hist now t h)).
Proof.
  induction h as [|[ts|acts cm] r IH]; intros now m t HR H0 Hb; cbn [run_hist trun_hist n_ops] in *.
  - exists m. auto.
  - apply IH; auto.
  - pose proof (n_ops_nonneg r).
    destruct (run_op_sim now m t acts cm HR H0) as (m1 & E1 & R1 & B1 & _); [lia|].
    rewrite E1. cbn [rbind fst snd].
    destruct (IH now m1 _ R1) as (m2 & E2 & R2); [lia|lia|].
    rewrite E2. cbn [rbind fst snd]. exists m2. auto.
Qed.

Lemma lm_step_sums l a r :
  supply (fst (lm_step l a)) = supply l /\
  lm_sums (supply l) (to_mint l) (to_burn l) (a :: r) =
  lm_sums (supply l) (to_mint (fst (lm_step l a))) (to_burn (fst (lm_step l a))) r.
Proof.
  destruct l as [sup tm tb], a as [amt|amt|]; cbn [lm_step lm_sums supply to_mint to_burn]; [| |auto].
  - unfold lm_mint. cbn [supply to_mint to_burn]. destruct (in_u 64 amt); cbn [andb]; [|auto].
    destruct (_ && _); auto.
  - unfold lm_burn. cbn [supply to_mint to_burn]. destruct (in_u 64 amt); cbn [andb]; [|auto].
    destruct (_ && _); auto.
Qed.

Lemma lm_run_sums acts : forall l,
  fst (lm_run l acts) =
    mklm (supply l) (fst (lm_sums (supply l) (to_mint l) (to_burn l) acts))
                    (snd (lm_sums (supply l) (to_mint l) (to_burn l) acts)).
Proof.
  induction acts as [|a r IH]; intros l; [now destruct l|].
  destruct (lm_step_sums l a r) as [Es ->]. rewrite <- Es, <- IH. cbn [lm_run].
  destruct (lm_step l a) as [l1 o]. cbn [fst]. now destruct (lm_run l1 r).
Qed.

Lemma lm_sums_bounds acts : forall sup tm tb, 0 <= tm -> 0 <= tb -> sup + tm < 2 ^ 64 -> tb <= sup ->
  let '(tm', tb') := lm_sums sup tm tb acts in
  tm <= tm' /\ tb <= tb' /\ sup + tm' < 2 ^ 64 /\ tb' <= sup.
Proof.
  induction acts as [|a r IH]; intros sup tm tb H1 H2 H3 H4; cbn [lm_sums].
  - lia.
  - destruct a as [amt|amt|].
    + destruct (in_u 64 amt && (in_u 64 (tm + amt) && in_u 64 (sup + (tm + amt)))) eqn:C.
      * apply andb_prop in C as [C1 C]. apply andb_prop in C as [C2 C3].
        apply in_u_iff in C1, C2, C3.
        specialize (IH sup (tm + amt) tb). destruct (lm_sums sup (tm + amt) tb r). lia.
      * apply IH; assumption.
    + destruct (in_u 64 amt && (in_u 64 (tb + amt) && in_u 64 (sup - (tb + amt)))) eqn:C.
      * apply andb_prop in C as [C1 C]. apply andb_prop in C as [C2 C3].
        apply in_u_iff in C1, C2, C3.
        specialize (IH sup tm (tb + amt)). destruct (lm_sums sup tm (tb + amt) r). lia.
      * apply IH; assumption.
    + apply IH; assumption.
Qed.
