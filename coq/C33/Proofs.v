(* C33 — proofs: referral invariants over arbitrary histories. *)
From GV Require Import lib.Base lib.Checked C33.Model.
Open Scope Z_scope.

Lemma aget_aset {A} (l : list (Z * A)) k a x : aget (aset l k a) x = if x =? k then Some a else aget l x.
Proof.
  induction l as [|[y b] l IH]; simpl.
  - rewrite (Z.eqb_sym k x). reflexivity.
  - destruct (Z.eqb_spec y k) as [->|E]; simpl.
    + rewrite (Z.eqb_sym k x). destruct (x =? k); reflexivity.
    + rewrite IH. destruct (Z.eqb_spec y x) as [<-|]; [|reflexivity]. destruct (Z.eqb_spec y k); [contradiction|reflexivity].
Qed.

Lemma chk_nil b r rest : chk b r ++ rest = [] <-> b = true /\ rest = [].
Proof. destruct b; simpl; split; intros H; try tauto; try discriminate. destruct H; discriminate. Qed.

Lemma chk_single b r : chk b r = [] <-> b = true.
Proof. destruct b; simpl; split; intros H; try reflexivity; discriminate. Qed.

(* turns [violations s o = []] into the conjunction of the checks, as propositions *)
#[local] Hint Rewrite chk_nil chk_single negb_true_iff Z.eqb_eq Z.eqb_neq : chk.

(* [effect s o s']: [o] passed every check in state [s] and produced [s'].  Of the checks, the
   constructors record those that the proofs below rest on. *)
Inductive effect (s : state) : op -> state -> Prop :=
| e_prepare o : aget (s_users s) o = None ->
    effect s (Prepare o) (mkstate (aset (s_users s) o (mkuser 0 0 0)) (s_codes s))
| e_init o c u : aget (s_users s) o = Some u -> aget (s_codes s) c = None -> c <> 0 -> u_code u = 0 ->
    effect s (InitCode o c)
      (mkstate (aset (s_users s) o (mkuser (u_referrer u) c (u_count u))) (aset (s_codes s) c (mkcode o o)))
| e_setref o c r u ru :
    aget (s_users s) o = Some u -> aget (s_users s) r = Some ru ->
    u_code ru = c -> r <> o -> u_referrer ru <> o -> u_referrer u = 0 ->
    effect s (SetRef o c r)
      (mkstate (aset (aset (s_users s) o (mkuser r (u_code u) (u_count u))) r
                     (mkuser (u_referrer ru) (u_code ru) (Z.min U128MAX (u_count ru + 1)))) (s_codes s))
| e_transfer o c r cd : aget (s_codes s) c = Some cd ->
    effect s (Transfer o c r) (mkstate (s_users s) (aset (s_codes s) c (mkcode (c_owner cd) r)))
| e_cancel o c cd : aget (s_codes s) c = Some cd ->
    effect s (Cancel o c) (mkstate (s_users s) (aset (s_codes s) c (mkcode (c_owner cd) o)))
| e_accept n c u uu cd ru :
    aget (s_users s) u = Some uu -> aget (s_codes s) c = Some cd -> aget (s_users s) n = Some ru ->
    u = c_owner cd -> u_code uu = c -> n <> u -> u_code ru = 0 -> n = c_next cd ->
    effect s (Accept n c u)
      (mkstate (aset (aset (s_users s) n (mkuser (u_referrer ru) (u_code uu) (u_count ru))) u
                     (mkuser (u_referrer uu) 0 (u_count uu)))
               (aset (s_codes s) c (mkcode n (c_next cd)))).

Lemma step_effect s o : step s o = s \/ effect s o (step s o).
Proof.
  unfold step. destruct (violations s o) eqn:V; [|auto].
  destruct o as [o|o c|o c r|o c r|o c|n c u]; simpl in V |- *.
  - destruct (aget (s_users s) o) eqn:EO; [auto|]. right. constructor. exact EO.
  - destruct (aget (s_users s) o) eqn:EO; [|discriminate]. right.
    autorewrite with chk in V. destruct V as (V1 & V2 & V3).
    constructor; auto. destruct (aget (s_codes s) c); [discriminate|reflexivity].
  - destruct (aget (s_users s) o) eqn:EO; [|discriminate].
    destruct (aget (s_codes s) c) eqn:EC; [|discriminate].
    destruct (aget (s_users s) r) eqn:ER; [|discriminate]. right.
    autorewrite with chk in V. decompose [and] V.
    econstructor; eauto.
  - destruct (aget (s_users s) o); [|discriminate]. destruct (aget (s_codes s) c) eqn:EC; [|discriminate].
    right. econstructor; eauto.
  - destruct (aget (s_users s) o); [|discriminate]. destruct (aget (s_codes s) c) eqn:EC; [|discriminate].
    right. econstructor; eauto.
  - destruct (aget (s_users s) u) eqn:EU; [|discriminate].
    destruct (aget (s_codes s) c) eqn:EC; [|discriminate].
    destruct (aget (s_users s) n) eqn:EN; [|discriminate]. right.
    autorewrite with chk in V. decompose [and] V.
    econstructor; eauto.
Qed.

Record Inv (s : state) : Prop := mkInv {
  (* never self-referential *)
  i_self : forall o u, aget (s_users s) o = Some u -> u_referrer u <> o;
  (* never mutual *)
  i_mutual : forall a b ua ub, aget (s_users s) a = Some ua -> aget (s_users s) b = Some ub ->
               u_referrer ua = b -> u_referrer ub <> a;
  (* a user's code is a code account owned by that user *)
  i_ucode : forall o u, aget (s_users s) o = Some u -> u_code u <> 0 ->
               exists cd, aget (s_codes s) (u_code u) = Some cd /\ c_owner cd = o;
  (* every code account is held by its owner *)
  i_cown : forall c cd, aget (s_codes s) c = Some cd ->
               c <> 0 /\ exists u, aget (s_users s) (c_owner cd) = Some u /\ u_code u = c;
  (* accounts exist only for real owners *)
  i_keys : forall o u, aget (s_users s) o = Some u -> 1 <= o
}.

Lemma Inv_init : Inv init.
Proof. constructor; simpl; intros; discriminate. Qed.

(* The invariant has two halves that no instruction changes together: the referrer links among
   the users, and the tie between the users' codes and the code accounts. *)
Definition ref_ok (us : list (Z * user)) : Prop :=
  forall a ua, aget us a = Some ua ->
    1 <= a /\ u_referrer ua <> a /\ forall ub, aget us (u_referrer ua) = Some ub -> u_referrer ub <> a.

Definition code_ok (us : list (Z * user)) (cs : list (Z * code)) : Prop :=
  (forall o u, aget us o = Some u -> u_code u <> 0 -> exists cd, aget cs (u_code u) = Some cd /\ c_owner cd = o) /\
  (forall c cd, aget cs c = Some cd -> c <> 0 /\ exists u, aget us (c_owner cd) = Some u /\ u_code u = c).

Lemma Inv_split s : Inv s <-> ref_ok (s_users s) /\ code_ok (s_users s) (s_codes s).
Proof.
  split.
  - intros [IS IM IU IC IK]. split; [|split; assumption].
    intros a ua Ha. split; [eauto|]. split; [eauto|]. intros ub Hb. exact (IM a _ ua ub Ha Hb eq_refl).
  - intros [R [IU IC]]. constructor; try assumption.
    + intros o u H. exact (proj1 (proj2 (R o u H))).
    + intros a b ua ub Ha Hb <-. apply (R a ua Ha). exact Hb.
    + intros o u H. apply (R o u H).
Qed.

(* writing user [k]: its new referrer is another user that does not refer back to [k] *)
Lemma ref_ok_aset us k u' : ref_ok us -> 1 <= k -> u_referrer u' <> k ->
  (forall ub, aget us (u_referrer u') = Some ub -> u_referrer ub <> k) -> ref_ok (aset us k u').
Proof.
  intros R Hk Hs Hm a ua. rewrite aget_aset. destruct (Z.eqb_spec a k) as [->|Na].
  - intros [= <-]. split; [exact Hk|]. split; [exact Hs|]. intros ub. rewrite aget_aset.
    destruct (Z.eqb_spec (u_referrer u') k); [contradiction|]. apply Hm.
  - intros Ha. destruct (R a ua Ha) as (K & S & M). split; [exact K|]. split; [exact S|]. intros ub. rewrite aget_aset.
    destruct (Z.eqb_spec (u_referrer ua) k) as [E|]; [|apply M].
    (* [a] refers to [k]: [k] must not now refer to [a] *)
    intros [= <-] E'. apply (Hm ua); [rewrite E'; exact Ha|exact E].
Qed.

Lemma ref_ok_same us k u u' : ref_ok us -> aget us k = Some u -> u_referrer u' = u_referrer u -> ref_ok (aset us k u').
Proof. intros R H E. destruct (R k u H) as (K & S & M). apply ref_ok_aset; rewrite ?E; assumption. Qed.

Lemma code_ok_user_same us cs k u u' : code_ok us cs -> aget us k = Some u -> u_code u' = u_code u ->
  code_ok (aset us k u') cs.
Proof.
  intros [IU IC] H E. split.
  - intros o w. rewrite aget_aset. destruct (Z.eqb_spec o k) as [->|]; [|apply IU].
    intros [= <-]. rewrite E. apply IU, H.
  - intros c cd Hc. destruct (IC c cd Hc) as (N & w & Hw & Hcw). split; [exact N|]. rewrite aget_aset.
    destruct (Z.eqb_spec (c_owner cd) k) as [Ek|]; [|eauto]. exists u'. split; [reflexivity|]. congruence.
Qed.

Lemma code_ok_code_same us cs c cd cd' : code_ok us cs -> aget cs c = Some cd -> c_owner cd' = c_owner cd ->
  code_ok us (aset cs c cd').
Proof.
  intros [IU IC] H E. split.
  - intros o u Ho Hn. destruct (IU o u Ho Hn) as (cd0 & Hcd & Hown). rewrite aget_aset.
    destruct (Z.eqb_spec (u_code u) c) as [Ec|]; [|eauto]. exists cd'. split; [reflexivity|]. congruence.
  - intros c0 cd0. rewrite aget_aset. destruct (Z.eqb_spec c0 c) as [->|]; [|apply IC].
    intros [= <-]. rewrite E. apply (IC c cd H).
Qed.

Lemma code_ok_new_user us cs k u' : code_ok us cs -> aget us k = None -> u_code u' = 0 -> code_ok (aset us k u') cs.
Proof.
  intros [IU IC] H E. split.
  - intros o w. rewrite aget_aset. destruct (Z.eqb_spec o k) as [->|]; [|apply IU]. intros [= <-] N. contradiction.
  - intros c cd Hc. destruct (IC c cd Hc) as (N & w & Hw & Hcw). split; [exact N|]. exists w. rewrite aget_aset.
    destruct (Z.eqb_spec (c_owner cd) k); [congruence|auto].
Qed.

(* user [k], holding no code, creates code [c] *)
Lemma code_ok_link us cs k u u' c x : code_ok us cs ->
  aget us k = Some u -> u_code u = 0 -> aget cs c = None -> c <> 0 -> u_code u' = c ->
  code_ok (aset us k u') (aset cs c (mkcode k x)).
Proof.
  intros [IU IC] H E0 Hc Nc E. split.
  - intros o w. rewrite !aget_aset. destruct (Z.eqb_spec o k) as [->|].
    + intros [= <-] _. rewrite E, Z.eqb_refl. eauto.
    + intros Ho Hn. destruct (IU o w Ho Hn) as (cd & Hcd & Hown).
      destruct (Z.eqb_spec (u_code w) c); [congruence|eauto].
  - intros c0 cd. rewrite !aget_aset. destruct (Z.eqb_spec c0 c) as [->|].
    + intros [= <-]. simpl. rewrite Z.eqb_refl. eauto.
    + intros H0. destruct (IC c0 cd H0) as (N & w & Hw & Hcw). split; [exact N|].
      destruct (Z.eqb_spec (c_owner cd) k); [exfalso; congruence|eauto].
Qed.

(* code [c] passes from its holder [u] to [n], who held none *)
Lemma code_ok_move us cs n u un uu un' uu' c cd x : code_ok us cs ->
  aget us u = Some uu -> u_code uu = c -> aget cs c = Some cd ->
  aget us n = Some un -> u_code un = 0 -> n <> u -> u_code un' = c -> u_code uu' = 0 ->
  code_ok (aset (aset us n un') u uu') (aset cs c (mkcode n x)).
Proof.
  intros [IU IC] Hu Eu Hc Hn En Nnu En' Eu'. destruct (IC c cd Hc) as (Nc & _). split.
  - intros o w. rewrite !aget_aset. destruct (Z.eqb_spec o u) as [->|Nou]; [intros [= <-] N; contradiction|].
    destruct (Z.eqb_spec o n) as [->|Non].
    + intros [= <-] _. rewrite En', Z.eqb_refl. eauto.
    + intros Ho N. destruct (IU o w Ho N) as (cd0 & Hcd & Hown).
      destruct (Z.eqb_spec (u_code w) c) as [Ec|]; [|eauto].
      (* [o] would hold [c] as well as [u] *)
      exfalso. destruct (IU u uu Hu ltac:(congruence)) as (cd1 & Hcd1 & Hown1). congruence.
  - intros c0 cd0. rewrite !aget_aset. destruct (Z.eqb_spec c0 c) as [->|Nc0].
    + intros [= <-]. simpl. split; [exact Nc|]. destruct (Z.eqb_spec n u); [contradiction|]. rewrite Z.eqb_refl. eauto.
    + intros H0. destruct (IC c0 cd0 H0) as (N & w & Hw & Hcw). split; [exact N|].
      destruct (Z.eqb_spec (c_owner cd0) u); [exfalso; congruence|].
      destruct (Z.eqb_spec (c_owner cd0) n); [exfalso; congruence|eauto].
Qed.

Lemma step_Inv s o : Inv s -> op_wf o -> Inv (step s o).
Proof.
  intros I W. destruct (step_effect s o) as [->|E]; [exact I|].
  apply Inv_split in I as [R C]. apply Inv_split.
  destruct E as [o H|o c u H Hc Nc E0|o c r u ru Ho Hr _ Nro Nref _|o c r cd Hc|o c cd Hc
                |n c u uu cd ru Hu Hc Hn _ Eu Nnu En _]; simpl in W |- *.
  - split; [|apply code_ok_new_user; auto].
    apply ref_ok_aset; simpl; [exact R|exact W|lia|]. intros ub Hb. apply R in Hb. lia.
  - split; [eapply ref_ok_same; eauto|eapply code_ok_link; eauto].
  - assert (Hr' : aget (aset (s_users s) o (mkuser r (u_code u) (u_count u))) r = Some ru)
      by (rewrite aget_aset; destruct (Z.eqb_spec r o); [contradiction|exact Hr]).
    split.
    + eapply ref_ok_same; [|exact Hr'|reflexivity]. destruct (R o u Ho) as (K & _).
      apply ref_ok_aset; simpl; [exact R|exact K|exact Nro|]. intros ub Hb. congruence.
    + eapply code_ok_user_same; [|exact Hr'|reflexivity]. eapply code_ok_user_same; eauto.
  - split; [exact R|eapply code_ok_code_same; eauto].
  - split; [exact R|eapply code_ok_code_same; eauto].
  - split; [|eapply code_ok_move; eauto].
    apply ref_ok_same with (u := uu); [eapply ref_ok_same; eauto| |reflexivity].
    rewrite aget_aset. destruct (Z.eqb_spec u n) as [E|]; [symmetry in E; contradiction|exact Hu].
Qed.

Theorem run_Inv ops : forall s, Inv s -> Forall op_wf ops -> Inv (run s ops).
Proof.
  intros s I F. rewrite Forall_forall in F. unfold run. apply fold_left_inv; [|exact I].
  intros s' o Hin I'. apply step_Inv; [exact I'|apply F, Hin].
Qed.

Theorem code_unique_holder s : Inv s -> forall a b ua ub, aget (s_users s) a = Some ua -> aget (s_users s) b = Some ub ->
  u_code ua <> 0 -> u_code ua = u_code ub -> a = b.
Proof.
  intros I a b ua ub Ha Hb Hn E.
  destruct (i_ucode s I a ua Ha Hn) as (cd & Hcd & Ho).
  destruct (i_ucode s I b ub Hb ltac:(congruence)) as (cd' & Hcd' & Ho'). rewrite <- E in Hcd'. congruence.
Qed.

(* user accounts are never removed; a referrer is only ever written by set_referrer signed by that
   very user, over no referrer, and the chosen referrer is then a different user that is not
   referred by the signer *)
Lemma step_user s o k u : aget (s_users s) k = Some u ->
  exists u', aget (s_users (step s o)) k = Some u' /\
    (u_referrer u' = u_referrer u \/
     exists c r ur, o = SetRef k c r /\ u_referrer u = 0 /\ u_referrer u' = r /\ r <> k /\
                    aget (s_users s) r = Some ur /\ u_referrer ur <> k /\ u_code ur = c).
Proof.
  intros H. destruct (step_effect s o) as [->|E]; [eauto|].
  destruct E as [o Ho|o c w Ho _ _ _|o c r w ru Ho Hr Ec Nro Nref E0|o c r cd _|o c cd _
                |n c w uw cd ru Hw _ Hn _ _ _ _ _]; simpl; rewrite ?aget_aset; eauto.
  - destruct (Z.eqb_spec k o); [congruence|eauto].
  - destruct (Z.eqb_spec k o) as [->|]; [|eauto]. eexists. split; [reflexivity|]. left. simpl. congruence.
  - destruct (Z.eqb_spec k r) as [->|]; [eexists; split; [reflexivity|]; left; simpl; congruence|].
    destruct (Z.eqb_spec k o) as [->|]; [|eauto]. eexists. split; [reflexivity|]. right.
    exists c, r, ru. simpl. repeat split; auto; congruence.
  - destruct (Z.eqb_spec k w) as [->|]; [eexists; split; [reflexivity|]; left; simpl; congruence|].
    destruct (Z.eqb_spec k n) as [->|]; [|eauto]. eexists. split; [reflexivity|]. left. simpl. congruence.
Qed.

Theorem run_referrer_write_once ops : forall s k u, aget (s_users s) k = Some u -> u_referrer u <> 0 ->
  exists u', aget (s_users (run s ops)) k = Some u' /\ u_referrer u' = u_referrer u.
Proof.
  induction ops as [|o ops IH]; intros s k u H Hr; [eauto|].
  unfold run. simpl. fold (run (step s o) ops).
  destruct (step_user s o k u H) as (u1 & H1 & [E1|(c & r & ur & _ & E0 & _)]); [|contradiction].
  destruct (IH (step s o) k u1 H1 ltac:(congruence)) as (u2 & H2 & E2). exists u2. split; [exact H2|congruence].
Qed.

(* code accounts are never removed; the owner of a code changes only by accept_referral_code signed
   by the proposed new owner (the recorded next_owner) *)
Lemma step_code s o c cd : aget (s_codes s) c = Some cd ->
  exists cd', aget (s_codes (step s o)) c = Some cd' /\
    (c_owner cd' = c_owner cd \/
     exists u, o = Accept (c_owner cd') c u /\ c_owner cd' = c_next cd /\ u = c_owner cd).
Proof.
  intros H. destruct (step_effect s o) as [->|E]; [eauto|].
  destruct E as [o _|o c0 w _ Hc _ _|o c0 r w ru _ _ _ _ _ _|o c0 r cd0 Hc|o c0 cd0 Hc
                |n c0 w uw cd0 ru _ Hc _ Ew _ _ _ En]; simpl; rewrite ?aget_aset; eauto.
  - destruct (Z.eqb_spec c c0); [congruence|eauto].
  - destruct (Z.eqb_spec c c0) as [->|]; [|eauto]. eexists. split; [reflexivity|]. left. simpl. congruence.
  - destruct (Z.eqb_spec c c0) as [->|]; [|eauto]. eexists. split; [reflexivity|]. left. simpl. congruence.
  - destruct (Z.eqb_spec c c0) as [->|]; [|eauto]. eexists. split; [reflexivity|]. right.
    exists w. simpl. repeat split; congruence.
Qed.
