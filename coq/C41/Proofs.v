(* C41 — what the optimize passes preserve, through one relation ([merges]); the provenance relations
   [Made] / [PMade]; the limits. *)
From GV Require Import lib.Base lib.Checked C41.Model.
Open Scope Z_scope.

Definition flat_ixs (l : list ag) : list ix := flat_map a_ixs l.
Definition tg_ixs (tg : list pg) : list ix := flat_map (fun p => flat_ixs (p_groups p)) tg.
Definition tg_groups (tg : list pg) : list ag := flat_map p_groups tg.

Lemma tg_ixs_groups tg : tg_ixs tg = flat_ixs (tg_groups tg).
Proof.
  unfold tg_ixs, tg_groups, flat_ixs. induction tg as [|p r IH]; [reflexivity|].
  cbn. rewrite flat_map_app, IH. reflexivity.
Qed.

Lemma ag_empty_ixs g : ag_empty g = true <-> a_ixs g = [].
Proof. unfold ag_empty. destruct (a_ixs g); split; intros H; (reflexivity || discriminate). Qed.

Lemma tg_groups_nonempty l : tg_groups (filter (fun p => negb (pg_empty p)) l) = tg_groups l.
Proof.
  unfold tg_groups. induction l as [|p l IH]; [reflexivity|]. cbn [filter].
  destruct (pg_empty p) eqn:E; cbn [negb flat_map]; rewrite IH; [|reflexivity].
  unfold pg_empty in E. destruct (p_groups p); [reflexivity | discriminate].
Qed.

Lemma pg_single_groups p x : pg_single p = Some x -> p_groups p = [x].
Proof. unfold pg_single. destruct (p_groups p) as [|g [|h r]]; intros H; inversion H; reflexivity. Qed.

Lemma pg_optimize_flag o ts allow p : p_merge (pg_optimize o ts allow p) = p_merge p.
Proof. unfold pg_optimize. destruct (optimize_slice o ts allow (p_groups p)). reflexivity. Qed.

Definition contains (g : ag) (b : list ix) : Prop := exists pre post, a_ixs g = pre ++ b ++ post.

Lemma contains_self g : contains g (a_ixs g).
Proof. exists [], []. rewrite app_nil_r. reflexivity. Qed.

Lemma contains_merge_l x y b : contains x b -> contains (merge x y) b.
Proof. intros [pre [post E]]. exists pre, (post ++ a_ixs y). cbn. rewrite E, <- !app_assoc. reflexivity. Qed.
Lemma contains_merge_r x y b : contains y b -> contains (merge x y) b.
Proof. intros [pre [post E]]. exists (a_ixs x ++ pre), post. cbn. rewrite E, <- !app_assoc. reflexivity. Qed.

Section Opt.
  Variable o : opts.
  Variable ts : luts.
  Variable allow : bool.

  Lemma optimizable_true x y : optimizable o ts allow x y = true ->
    a_merge x = true /\ a_merge y = true /\ (allow = false -> a_payer x = a_payer y) /\
    ag_len x + ag_len y <= o_max_ix o /\ merged_size (o_memo o) ts x y <= o_max_size o.
  Proof.
    unfold optimizable. intros H.
    apply andb_prop in H as [H E]. apply andb_prop in H as [H D]. apply andb_prop in H as [H C].
    apply andb_prop in H as [A B]. apply Z.leb_le in D, E. repeat split; try assumption.
    intros ->. apply Z.eqb_eq, C.
  Qed.

  (* What a pass does to a list of atomic groups, at either level: it merges neighbours that
     [optimizable] admits and drops groups without instructions. *)
  Inductive merges : list ag -> list ag -> Prop :=
  | ms_refl l : merges l l
  | ms_merge x y : optimizable o ts allow x y = true -> merges [x; y] [merge x y]
  | ms_drop e : a_ixs e = [] -> merges [e] []
  | ms_app a a' b b' : merges a a' -> merges b b' -> merges (a ++ b) (a' ++ b')
  | ms_trans a b c : merges a b -> merges b c -> merges a c.

  Lemma ms_keep x l l' : merges l l' -> merges (x :: l) (x :: l').
  Proof. apply (ms_app [x] [x]), ms_refl. Qed.

  Lemma ms_drop_head e l l' : a_ixs e = [] -> merges l l' -> merges (e :: l) l'.
  Proof. intros E. apply (ms_app [e] []), ms_drop, E. Qed.

  Lemma ms_merge_head x y l l' : optimizable o ts allow x y = true ->
    merges (merge x y :: l) l' -> merges (x :: y :: l) l'.
  Proof. intros E. apply ms_trans, (ms_app [x; y] [merge x y]); [apply ms_merge, E | apply ms_refl]. Qed.

  Lemma merges_filter l : merges l (filter (fun g => negb (ag_empty g)) l).
  Proof.
    induction l as [|g l IH]; [apply ms_refl|]. cbn. destruct (ag_empty g) eqn:E; cbn.
    - apply ms_drop_head; [apply ag_empty_ixs, E | exact IH].
    - apply ms_keep, IH.
  Qed.

  Lemma merges_filter_if a l (m : bool) :
    merges a (if m then filter (fun g => negb (ag_empty g)) l else l) -> merges a (filter (fun g => negb (ag_empty g)) l).
  Proof. destruct m; [exact id | intros H; exact (ms_trans _ _ _ H (merges_filter l))]. Qed.

  Lemma optimize_from_merges rest : forall cur,
    let '(gs, merged) := optimize_from o ts allow cur rest in
    merges (cur :: rest) (if merged then filter (fun g => negb (ag_empty g)) gs else gs).
  Proof.
    induction rest as [|y r IH]; intros cur; cbn [optimize_from]; [apply ms_refl|].
    destruct (ag_empty cur) eqn:Ee; [|destruct (optimizable o ts allow cur y) eqn:Eo].
    - specialize (IH y). destruct (optimize_from o ts allow y r) as [l m]. cbn [filter]. rewrite Ee.
      apply ms_drop_head; [apply ag_empty_ixs, Ee | exact (merges_filter_if _ _ _ IH)].
    - specialize (IH (merge cur y)). destruct (optimize_from o ts allow (merge cur y) r) as [l m].
      apply ms_merge_head; [exact Eo | exact (merges_filter_if _ _ _ IH)].
    - specialize (IH y). destruct (optimize_from o ts allow y r) as [l []]; [cbn [filter]; rewrite Ee|];
        apply ms_keep, IH.
  Qed.

  Lemma pg_optimize_merges p : merges (p_groups p) (p_groups (pg_optimize o ts allow p)).
  Proof.
    unfold pg_optimize, optimize_slice. destruct (p_groups p) as [|x r]; [apply ms_refl|].
    pose proof (optimize_from_merges r x) as H. destruct (optimize_from o ts allow x r) as [gs m]. exact H.
  Qed.

  (* the two groups that [tg_merge_from] merges at [cur], [q], if it does *)
  Definition pair_of (cur q : pg) : option (ag * ag) :=
    if p_merge cur && p_merge q then
      match pg_single cur, pg_single q with
      | Some x, Some y => if optimizable o ts allow x y then Some (x, y) else None
      | _, _ => None
      end
    else None.

  Lemma pair_of_some cur q x y : pair_of cur q = Some (x, y) ->
    p_merge cur = true /\ p_merge q = true /\ pg_single cur = Some x /\ pg_single q = Some y /\
    optimizable o ts allow x y = true.
  Proof.
    unfold pair_of. destruct (p_merge cur), (p_merge q); try discriminate. cbn.
    destruct (pg_single cur) as [x'|]; [|discriminate]. destruct (pg_single q) as [y'|]; [|discriminate].
    destruct (optimizable o ts allow x' y') eqn:Eo; [|discriminate]. intros H. inversion H; subst. auto.
  Qed.

  Lemma tg_merge_from_cons cur q r : fst (tg_merge_from o ts allow cur (q :: r)) =
    match pair_of cur q with
    | Some (x, y) => DEFAULT_PG :: fst (tg_merge_from o ts allow (mkPg [merge x y] (p_merge cur)) r)
    | None => cur :: fst (tg_merge_from o ts allow q r)
    end.
  Proof.
    cbn [tg_merge_from]. fold (pair_of cur q). destruct (pair_of cur q) as [[x y]|];
      [destruct (tg_merge_from o ts allow _ r) | destruct (tg_merge_from o ts allow q r)]; reflexivity.
  Qed.

  Lemma tg_merge_from_merges rest : forall cur,
    merges (tg_groups (cur :: rest)) (tg_groups (fst (tg_merge_from o ts allow cur rest))).
  Proof.
    induction rest as [|q r IH]; intros cur; [apply ms_refl|]. rewrite tg_merge_from_cons.
    destruct (pair_of cur q) as [[x y]|] eqn:E.
    - destruct (pair_of_some _ _ _ _ E) as (_ & _ & Hc & Hq & Eo).
      unfold tg_groups. cbn [flat_map]. rewrite (pg_single_groups _ _ Hc), (pg_single_groups _ _ Hq).
      apply ms_merge_head; [exact Eo | exact (IH (mkPg [merge x y] (p_merge cur)))].
    - apply (ms_app (p_groups cur) (p_groups cur)); [apply ms_refl | apply IH].
  Qed.

  Theorem tg_optimize_merges tg : merges (tg_groups tg) (tg_groups (tg_optimize o ts allow tg)).
  Proof.
    apply ms_trans with (tg_groups (map (pg_optimize o ts allow) tg)).
    - induction tg as [|p r IH]; [apply ms_refl|]. apply ms_app; [apply pg_optimize_merges | exact IH].
    - unfold tg_optimize. destruct (map (pg_optimize o ts allow) tg) as [|p r]; [apply ms_refl|].
      pose proof (tg_merge_from_merges r p) as H. destruct (tg_merge_from o ts allow p r) as [l []]; [|exact H].
      rewrite tg_groups_nonempty. exact H.
  Qed.

  Lemma merges_ixs a b : merges a b -> flat_ixs b = flat_ixs a.
  Proof.
    induction 1 as [l | x y _ | e E | a a' b b' _ IHa _ IHb | a b c _ IHa _ IHb].
    - reflexivity.
    - cbn. rewrite <- app_assoc. reflexivity.
    - cbn. rewrite E. reflexivity.
    - unfold flat_ixs in *. rewrite !flat_map_app, IHa, IHb. reflexivity.
    - congruence.
  Qed.

  Lemma merges_contains a c blk : merges a c -> blk <> [] ->
    (exists g, In g a /\ contains g blk) -> exists f, In f c /\ contains f blk.
  Proof.
    intros H Hne. induction H as [l | x y _ | e E | a a' b b' _ IHa _ IHb | a b c _ IHa _ IHb];
      intros [g [Hg Hc]].
    - eauto.
    - exists (merge x y). split; [left; reflexivity|].
      destruct Hg as [<-|[<-|[]]]; [apply contains_merge_l | apply contains_merge_r]; exact Hc.
    - destruct Hg as [<-|[]]. destruct Hc as [[|] [post Hc]]; rewrite E in Hc; [|discriminate].
      destruct blk; [congruence | discriminate].
    - apply in_app_or in Hg. destruct Hg as [Hg|Hg]; [destruct IHa as [f [Hf Hc']] | destruct IHb as [f [Hf Hc']]];
        eauto using in_or_app.
    - eauto.
  Qed.

  Lemma merges_closed a b : merges a b -> forall P : ag -> Prop,
    (forall x y, optimizable o ts allow x y = true -> P x -> P y -> P (merge x y)) ->
    (forall g, In g a -> P g) -> forall f, In f b -> P f.
  Proof.
    intros H P HP. induction H as [l | x y Eo | e E | a a' b b' _ IHa _ IHb | a b c _ IHa _ IHb]; intros Ha f Hf.
    - exact (Ha f Hf).
    - destruct Hf as [<-|[]]. apply HP; [exact Eo | apply Ha; left | apply Ha; right; left]; reflexivity.
    - destruct Hf.
    - apply in_app_or in Hf. destruct Hf as [Hf|Hf]; [apply IHa | apply IHb]; auto using in_or_app.
    - exact (IHb (IHa Ha) f Hf).
  Qed.

  Variable S : list ag.                    (* the original atomic groups *)

  Inductive Made : ag -> list ag -> Prop :=
  | M_orig g : In g S -> Made g [g]
  | M_merge x y px py : Made x px -> Made y py -> optimizable o ts allow x y = true ->
      Made (merge x y) (px ++ py).

  Lemma made_ixs f parts : Made f parts -> a_ixs f = flat_ixs parts.
  Proof.
    induction 1 as [g Hg | x y px py Hx IHx Hy IHy Ho]; [cbn; rewrite app_nil_r; reflexivity|].
    cbn [merge a_ixs]. unfold flat_ixs in *. rewrite flat_map_app, IHx, IHy. reflexivity.
  Qed.

  Lemma made_parts_orig f parts : Made f parts -> forall p, In p parts -> In p S.
  Proof.
    induction 1 as [g Hg | x y px py Hx IHx Hy IHy Ho]; intros p Hp.
    - destruct Hp as [<-|[]]. exact Hg.
    - apply in_app_or in Hp. destruct Hp; auto.
  Qed.

  Lemma made_payer_first f parts : Made f parts -> exists p r, parts = p :: r /\ a_payer f = a_payer p.
  Proof.
    induction 1 as [g Hg | x y px py Hx IHx Hy IHy Ho]; [exists g, []; auto|].
    destruct IHx as [p [r [-> E]]]. exists p, (r ++ py). split; [reflexivity | exact E].
  Qed.

  Lemma made_parts_nonnil f parts : Made f parts -> parts <> [].
  Proof. intros H. destruct (made_payer_first _ _ H) as [p [r [-> _]]]. discriminate. Qed.

  Lemma made_mergeable f parts : Made f parts -> a_merge f = true -> forall p, In p parts -> a_merge p = true.
  Proof.
    induction 1 as [g Hg | x y px py Hx IHx Hy IHy Ho]; intros Hf p Hp.
    - destruct Hp as [<-|[]]. exact Hf.
    - destruct (optimizable_true _ _ Ho) as [A [B _]]. apply in_app_or in Hp. destruct Hp; auto.
  Qed.

  Lemma made_several_mergeable f parts : Made f parts -> (2 <= length parts)%nat ->
    a_merge f = true /\ forall p, In p parts -> a_merge p = true.
  Proof.
    intros H Hl. destruct H as [g Hg | x y px py Hx Hy Ho]; [cbn in Hl; lia|].
    destruct (optimizable_true _ _ Ho) as [A [B _]]. split; [exact A|].
    intros p Hp. apply in_app_or in Hp. destruct Hp as [Hp|Hp]; [exact (made_mergeable _ _ Hx A p Hp) | exact (made_mergeable _ _ Hy B p Hp)].
  Qed.

  Lemma made_payer f parts : Made f parts -> allow = false -> forall p, In p parts -> a_payer p = a_payer f.
  Proof.
    induction 1 as [g Hg | x y px py Hx IHx Hy IHy Ho]; intros Ha p Hp.
    - destruct Hp as [<-|[]]. reflexivity.
    - destruct (optimizable_true _ _ Ho) as [_ [_ [C _]]]. cbn [merge a_payer].
      apply in_app_or in Hp. destruct Hp as [Hp|Hp]; [auto | rewrite (IHy Ha p Hp); symmetry; auto].
  Qed.
End Opt.

Section PMadeSec.
  Variable o : opts.
  Variable ts : luts.
  Variable allow : bool.
  Variable T : list pg.                    (* the original parallel groups *)

  Inductive PMade : pg -> list pg -> Prop :=
  | PM_opt p : In p T -> PMade (pg_optimize o ts allow p) [p]
  | PM_merge P Q sp sq x y : PMade P sp -> PMade Q sq ->
      p_merge P = true -> p_merge Q = true -> pg_single P = Some x -> pg_single Q = Some y ->
      optimizable o ts allow x y = true ->
      PMade (mkPg [merge x y] (p_merge P)) (sp ++ sq).

  Lemma tg_merge_from_pmade rest : forall cur, Forall (fun q => exists sq, PMade q sq) (cur :: rest) ->
    Forall (fun p => p = DEFAULT_PG \/ exists sp, PMade p sp) (fst (tg_merge_from o ts allow cur rest)).
  Proof.
    induction rest as [|q r IH]; intros cur Hall.
    - constructor; [right; exact (Forall_inv Hall) | constructor].
    - rewrite tg_merge_from_cons. pose proof (Forall_inv Hall) as Hc. apply Forall_inv_tail in Hall.
      destruct (pair_of o ts allow cur q) as [[x y]|] eqn:E.
      + constructor; [left; reflexivity|]. apply IH.
        destruct (pair_of_some _ _ _ _ _ _ _ E) as (A & B & E1 & E2 & Eo).
        destruct Hc as [sc Hc]. destruct (Forall_inv Hall) as [sq Hq].
        constructor; [|exact (Forall_inv_tail Hall)]. exists (sc ++ sq). apply (PM_merge cur q); assumption.
      + constructor; [right; exact Hc | apply IH, Hall].
  Qed.

  (* every final parallel group is the optimized form of an original one, or the merge of single,
     mergeable ones (an empty default group carries no instruction) *)
  Theorem tg_optimize_pmade p :
    In p (tg_optimize o ts allow T) -> p = DEFAULT_PG \/ exists srcs, PMade p srcs.
  Proof.
    intros Hp. unfold tg_optimize in Hp.
    assert (H1 : Forall (fun q => exists sq, PMade q sq) (map (pg_optimize o ts allow) T)).
    { apply Forall_map, Forall_forall. intros q Hq. exists [q]. apply PM_opt, Hq. }
    destruct (map (pg_optimize o ts allow) T) as [|p0 r]; [destruct Hp|].
    pose proof (proj1 (Forall_forall _ _) (tg_merge_from_pmade r p0 H1)) as H.
    destruct (tg_merge_from o ts allow p0 r) as [l []]; [apply filter_In in Hp; destruct Hp as [Hp _]|]; exact (H p Hp).
  Qed.

  Lemma pmade_first P srcs : PMade P srcs -> exists s r, srcs = s :: r /\ p_merge P = p_merge s.
  Proof.
    induction 1 as [p Hp | P Q sp sq x y HP IHP HQ IHQ A B E1 E2 Eo].
    - exists p, []. split; [reflexivity | apply pg_optimize_flag].
    - destruct IHP as [s [r [-> Es]]]. exists s, (r ++ sq). split; [reflexivity | exact Es].
  Qed.

  Lemma pmade_mergeable P srcs : PMade P srcs -> p_merge P = true -> forall s, In s srcs -> p_merge s = true.
  Proof.
    induction 1 as [p Hp | P Q sp sq x y HP IHP HQ IHQ A B E1 E2 Eo]; intros HP' s Hs.
    - destruct Hs as [<-|[]]. rewrite <- HP'. symmetry. apply pg_optimize_flag.
    - apply in_app_or in Hs. destruct Hs; auto.
  Qed.

  Lemma pmade_several_mergeable P srcs : PMade P srcs -> (2 <= length srcs)%nat ->
    forall s, In s srcs -> p_merge s = true.
  Proof.
    intros H Hl s Hs. destruct H as [p Hp | P Q sp sq x y HP HQ A B E1 E2 Eo]; [cbn in Hl; lia|].
    apply in_app_or in Hs. destruct Hs as [Hs|Hs];
      [exact (pmade_mergeable _ _ HP A s Hs) | exact (pmade_mergeable _ _ HQ B s Hs)].
  Qed.
End PMadeSec.

Definition within (o : opts) (ts : luts) (f : ag) : Prop :=
  ag_len f <= o_max_ix o /\ group_size true (o_memo o) ts f <= o_max_size o.

Lemma validate_within o ts g : validate_one o ts g = true -> within o ts g.
Proof. unfold validate_one. rewrite andb_true_iff, !Z.leb_le. auto. Qed.

Lemma merged_size_group memo ts x y : merged_size memo ts x y = group_size true memo ts (merge x y).
Proof.
  unfold merged_size, group_size, ixs_with_options. cbn [merge a_payer a_ixs].
  f_equal. cbn [app]. rewrite <- !app_assoc. reflexivity.
Qed.

Lemma within_merge o ts allow x y : optimizable o ts allow x y = true -> within o ts (merge x y).
Proof.
  intros Ho. destruct (optimizable_true _ _ _ _ _ Ho) as [_ [_ [_ [D E]]]]. split.
  - unfold ag_len, lenZ in *. cbn [merge a_ixs]. rewrite app_length. lia.
  - rewrite <- merged_size_group. exact E.
Qed.

Lemma tg_add_valid o ts tg p : (forall g, In g (tg_groups tg) -> validate_one o ts g = true) ->
  forall g, In g (tg_groups (fst (tg_add o ts tg p))) -> validate_one o ts g = true.
Proof.
  intros H g. unfold tg_add. destruct (pg_empty p); [apply H|].
  destruct (forallb (validate_one o ts) (p_groups p)) eqn:E; [|apply H].
  cbn [fst]. unfold tg_groups. rewrite flat_map_app, in_app_iff. cbn. rewrite app_nil_r.
  intros [Hg|Hg]; [exact (H g Hg) | exact (proj1 (forallb_forall _ _) E g Hg)].
Qed.

Lemma tg_add_all_valid o ts ps : forall g, In g (tg_groups (fst (tg_add_all o ts ps))) -> validate_one o ts g = true.
Proof.
  unfold tg_add_all.
  apply (fold_left_inv _ (fun acc => forall g, In g (tg_groups (fst acc)) -> validate_one o ts g = true));
    [|intros g []].
  intros [tg oks] p _ H. pose proof (tg_add_valid o ts tg p H) as H'. destruct (tg_add o ts tg p). exact H'.
Qed.
