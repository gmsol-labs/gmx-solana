(* C34 — refinement of the array model to a finite map (std++ gmap). *)
From stdpp Require Import gmap sorting.
From GV Require lib.Base C34.Model C34.Proofs.
(* only these names: the `x <- a ;; b` notations of lib.Base clash with std++'s *)
Import GV.lib.Base(res, Ok, Err, rbind, of_opt).
Import GV.C34.Model GV.C34.Proofs.
Open Scope Z_scope.

Lemma StronglySorted_lookup {A} (R : relation A) (l : list A) :
  (∀ (i j : nat) x y, l !! i = Some x → l !! j = Some y → (i < j)%nat → R x y) → StronglySorted R l.
Proof.
  induction l as [|a l IH]; intros H; constructor.
  - apply IH. intros i j x y Hi Hj L. apply (H (S i) (S j)); [done|done|lia].
  - apply Forall_forall. intros y [j Hj]%elem_of_list_lookup. apply (H 0%nat (S j)); [done|done|lia].
Qed.

Section Refine.
  Context {V : Type}.
  Implicit Types (m : @fmap V) (a : gmap Z V) (d : list (Z * V)).

  (* the abstraction function: the finite map held by the first [count] slots *)
  Definition abs m : gmap Z V := list_to_map (entries m).

  Definition klt (x y : Z * V) : Prop := x.1 < y.1.
  (* [l] is the listing of [a] in strictly increasing key order *)
  Definition is_listing a (l : list (Z * V)) : Prop :=
    StronglySorted klt l ∧ ∀ k v, (k, v) ∈ l ↔ a !! k = Some v.
End Refine.

Section Abs.
  Context {V : Type}.
  Variable dv : V.
  Variable cap : Z.
  Implicit Types (m : @fmap V) (d : list (Z * V)).
  Notation znth := (znth dv).
  Notation wf := (wf dv cap).

  Lemma lookup_znth d i : 0 <= i < zlen d → d !! Z.to_nat i = Some (znth d i).
  Proof.
    intros H. unfold Model.znth.
    destruct (nth_lookup_or_length d (Z.to_nat i) (dflt dv)) as [E|E]; [exact E|].
    unfold zlen, entry in *. lia.
  Qed.

  Lemma entries_lookup m (i : nat) : wf m →
    entries m !! i = if decide (Z.of_nat i < count m) then Some (znth (data m) (Z.of_nat i)) else None.
  Proof.
    intros [Hl Hc Hs Ht]. unfold entries, len. case_decide as D.
    - rewrite lookup_take by lia. rewrite <- (Nat2Z.id i) at 1. apply lookup_znth. lia.
    - apply lookup_take_ge. lia.
  Qed.

  Lemma elem_of_entries m k v : wf m →
    (k, v) ∈ entries m ↔ ∃ i, 0 <= i < count m ∧ znth (data m) i = (k, v).
  Proof.
    intros W. rewrite elem_of_list_lookup. split.
    - intros [i E]. rewrite entries_lookup in E by done. case_decide; [|done].
      exists (Z.of_nat i). split; [lia|]. congruence.
    - intros (i & B & E). exists (Z.to_nat i). rewrite entries_lookup by done.
      rewrite decide_True by lia. rewrite Z2Nat.id by lia. by rewrite E.
  Qed.

  Lemma keys_inj m i j : wf m → 0 <= i < count m → 0 <= j < count m →
    (znth (data m) i).1 = (znth (data m) j).1 → i = j.
  Proof.
    intros [Hl Hc Hs Ht] Bi Bj E.
    destruct (Z.lt_trichotomy i j) as [L|[L|L]]; [|done|].
    - pose proof (Hs i j). lia.
    - pose proof (Hs j i). lia.
  Qed.

  Lemma NoDup_keys m : wf m → NoDup (entries m).*1.
  Proof.
    intros W. apply NoDup_alt. intros i j x.
    rewrite !list_lookup_fmap, !entries_lookup by done.
    do 2 case_decide; simpl; try done. intros [= E1] [= E2].
    apply Nat2Z.inj, (keys_inj m); [done|lia|lia|congruence].
  Qed.

  Lemma abs_lookup m k v : wf m →
    abs m !! k = Some v ↔ ∃ i, 0 <= i < count m ∧ znth (data m) i = (k, v).
  Proof.
    intros W. unfold abs. rewrite <- elem_of_list_to_map by by apply NoDup_keys.
    by apply elem_of_entries.
  Qed.

  Lemma abs_size m : wf m → Z.of_nat (size (abs m)) = count m.
  Proof.
    intros W. unfold size, map_size, abs.
    rewrite map_to_list_to_map by by apply NoDup_keys.
    unfold entries, len. rewrite take_length. destruct W as [Hl Hc _ _]. unfold zlen, entry in *. lia.
  Qed.

  Lemma abs_empty : abs (empty dv cap) = ∅.
  Proof. done. Qed.

  Lemma search_abs m k : wf m →
    match abs m !! k with
    | Some v => ∃ i, binary_search dv m k = Ok (Found i) ∧ 0 <= i < count m ∧ znth (data m) i = (k, v)
    | None => ∃ i, binary_search dv m k = Ok (Missing i) ∧ 0 <= i <= count m ∧
                (∀ j, 0 <= j → j < i → (znth (data m) j).1 < k) ∧
                (∀ j, i <= j → j < count m → k < (znth (data m) j).1)
    end.
  Proof.
    intros W. destruct (search_spec dv cap m k W) as [(i & E & B & K)|(i & E & B & Lo & Hi)].
    - assert (P : znth (data m) i = (k, (znth (data m) i).2)) by (rewrite <- K; apply surjective_pairing).
      assert (A : abs m !! k = Some (znth (data m) i).2) by (apply abs_lookup; [done|by exists i]).
      rewrite A. by exists i.
    - assert (A : abs m !! k = None).
      { apply eq_None_not_Some. intros [v (j & Bj & Ej)%abs_lookup]; [|done].
        destruct (Z_lt_le_dec j i) as [L|L].
        - specialize (Lo j). rewrite Ej in Lo. simpl in Lo. lia.
        - specialize (Hi j). rewrite Ej in Hi. simpl in Hi. lia. }
      rewrite A. by exists i.
  Qed.

  Lemma abs_replaced m i v : wf m → 0 <= i < count m →
    abs (replaced dv m i v) = <[(znth (data m) i).1 := v]> (abs m).
  Proof.
    intros W B. pose proof (wf_replaced dv cap m i v W B) as W'.
    apply map_eq. intros k'. apply option_eq. intros v'.
    rewrite abs_lookup by done. rewrite lookup_insert_Some.
    rewrite abs_lookup by done.
    assert (L : zlen (data m) = cap ∧ count m <= cap) by (destruct W; lia).
    unfold replaced; simpl. split.
    - intros (j & Bj & E). rewrite znth_upd in E by lia.
      destruct (Z.eqb_spec j i) as [->|N].
      + left. by inversion E.
      + right. split; [|by exists j]. intros <-.
        apply N. apply (keys_inj m j i W Bj B). by rewrite E.
    - intros [[<- <-]|(N & j & Bj & E)].
      + exists i. split; [done|]. rewrite znth_upd by lia. by rewrite Z.eqb_refl.
      + exists j. split; [done|]. rewrite znth_upd by lia.
        destruct (Z.eqb_spec j i) as [->|]; [|done]. rewrite E in N. done.
  Qed.

  Lemma abs_inserted m d' i k v : wf m →
    0 <= i <= count m → count m < cap →
    (∀ j, 0 <= j → j < i → (znth (data m) j).1 < k) →
    (∀ j, i <= j → j < count m → k < (znth (data m) j).1) →
    inserted_at dv (data m) d' (count m) i k v →
    abs (mk d' (count m + 1)) = <[k := v]> (abs m).
  Proof.
    intros W B F Lo Hi I.
    pose proof (wf_inserted dv cap m d' i k v W B F Lo Hi I) as W'.
    destruct I as [L H].
    apply map_eq. intros k'. apply option_eq. intros v'.
    rewrite abs_lookup by done. rewrite lookup_insert_Some.
    rewrite abs_lookup by done. simpl. split.
    - intros (j & Bj & E). rewrite H in E by lia.
      destruct (Z.ltb_spec j i) as [A|A].
      + right. split; [|exists j; split; [lia|done]].
        intros <-. specialize (Lo j). rewrite E in Lo. simpl in Lo. lia.
      + destruct (Z.eqb_spec j i) as [->|N].
        * left. by inversion E.
        * destruct (Z.leb_spec j (count m)); [|lia].
          right. split; [|exists (j - 1); split; [lia|done]].
          intros <-. specialize (Hi (j - 1)). rewrite E in Hi. simpl in Hi. lia.
    - intros [[<- <-]|(N & j & Bj & E)].
      + exists i. split; [lia|]. rewrite H by lia.
        destruct (Z.ltb_spec i i); [lia|]. by rewrite Z.eqb_refl.
      + destruct (Z_lt_le_dec j i) as [A|A].
        * exists j. split; [lia|]. rewrite H by lia. destruct (Z.ltb_spec j i); [done|lia].
        * exists (j + 1). split; [lia|]. rewrite H by lia.
          destruct (Z.ltb_spec (j + 1) i); [lia|]. destruct (Z.eqb_spec (j + 1) i); [lia|].
          destruct (Z.leb_spec (j + 1) (count m)); [|lia]. by replace (j + 1 - 1) with j by lia.
  Qed.

  Lemma abs_removed m d' i : wf m → 0 <= i < count m →
    removed_at dv (data m) d' (count m) i →
    abs (mk d' (count m - 1)) = delete (znth (data m) i).1 (abs m).
  Proof.
    intros W B R. pose proof (wf_removed dv cap m d' i W B R) as W'.
    destruct R as [L H].
    assert (Lc : zlen (data m) = cap ∧ count m <= cap) by (destruct W; lia).
    apply map_eq. intros k'. apply option_eq. intros v'.
    rewrite abs_lookup by done. rewrite lookup_delete_Some.
    rewrite abs_lookup by done. simpl. split.
    - intros (j & Bj & E). rewrite H in E by lia.
      destruct (Z.ltb_spec j i) as [A|A].
      + split; [|exists j; split; [lia|done]].
        intros Ek. assert (i = j); [|lia]. apply (keys_inj m i j W); [lia|lia|]. by rewrite E.
      + destruct (Z.ltb_spec j (count m - 1)); [|lia].
        split; [|exists (j + 1); split; [lia|done]].
        intros Ek. assert (i = j + 1); [|lia]. apply (keys_inj m i (j + 1) W); [lia|lia|]. by rewrite E.
    - intros (N & j & Bj & E).
      destruct (Z_lt_le_dec j i) as [A|A].
      + exists j. split; [lia|]. rewrite H by lia. destruct (Z.ltb_spec j i); [done|lia].
      + assert (j ≠ i) by (intros ->; rewrite E in N; done).
        exists (j - 1). split; [lia|]. rewrite H by lia.
        destruct (Z.ltb_spec (j - 1) i); [lia|].
        destruct (Z.ltb_spec (j - 1) (count m - 1)); [|lia]. by replace (j - 1 + 1) with j by lia.
  Qed.

  Lemma entries_listing m : wf m → is_listing (abs m) (entries m).
  Proof.
    intros W. split.
    - apply StronglySorted_lookup. intros i j x y. rewrite !entries_lookup by done.
      do 2 (case_decide; [|done]). intros [= <-] [= <-] L. unfold klt.
      destruct W as [_ _ Hs _]. apply Hs; lia.
    - intros k v. unfold abs. apply elem_of_list_to_map. by apply NoDup_keys.
  Qed.
End Abs.

Section Listing.
  Context {V : Type}.
  Implicit Types (a : gmap Z V) (l : list (Z * V)).

  Lemma klt_sorted_NoDup l : StronglySorted (@klt V) l → NoDup l.
  Proof.
    induction 1 as [|x l S IH F]; constructor; [|done].
    intros Hx. rewrite Forall_forall in F. specialize (F x Hx). unfold klt in F. lia.
  Qed.

  Global Instance klt_antisymm : AntiSymm (=) (@klt V).
  Proof. intros x y A B. unfold klt in *. lia. Qed.

  Lemma is_listing_unique a l1 l2 : is_listing a l1 → is_listing a l2 → l1 = l2.
  Proof.
    intros [S1 E1] [S2 E2]. apply (StronglySorted_unique (@klt V)); [done|done|].
    apply NoDup_Permutation; [by apply klt_sorted_NoDup|by apply klt_sorted_NoDup|].
    intros [k v]. by rewrite E1, E2.
  Qed.
End Listing.

Section HistRefine.
  Context {V : Type}.
  Variable cap : Z.
  Implicit Types (a : gmap Z V) (o : @op V) (r : @ret V).

  (* machine-range side condition: get_entry_by_index takes a usize *)
  Definition op_ok o : Prop := match o with OpIdx i => 0 <= i | _ => True end.

  (* the one documented panic: `insert` (expect) of a new key into a full map *)
  Definition expect_panics a o : Prop :=
    match o with OpInsP k v => a !! k = None ∧ cap <= Z.of_nat (size a) | _ => False end.

  (* the ordinary-map semantics of every operation, with the capacity as the only extra rule *)
  Definition astep a o r a' : Prop :=
    match o with
    | OpGet k => r = RetOpt (a !! k) ∧ a' = a
    | OpSet k v => r = RetOpt (a !! k) ∧ a' = (if a !! k then <[k:=v]> a else a)
    | OpIns k v new =>
        match a !! k with
        | Some old => if new then r = RetRes (Err E_EXIST) ∧ a' = a
                      else r = RetRes (Ok (Some old)) ∧ a' = <[k:=v]> a
        | None => if decide (cap <= Z.of_nat (size a)) then r = RetRes (Err E_FULL) ∧ a' = a
                  else r = RetRes (Ok None) ∧ a' = <[k:=v]> a
        end
    | OpInsP k v => r = RetOpt (a !! k) ∧ a' = <[k:=v]> a
    | OpRem k => r = RetOpt (a !! k) ∧ a' = delete k a
    | OpIdx i => ∃ l, is_listing a l ∧ r = RetEnt (l !! Z.to_nat i) ∧ a' = a
    | OpClear => r = RetUnit ∧ a' = ∅
    | OpLen => r = RetLen (Z.of_nat (size a)) (bool_decide (a = ∅)) ∧ a' = a
    | OpEntries => ∃ l, is_listing a l ∧ r = RetList l ∧ a' = a
    end.

  Inductive aruns : gmap Z V → list (@op V) → list (@ret V) → gmap Z V → Prop :=
  | aruns_nil a : aruns a [] [] a
  | aruns_cons a o r a1 ops rs a2 :
      ¬ expect_panics a o → astep a o r a1 → aruns a1 ops rs a2 → aruns a (o :: ops) (r :: rs) a2.

  Inductive apanics : gmap Z V → list (@op V) → Prop :=
  | apanics_here a o ops : expect_panics a o → apanics a (o :: ops)
  | apanics_later a o r a1 ops :
      ¬ expect_panics a o → astep a o r a1 → apanics a1 ops → apanics a (o :: ops).
End HistRefine.

(* the capacity bound: the count is a u32 *)
Section StepRefine.
  Context {V : Type}.
  Variable dv : V.
  Variable cap : Z.
  Hypothesis Hcap : 0 <= cap < 2 ^ 32.
  Implicit Types (m : @fmap V) (a : gmap Z V) (o : @op V) (r : @ret V).

  Lemma get_is_lookup m k : wf dv cap m → get dv m k = Ok (abs m !! k).
  Proof.
    intros W. pose proof (search_abs dv cap m k W) as S.
    destruct (abs m !! k) as [old|]; destruct S as (i & E & B & S).
    - rewrite (get_found dv cap m k i W E B). by rewrite S.
    - apply (get_missing dv m k i E).
  Qed.

  Lemma set_value_refines m k v : wf dv cap m →
    ∃ m', set_value dv m k v = Ok (m', abs m !! k) ∧ wf dv cap m' ∧
          abs m' = if abs m !! k then <[k:=v]> (abs m) else abs m.
  Proof.
    intros W. pose proof (search_abs dv cap m k W) as S.
    destruct (abs m !! k) as [old|]; destruct S as (i & E & B & S).
    - exists (replaced dv m i v). rewrite (set_value_found dv cap m k v i W E B).
      rewrite (abs_replaced dv cap m i v W B), S. split; [done|]. split; [by apply wf_replaced|done].
    - exists m. by rewrite (set_value_missing dv m k v i E).
  Qed.

  Lemma insert_refines m k v new : wf dv cap m →
    ∃ m' x, insert_with_options dv cap m k v new = Ok (m', x) ∧ wf dv cap m' ∧
            astep cap (abs m) (OpIns k v new) (RetRes x) (abs m').
  Proof.
    intros W. pose proof (search_abs dv cap m k W) as S. pose proof (abs_size dv cap m W) as Sz.
    cbn [astep]. destruct (abs m !! k) as [old|]; destruct S as (i & E & B & S).
    - rewrite (insert_found dv cap m k v new i W E B). destruct new; [by exists m, (Err E_EXIST)|].
      exists (replaced dv m i v), (Ok (Some (znth dv (data m) i).2)).
      rewrite (abs_replaced dv cap m i v W B), S. split; [done|]. split; [by apply wf_replaced|done].
    - destruct S as [Lo Hi]. case_decide as F.
      + exists m, (Err E_FULL). by rewrite (insert_full dv cap m k v new i E) by lia.
      + destruct (insert_new dv cap Hcap m k v new i W E B) as (d' & E' & I); [lia|].
        exists (mk d' (count m + 1)), (Ok None). rewrite E'. split; [done|].
        split; [apply (wf_inserted dv cap m d' i k v); auto; lia|]. split; [done|].
        apply (abs_inserted dv cap m d' i k v); auto; lia.
  Qed.

  Lemma full_insert_fails_unchanged m k v new : wf dv cap m →
    abs m !! k = None → cap <= count m →
    insert_with_options dv cap m k v new = Ok (m, Err E_FULL).
  Proof.
    intros W A F. pose proof (search_abs dv cap m k W) as S. rewrite A in S.
    destruct S as (i & E & _). by apply (insert_full dv cap m k v new i).
  Qed.

  Lemma insert_new_refines m k v : wf dv cap m →
    abs m !! k = None → count m < cap →
    ∃ m', insert_with_options dv cap m k v true = Ok (m', Ok None) ∧ wf dv cap m' ∧
          abs m' = <[k:=v]> (abs m).
  Proof.
    intros W A F. destruct (insert_refines m k v true W) as (m' & x & E & W' & S).
    cbn [astep] in S. rewrite A, decide_False in S by (rewrite (abs_size dv cap m W); lia).
    destruct S as [[= ->] S]. by exists m'.
  Qed.

  Lemma remove_refines m k : wf dv cap m →
    ∃ m', remove dv m k = Ok (m', abs m !! k) ∧ wf dv cap m' ∧ abs m' = delete k (abs m).
  Proof.
    intros W. pose proof (search_abs dv cap m k W) as S.
    destruct (abs m !! k) as [old|] eqn:A; destruct S as (i & E & B & S).
    - destruct (remove_found dv cap Hcap m k i W E B) as (d' & E' & R).
      exists (mk d' (count m - 1)). rewrite E', (abs_removed dv cap m d' i W B R), S.
      split; [done|]. split; [by apply (wf_removed dv cap m d' i)|done].
    - exists m. rewrite (remove_missing dv m k i E). split; [done|]. split; [done|].
      symmetry. by apply delete_notin.
  Qed.

  Lemma is_empty_abs m : wf dv cap m → is_empty m = bool_decide (abs m = ∅).
  Proof.
    intros W. pose proof (abs_size dv cap m W) as S. unfold is_empty.
    destruct (Z.eqb_spec (count m) 0) as [E|E]; symmetry.
    - apply bool_decide_eq_true. apply map_size_empty_iff. lia.
    - apply bool_decide_eq_false. rewrite <- map_size_empty_iff. lia.
  Qed.

  Lemma step_refines m o : wf dv cap m → op_ok o →
    (expect_panics cap (abs m) o ∧ istep dv cap m o = Err P_EXPECT) ∨
    (¬ expect_panics cap (abs m) o ∧
     ∃ m' r, istep dv cap m o = Ok (m', r) ∧ wf dv cap m' ∧ astep cap (abs m) o r (abs m')).
  Proof.
    intros W Hok.
    destruct o as [k|k v|k v new|k v|k|i| | |]; cbn [istep astep expect_panics op_ok] in *.
    - right. split; [tauto|]. rewrite (get_is_lookup m k W). by exists m, (RetOpt (abs m !! k)).
    - right. split; [tauto|]. destruct (set_value_refines m k v W) as (m' & E & W' & A).
      rewrite E. by exists m', (RetOpt (abs m !! k)).
    - right. split; [tauto|]. destruct (insert_refines m k v new W) as (m' & x & E & W' & A).
      rewrite E. by exists m', (RetRes x).
    - (* insert = insert_with_options(.., false).expect: the refusal of a full map becomes the panic *)
      destruct (insert_refines m k v false W) as (m' & x & E & W' & A).
      unfold Model.insert. rewrite E. cbn [astep] in A. cbn [rbind].
      destruct (abs m !! k) as [old|]; [|case_decide as F]; destruct A as [[= ->] A].
      + right. split; [by intros [? _]|]. by exists m', (RetOpt (Some old)).
      + by left.
      + right. split; [tauto|]. by exists m', (RetOpt None).
    - right. split; [tauto|]. destruct (remove_refines m k W) as (m' & E & W' & A).
      rewrite E. by exists m', (RetOpt (abs m !! k)).
    - right. split; [tauto|]. rewrite (get_entry_by_index_spec dv cap m i W Hok).
      eexists m, _. split; [done|]. split; [done|].
      exists (entries m). split; [by apply (entries_listing dv cap)|]. split; [|done].
      f_equal. rewrite (entries_lookup dv cap) by done. rewrite Z2Nat.id by lia.
      destruct (Z.ltb_spec i (count m)); [by rewrite decide_True by lia|by rewrite decide_False by lia].
    - right. split; [tauto|]. rewrite (clear_spec dv cap m W).
      exists (empty dv cap), RetUnit. split; [done|]. split; [by apply wf_empty|done].
    - right. split; [tauto|]. exists m, (RetLen (len m) (is_empty m)). split; [done|]. split; [done|].
      unfold len. by rewrite (abs_size dv cap m W), (is_empty_abs m W).
    - right. split; [tauto|]. exists m, (RetList (entries m)). split; [done|]. split; [done|].
      exists (entries m). split; [by apply (entries_listing dv cap)|done].
  Qed.

  Lemma run_refines ops : ∀ m, wf dv cap m → Forall op_ok ops →
    (∃ rs m', irun dv cap ops m = Ok (rs, m') ∧ wf dv cap m' ∧ aruns cap (abs m) ops rs (abs m')) ∨
    (irun dv cap ops m = Err P_EXPECT ∧ apanics cap (abs m) ops).
  Proof.
    induction ops as [|o ops IH]; intros m W Hok.
    - left. exists [], m. simpl. split; [done|]. split; [done|constructor].
    - apply Forall_cons in Hok as [Ho Hok].
      destruct (step_refines m o W Ho) as [[P E]|(NP & m1 & r & E & W1 & A)].
      + right. simpl. rewrite E. simpl. split; [done|]. by constructor.
      + destruct (IH m1 W1 Hok) as [(rs & m' & E' & W' & R)|[E' P]].
        * left. exists (r :: rs), m'. simpl. rewrite E. simpl. rewrite E'. simpl.
          split; [done|]. split; [done|]. by econstructor.
        * right. simpl. rewrite E. simpl. rewrite E'. simpl. split; [done|]. by econstructor.
  Qed.

  Lemma apanics_has_insp a ops : apanics cap a ops → ∃ k v, OpInsP k v ∈ ops.
  Proof.
    induction 1 as [a o ops P|a o r a1 ops NP A Pn (k & v & IH)].
    - destruct o; simpl in P; try done. do 2 eexists. by left.
    - exists k, v. by right.
  Qed.
End StepRefine.
