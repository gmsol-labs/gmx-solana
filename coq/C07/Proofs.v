(* C07 — what a successful position action (PS/Actions.v) guarantees: increase and decrease are walked through once
   each, stage by stage; the effect on the open-interest / collateral-sum pools and on the position sizes, and the
   validation and flag gates that C09 builds on, are read off those two walks. *)
From GV Require Import lib.Base C01.Model C01.Proofs PS.Model PS.Lemmas PS.Actions PS.Frame.
Open Scope Z_scope.

Definition oi_amt (m : market) (l c : bool) := amount (oi_pool m l) c.
Definition oit_amt (m : market) (l c : bool) := amount (oit_pool m l) c.
Definition cs_amt (m : market) (l c : bool) := amount (cs_pool m l) c.

(* [hit l c l' c' d] = d on the pool (l, c), 0 elsewhere *)
Definition hit (l c l' c' : bool) (d : Z) : Z := if Bool.eqb l l' && Bool.eqb c c' then d else 0.

(* from [m] to [m']: same configuration, and of the C07 pools only those of side [l], token [c] have
   moved: open interest by [du], open interest in tokens by [dt], collateral sum by [dc] *)
Definition moved (m m' : market) (l c : bool) (du dt dc : Z) : Prop :=
  m_cfg m' = m_cfg m /\
  (forall l' c', oi_amt m' l' c' = oi_amt m l' c' + hit l c l' c' du) /\
  (forall l' c', oit_amt m' l' c' = oit_amt m l' c' + hit l c l' c' dt) /\
  (forall l' c', cs_amt m' l' c' = cs_amt m l' c' + hit l c l' c' dc).

Lemma view_amts m m' : view m' = view m ->
  m_cfg m' = m_cfg m /\ (forall l c, oi_amt m' l c = oi_amt m l c) /\ (forall l c, oit_amt m' l c = oit_amt m l c)
  /\ (forall l c, cs_amt m' l c = cs_amt m l c).
Proof.
  unfold view. intros H. injection H as H1 H2 H3 H4 H5 H6 H7.
  unfold oi_amt, oit_amt, cs_amt, oi_pool, oit_pool, cs_pool.
  repeat split; try assumption; intros [] c; congruence.
Qed.

Lemma moved_view m0 m0' m m' l c du dt dc : view m0 = view m -> view m0' = view m' ->
  moved m m' l c du dt dc -> moved m0 m0' l c du dt dc.
Proof.
  intros V V' (M1 & M2 & M3 & M4). apply view_amts in V, V'.
  destruct V as (A1 & A2 & A3 & A4), V' as (B1 & B2 & B3 & B4).
  split; [congruence|]. repeat split; intros l' c'; rewrite ?A2, ?A3, ?A4, ?B2, ?B3, ?B4; auto.
Qed.

Lemma hit_0 l c l' c' : hit l c l' c' 0 = 0.
Proof. unfold hit. destruct (_ && _); reflexivity. Qed.

Lemma moved_trans m m1 m2 l c du dt dc du' dt' dc' :
  moved m m1 l c du dt dc -> moved m1 m2 l c du' dt' dc' -> moved m m2 l c (du + du') (dt + dt') (dc + dc').
Proof.
  intros (A1 & A2 & A3 & A4) (B1 & B2 & B3 & B4). split; [congruence|].
  repeat split; intros l' c'; rewrite ?B2, ?B3, ?B4, ?A2, ?A3, ?A4; unfold hit; destruct (_ && _); lia.
Qed.

Section P.
  Variable w : Z.
  Hypothesis Hw : 1 <= w.
  Variable unit : Z.

  (* a pool written on side [l] through [pool_apply ... c d]: [f], [f'] the pools per side before and after *)
  Lemma side_hit (f f' : bool -> pool) l c d x : pool_apply w (f l) c d = Ok x ->
    f' l = x -> f' (negb l) = f (negb l) ->
    forall l' c', amount (f' l') c' = amount (f l') c' + hit l c l' c' d.
  Proof.
    intros H El En l' c'. apply pool_apply_spec in H. destruct H as (A1 & A2 & _). unfold hit.
    destruct (Bool.eqb l l') eqn:E.
    - apply Bool.eqb_prop in E. subst l'. rewrite El. destruct c, c'; cbn in *; lia.
    - replace l' with (negb l) by (destruct l, l'; try reflexivity; discriminate). rewrite En. cbn. lia.
  Qed.

  Lemma set_oi_moved m l c d x : pool_apply w (oi_pool m l) c d = Ok x -> moved m (set_oi m l x) l c d 0 0.
  Proof.
    intros H. split; [destruct l; reflexivity|]. split; [|split; intros l' c'; rewrite hit_0, Z.add_0_r; destruct l, l'; reflexivity].
    apply (side_hit (oi_pool m) (oi_pool (set_oi m l x)) _ _ _ _ H); destruct l; reflexivity.
  Qed.
  Lemma set_oit_moved m l c d x : pool_apply w (oit_pool m l) c d = Ok x -> moved m (set_oit m l x) l c 0 d 0.
  Proof.
    intros H. split; [destruct l; reflexivity|]. split; [intros l' c'; rewrite hit_0, Z.add_0_r; destruct l, l'; reflexivity|].
    split; [|intros l' c'; rewrite hit_0, Z.add_0_r; destruct l, l'; reflexivity].
    apply (side_hit (oit_pool m) (oit_pool (set_oit m l x)) _ _ _ _ H); destruct l; reflexivity.
  Qed.
  Lemma set_cs_moved m l c d x : pool_apply w (cs_pool m l) c d = Ok x -> moved m (set_cs m l x) l c 0 0 d.
  Proof.
    intros H. split; [destruct l; reflexivity|]. do 2 (split; [intros l' c'; rewrite hit_0, Z.add_0_r; destruct l, l'; reflexivity|]).
    apply (side_hit (cs_pool m) (cs_pool (set_cs m l x)) _ _ _ _ H); destruct l; reflexivity.
  Qed.

  Lemma apply_delta_to_oi_spec m l c d m' : apply_delta_to_oi w m l c d = Ok m' -> moved m m' l c d 0 0.
  Proof.
    unfold apply_delta_to_oi. intros H. bind_ok H as oi E. bind_ok H as u Eu. clear Eu.
    apply (moved_view m m' m (set_oi m l oi)); [reflexivity| |apply set_oi_moved; exact E].
    destruct (m_vi_pos m); [|injection H as <-; reflexivity].
    bind_ok H as ad E1. bind_ok H as vi1 E2. bind_ok H as vi2 E3. injection H as <-. destruct l; reflexivity.
  Qed.

  Lemma update_open_interest_spec p m a b m' :
    update_open_interest w p m a b = Ok m' -> (a = 0 -> b = 0) -> moved m m' (is_long p) (coll_long p) a b 0.
  Proof.
    unfold update_open_interest. intros H Hab. destruct (a =? 0) eqn:Ea.
    - injection H as <-. apply Z.eqb_eq in Ea. rewrite Ea, (Hab Ea).
      split; [reflexivity|]. repeat split; intros; rewrite hit_0; lia.
    - bind_ok H as m1 E. bind_ok H as t Et. injection H as <-.
      pose proof (moved_trans _ _ _ _ _ _ _ _ _ _ _ (apply_delta_to_oi_spec _ _ _ _ _ E) (set_oit_moved _ _ _ _ _ Et)) as M.
      rewrite Z.add_0_l, !Z.add_0_r in M. exact M.
  Qed.

  (* the common end of an increase and of a decrease: the collateral sum is written, then the open interest *)
  Lemma cs_then_oi q l c m m2 cs m3 m' dc a b :
    is_long q = l -> coll_long q = c ->
    view m2 = view m -> pool_apply w (cs_pool m2 l) c dc = Ok cs -> view m3 = view (set_cs m2 l cs) ->
    update_open_interest w q m3 a b = Ok m' -> (a = 0 -> b = 0) ->
    moved m m' l c a b dc.
  Proof.
    intros <- <- V Ecs V3 Eoi Hab.
    pose proof (moved_trans _ _ _ _ _ _ _ _ _ _ _ (set_cs_moved _ _ _ _ _ Ecs)
                  (moved_view _ _ _ _ _ _ _ _ _ (eq_sym V3) eq_refl (update_open_interest_spec _ _ _ _ _ Eoi Hab))) as M.
    rewrite !Z.add_0_l, Z.add_0_r in M. exact (moved_view _ _ _ _ _ _ _ _ _ (eq_sym V) eq_refl M).
  Qed.

  Lemma validate_position_ok p m pr a b :
    validate_position w unit p m pr a b = Ok tt ->
    size_usd p <> 0 /\ size_tok p <> 0 /\ check_liquidatable w unit p m pr b false = Ok None.
  Proof.
    unfold validate_position. intros H.
    destruct ((size_usd p =? 0) || (size_tok p =? 0)) eqn:E; [discriminate|].
    apply orb_false_iff in E. destruct E as [E1 E2]. apply Z.eqb_neq in E1, E2.
    destruct (a && _); [discriminate|].
    bind_ok H as r Er. destruct r; [discriminate|]. repeat split; assumption.
  Qed.

  Lemma validate_position_sizes p m pr a b : validate_position w unit p m pr a b = Ok tt ->
    size_usd p <> 0 /\ size_tok p <> 0.
  Proof. intros H. apply validate_position_ok in H. split; apply H. Qed.

  (* initialize_position_if_empty *)
  Definition opened (p : position) (m : market) : position :=
    if size_usd p =? 0
    then MkPos (is_long p) (coll_long p) (coll p) (size_usd p) 0 (bfac p)
               (amount (fa_pool m (is_long p)) (coll_long p)) (pl (cfa_pool m (is_long p))) (ps (cfa_pool m (is_long p)))
    else p.

  Lemma opened_fields p m :
    is_long (opened p m) = is_long p /\ coll_long (opened p m) = coll_long p /\ coll (opened p m) = coll p /\
    size_usd (opened p m) = size_usd p /\ size_tok (opened p m) = (if size_usd p =? 0 then 0 else size_tok p).
  Proof. unfold opened. destruct (size_usd p =? 0); cbn; repeat split; reflexivity. Qed.

  (* the stages of increase; [p0] is the initialised position, [m1] .. [m5] the market after each write *)

  (* get_execution_params *)
  Definition inc_params p0 m pr sd (l : bool) rep change : Prop :=
    if sd =? 0 then ir_impact_value rep = 0 /\ ir_impact_amount rep = 0 /\ ir_sdt rep = 0 /\ change = B_UNCHANGED
    else exists base,
      capped_positive_impact w unit p0 m (p_index pr) sd = Ok (ir_impact_value rep, change) /\
      (if 0 <? ir_impact_value rep
       then pm <-- rsigned w (pmax (p_index pr)) ;; of_opt E_COMP (sdiv w (ir_impact_value rep) pm)
       else of_opt E_COMP (round_up_mag_div w (pmin (p_index pr)) (ir_impact_value rep))) = Ok (ir_impact_amount rep) /\
      (if l then udiv w sd (pmax (p_index pr)) else round_up_div w sd (pmin (p_index pr))) = Some base /\
      (if l then add_with_signed w base (ir_impact_amount rep) else sub_with_signed w base (ir_impact_amount rep))
        = Some (ir_sdt rep).

  Definition inc_fees p0 m pr ci sd c rep change tc : Prop :=
    position_fees w unit p0 m (coll_price pr c) sd change false = Ok (ir_fees rep) /\
    fees_total w (ir_fees rep) = Ok tc /\ ir_coll_delta rep = ci - tc /\
    ir_claim_l rep = f_claim_l (ir_fees rep) /\ ir_claim_s rep = f_claim_s (ir_fees rep).

  Definition inc_market p0 m sd l c p1 m' rep fr fpl m1 m2 cs m4 m5 : Prop :=
    fees_for_receiver w (ir_fees rep) = Ok fr /\ apply_fee_delta w m c fr = Ok m1 /\
    fees_for_pool w (ir_fees rep) = Ok fpl /\ apply_delta w m1 c fpl = Ok m2 /\
    pool_apply w (cs_pool m2 l) c (ir_coll_delta rep) = Ok cs /\
    apply_impact_delta w (set_cs m2 l cs) (- ir_impact_amount rep) = Ok m4 /\
    update_total_borrowing w unit (set_pos_coll p0 (coll p1)) m4 (size_usd p1) (amount (m_bf m4) l) = Ok m5 /\
    update_open_interest w p1 m5 sd (ir_sdt rep) = Ok m'.

  Definition inc_position p p0 sd l c p1 rep m4 m5 : Prop :=
    is_long p1 = l /\ coll_long p1 = c /\
    size_usd p1 = size_usd p + sd /\ 0 <= size_usd p1 < 2 ^ w /\
    size_tok p1 = size_tok p0 + ir_sdt rep /\ 0 <= size_tok p1 < 2 ^ w /\
    coll p1 = coll p + ir_coll_delta rep /\ 0 <= coll p1 /\
    bfac p1 = amount (m_bf m4) l /\ ffa p1 = amount (fa_pool m5 l) c /\
    cfa_l p1 = pl (cfa_pool m5 l) /\ cfa_s p1 = ps (cfa_pool m5 l).

  Lemma increase_inv p m pr ci sd acc p1 m' rep :
    increase w unit p m pr ci sd acc = Ok (p1, m', rep) ->
    let p0 := opened p m in let l := is_long p in let c := coll_long p in
    exists change tc fr fpl m1 m2 cs m4 m5,
      inc_params p0 m pr sd l rep change /\
      inc_fees p0 m pr ci sd c rep change tc /\
      inc_market p0 m sd l c p1 m' rep fr fpl m1 m2 cs m4 m5 /\
      inc_position p p0 sd l c p1 rep m4 m5 /\
      validate_position w unit p1 m' pr true true = Ok tt.
  Proof using Hw.
    unfold increase. intros H.
    destruct (negb (prices_valid w pr)); [discriminate|].
    remember (if size_usd p =? 0 then _ else p) as p0 eqn:Hp0 in H.
    change (p0 = opened p m) in Hp0.
    destruct (opened_fields p m) as (L0 & C0 & K0 & S0 & T0). rewrite <- Hp0 in L0, C0, K0, S0, T0.
    (* the goal is folded while [H] is inverted *)
    match goal with |- ?G => set (Goal := G) end.
    bind_ok H as ex Eex. destruct ex as [[[[piv pia] sdt] ep] change].
    bind_ok H as cda0 E1. apply rsigned_ok in E1. destruct E1 as [_ ->].
    bind_ok H as fs E2. bind_ok H as tc E3.
    bind_ok H as tcs E4. apply rsigned_ok in E4. destruct E4 as [_ ->].
    bind_ok H as cda E5. apply ssub_some in E5. destruct E5 as [_ ->].
    bind_ok H as fr E6. bind_ok H as frs E7. apply rsigned_ok in E7. destruct E7 as [_ ->].
    bind_ok H as m1 E8. bind_ok H as fpl E9. bind_ok H as fps E10. apply rsigned_ok in E10. destruct E10 as [_ ->].
    bind_ok H as m2 E11. bind_ok H as cs E12. bind_ok H as coll' E13.
    bind_ok H as npia E14. apply sneg_some in E14. destruct E14 as [_ ->].
    bind_ok H as m4 E15.
    bind_ok H as next_size E16. apply uadd_some in E16. destruct E16 as [R16 ->].
    bind_ok H as m5 E17.
    bind_ok H as next_tok E18. apply uadd_some in E18. destruct E18 as [R18 ->].
    bind_ok H as sds E19. apply rsigned_ok in E19. destruct E19 as [_ ->].
    bind_ok H as sdts E20. apply rsigned_ok in E20. destruct E20 as [_ ->].
    bind_ok H as m6 E21.
    bind_ok H as u1 E22. bind_ok H as u2 E23. subst Goal. injection H as <- <- <-. destruct u2.
    assert (Hc : coll' = coll p0 + (ci - tc) /\ 0 <= coll').
    { destruct (add_with_signed w (coll p0) (ci - tc)) eqn:EA; [|destruct (0 <? ci - tc); discriminate].
      injection E13 as <-. unfold add_with_signed, uadd, usub in EA.
      destruct (0 <? ci - tc) eqn:Ec; apply chk_u_some in EA; lia. }
    cbv zeta. cbn [is_long coll_long size_usd size_tok coll bfac ffa cfa_l cfa_s ir_impact_value ir_impact_amount ir_sdt
                   ir_coll_delta ir_fees ir_claim_l ir_claim_s] in *.
    rewrite <- Hp0, <- L0, <- C0.
    exists change, tc, fr, fpl, m1, m2, cs, m4, m5.
    split.
    { unfold inc_params. cbn [ir_impact_value ir_impact_amount ir_sdt].
      destruct (sd =? 0); [injection Eex as <- <- <- _ <-; repeat split; reflexivity|].
      bind_ok Eex as sds F1. apply rsigned_ok in F1. destruct F1 as [_ ->].
      bind_ok Eex as imp F2. bind_ok Eex as pia' F3. bind_ok Eex as base F4. bind_ok Eex as sdt' F5.
      bind_ok Eex as ep' F6. injection Eex as <- <- <- _ <-. destruct imp as [piv' ch']. cbn [fst snd] in *.
      exists base. repeat split; assumption. }
    split; [repeat split; assumption|]. split; [repeat split; assumption|].
    split; [|exact E23]. unfold inc_position. rewrite <- S0, <- K0.
    repeat (split; [first [reflexivity|assumption|apply Hc|lia]|]). reflexivity.
  Qed.

  Lemma increase_spec p m pr ci sd acc p1 m' rep :
    increase w unit p m pr ci sd acc = Ok (p1, m', rep) ->
    validate_position w unit p1 m' pr true true = Ok tt /\
    is_long p1 = is_long p /\ coll_long p1 = coll_long p /\
    size_usd p1 = size_usd p + sd /\
    size_tok p1 = (if size_usd p =? 0 then 0 else size_tok p) + ir_sdt rep /\
    coll p1 = coll p + ir_coll_delta rep /\
    0 < size_usd p1 /\ 0 < size_tok p1 /\ 0 <= coll p1 /\
    moved m m' (is_long p) (coll_long p) sd (ir_sdt rep) (ir_coll_delta rep).
  Proof using Hw.
    intros H.
    destruct (increase_inv _ _ _ _ _ _ _ _ _ H) as (change & tc & fr & fpl & m1 & m2 & cs & m4 & m5 & Par & _ & Mkt & Pos & V).
    cbv zeta in *.
    destruct Mkt as (_ & E8 & _ & E11 & E12 & E15 & E17 & E21).
    destruct Pos as (L & C & U & RU & T & RT & K & HC & _).
    destruct (opened_fields p m) as (_ & _ & _ & _ & T0). rewrite T0 in T.
    assert (Hsdt : sd = 0 -> ir_sdt rep = 0).
    { intros ->. apply Par. }
    frame_eqs.
    pose proof (cs_then_oi _ _ _ m _ _ _ _ _ _ _ L C (eq_trans E11 E8) E12 (eq_trans E17 E15) E21 Hsdt) as M.
    pose proof (validate_position_sizes _ _ _ _ _ V) as [V1 V2].
    split; [exact V|]. repeat (split; [first [assumption|lia]|]). exact M.
  Qed.

  Lemma pnl_value_sdt p m pr d a b c : pnl_value w unit p m pr d = Ok (a, b, c) -> size_delta_in_tokens w p d = Ok c.
  Proof.
    unfold pnl_value. intros H. bind_ok H as t Et. bind_ok H as sdt Es. bind_ok H as a' Ea. bind_ok H as b' Eb.
    injection H as _ _ <-. exact Es.
  Qed.

  Lemma sdt_zero p c : 0 < size_usd p -> 0 <= size_tok p -> size_delta_in_tokens w p 0 = Ok c -> c = 0.
  Proof using Hw.
    intros HS HT H. unfold size_delta_in_tokens in H.
    replace (size_usd p =? 0) with false in H by (symmetry; apply Z.eqb_neq; lia).
    destruct (is_long p); ok_inj H.
    - apply mul_div_ceil_exact in H; [|lia..]. nia.
    - apply mul_div_floor in H; [|lia..]. nia.
  Qed.

  (* check_partial_close: the executed size delta is either the whole size, or leaves tokens behind *)
  Definition partial_ok (p : position) (sd : Z) : Prop :=
    sd = size_usd p \/ (sd < size_usd p /\ exists t, size_delta_in_tokens w p sd = Ok t /\ t < size_tok p).

  (* DecreasePositionFlags::init: the size delta is capped at the size, if capping is allowed *)
  Lemma capped_size_delta (size sd0 : Z) (cap : bool) sd1 :
    (if size <? sd0 then (if cap then Ok size else Err E_ARG) else Ok sd0) = Ok sd1 ->
    sd1 <= size /\ (size < sd0 -> cap = true) /\ (size <= sd0 -> sd1 = size).
  Proof.
    destruct (size <? sd0) eqn:E0; [apply Z.ltb_lt in E0|apply Z.ltb_ge in E0].
    - destruct cap; [|discriminate]. intros [= <-]. repeat split; auto; lia.
    - intros [= <-]. repeat split; lia.
  Qed.

  (* a removal is a close that is full on both dimensions *)
  Lemma removal_is_full p sd sdt : partial_ok p sd -> size_delta_in_tokens w p sd = Ok sdt ->
    (size_usd p - sd =? 0) || (size_tok p - sdt =? 0) = true -> sd = size_usd p /\ sdt = size_tok p.
  Proof.
    intros [->|(Hlt & t & Et & Htl)] E Hr.
    - split; [reflexivity|]. unfold size_delta_in_tokens in E. rewrite Z.eqb_refl in E. injection E as <-. reflexivity.
    - rewrite Et in E. injection E as <-. apply orb_true_iff in Hr. destruct Hr as [Hr|Hr]; apply Z.eqb_eq in Hr; lia.
  Qed.

  (* the stages of decrease; [sd1] is the capped size delta, [st] the collateral processor's final state,
     [rem_coll] / [out1] collateral and output after the withdrawal, [nc] / [out2] after the position update *)

  (* DecreasePositionFlags::init, check_partial_close *)
  Definition dec_init p sd0 fl sd1 sd : Prop :=
    (size_usd p =? 0) && (size_tok p =? 0) && (coll p =? 0) = false /\
    (if size_usd p <? sd0 then (if fl_cap fl then Ok (size_usd p) else Err E_ARG) else Ok sd0) = Ok sd1 /\
    partial_ok p sd /\ (size_usd p <= sd1 -> sd = sd1).

  Definition dec_params p m pr fl rep sd sdt change fs : Prop :=
    (if sd =? 0 then dr_impact_value rep = 0 /\ dr_impact_diff rep = 0
     else capped_impact w unit p m (p_index pr) (- sd) = Ok (dr_impact_value rep, change, dr_impact_diff rep)) /\
    pnl_value w unit p m pr sd = Ok (dr_pnl rep, dr_uncapped_pnl rep, sdt) /\
    position_fees w unit p m (coll_price pr (coll_long p)) sd change (fl_liq fl) = Ok fs.

  (* CollateralProcessor::process *)
  Definition dec_processed p m pr fl rep sd1 fs st : Prop :=
    process_costs w pr p m fs (dr_pnl rep) (dr_impact_value rep) (dr_impact_diff rep)
                  ((size_usd p =? sd1) && fl_insolvent fl) = Ok (st, dr_insolvent_step rep) /\
    dr_fees rep = st_fees st /\ dr_claim_l rep = f_claim_l (st_fees st) /\ dr_claim_s rep = f_claim_s (st_fees st) /\
    dr_hold_out rep = st_hold_out st /\ dr_hold_sec rep = st_hold_sec st /\
    dr_user_out rep = st_user_out st /\ dr_user_sec rep = st_user_sec st.

  Definition dec_withdrawn st rem_coll out1 : Prop :=
    rem_coll + out1 = st_coll st + st_out st /\ (0 <= st_coll st -> 0 <= rem_coll).

  Definition dec_position p pr p1 m' rep sd sdt rem_coll out1 nc out2 : Prop :=
    0 <= size_usd p - sd < 2 ^ w /\ 0 <= size_tok p - sdt < 2 ^ w /\ 0 <= coll p - nc < 2 ^ w /\
    dr_remove rep = (size_usd p - sd =? 0) || (size_tok p - sdt =? 0) /\
    (if dr_remove rep then size_usd p1 = 0 /\ size_tok p1 = 0 /\ nc = 0 /\ out2 = out1 + rem_coll
     else size_usd p1 = size_usd p - sd /\ size_tok p1 = size_tok p - sdt /\ nc = rem_coll /\ out2 = out1 /\
          validate_position w unit p1 m' pr false false = Ok tt) /\
    is_long p1 = is_long p /\ coll_long p1 = coll_long p /\ coll p1 = nc.

  Definition dec_market p p1 m' sd sdt st m2 nc cs : Prop :=
    update_total_borrowing w unit p (st_m st) (size_usd p - sd) (amount (m_bf (st_m st)) (is_long p)) = Ok m2 /\
    pool_apply w (cs_pool m2 (is_long p)) (coll_long p) (- (coll p - nc)) = Ok cs /\
    update_open_interest w p1 (set_cs m2 (is_long p) cs) (- sd) (- sdt) = Ok m'.

  (* outputs, merged when the pnl token is the collateral token *)
  Definition dec_outputs p rep st out2 : Prop :=
    if same_tokens p && negb (st_sec st =? 0) then dr_output rep = out2 + st_sec st /\ dr_secondary rep = 0
    else dr_output rep = out2 /\ dr_secondary rep = st_sec st.

  Lemma decrease_inv p m pr sd0 acc cw fl p1 m' rep :
    decrease w unit p m pr sd0 acc cw fl = Ok (p1, m', rep) ->
    let sd := dr_size_delta rep in let sdt := dr_sdt rep in
    exists sd1 change fs st rem_coll out1 m2 nc out2 cs,
      dec_init p sd0 fl sd1 sd /\
      (fl_liq fl = true -> exists reason, check_liquidatable w unit p m pr true true = Ok (Some reason)) /\
      dec_params p m pr fl rep sd sdt change fs /\
      dec_processed p m pr fl rep sd1 fs st /\
      dec_withdrawn st rem_coll out1 /\
      dec_position p pr p1 m' rep sd sdt rem_coll out1 nc out2 /\
      dec_market p p1 m' sd sdt st m2 nc cs /\
      dec_outputs p rep st out2.
  Proof using Hw.
    intros H. unfold decrease in H.
    destruct (negb (prices_valid w pr)); [discriminate|].
    destruct ((size_usd p =? 0) && (size_tok p =? 0) && (coll p =? 0)) eqn:Ene; [discriminate|].
    match goal with |- ?G => set (Goal := G) end.
    bind_ok H as sd1 Esd1.
    bind_ok H as pc Epc. destruct pc as [sd wd1].
    assert (Hpart : partial_ok p sd /\ (size_usd p <= sd1 -> sd = sd1)).
    { destruct (sd1 <? size_usd p) eqn:Elt; [apply Z.ltb_lt in Elt|injection Epc as <- _; split; [left; apply Z.ltb_ge in Elt|reflexivity]].
      - split; [|lia].
        bind_ok Epc as pn E1. bind_ok Epc as realized E2. bind_ok Epc as remaining E3. bind_ok Epc as nsd E4.
        bind_ok Epc as s5 E5. bind_ok Epc as x6 E6. destruct x6 as [rcv wd1'].
        bind_ok Epc as rv E7. bind_ok Epc as mcv E8. bind_ok Epc as sd3 E9. injection Epc as <- _.
        set (sd2 := if rv <? mcv then size_usd p else sd1) in *.
        destruct (sd2 <? size_usd p) eqn:Elt2.
        + bind_ok E9 as rs E10. bind_ok E9 as small E11. injection E9 as <-.
          destruct small; [left; reflexivity|].
          right. apply Z.ltb_lt in Elt2. split; [exact Elt2|].
          destruct (rs <? pp_min_size (c_pos (m_cfg m))); [discriminate|].
          bind_ok E11 as t E12. injection E11 as E11. exists t. split; [exact E12|]. apply Z.leb_gt in E11. exact E11.
        + injection E9 as <-. left. apply Z.ltb_ge in Elt2. subst sd2.
          destruct (rv <? mcv); [reflexivity|]. lia.
      - apply capped_size_delta in Esd1. lia. }
    clear Epc. destruct Hpart as [Hpart Hsd].
    bind_ok H as u1 Eliq.
    assert (Hliq : fl_liq fl = true -> exists reason, check_liquidatable w unit p m pr true true = Ok (Some reason)).
    { intros Efl. rewrite Efl in Eliq. bind_ok Eliq as r Er. destruct r as [reason|]; [exists reason; exact Er|discriminate]. }
    clear Eliq.
    bind_ok H as ex Eex. destruct ex as [[[piv change] diff] ep].
    assert (Hex : if sd =? 0 then piv = 0 /\ diff = 0
                  else capped_impact w unit p m (p_index pr) (- sd) = Ok (piv, change, diff)).
    { destruct (sd =? 0); [injection Eex as <- _ <- _; split; reflexivity|].
      bind_ok Eex as nsd G1. apply ropp_val in G1. subst nsd.
      bind_ok Eex as imp G2. destruct imp as [[piv' change'] diff'].
      bind_ok Eex as ep' G3. injection Eex as <- <- <- _. exact G2. }
    clear Eex.
    bind_ok H as pn Epn. destruct pn as [[base_pnl uncapped_pnl] sdt].
    bind_ok H as fs Efs.
    bind_ok H as pr_ Eproc. destruct pr_ as [st step].
    bind_ok H as wd3 Ewd3. clear Ewd3.
    set (wd := if st_coll st <? wd3 then st_coll st else wd3) in *.
    bind_ok H as x Ex. destruct x as [rem_coll out1].
    assert (Hx : rem_coll + out1 = st_coll st + st_out st /\ (0 <= st_coll st -> 0 <= rem_coll)).
    { destruct (wd =? 0) eqn:Ew; [injection Ex as <- <-; split; [lia|auto]|].
      bind_ok Ex as o Eo. apply uadd_some in Eo. destruct Eo as [_ ->]. injection Ex as <- <-.
      split; [lia|]. subst wd. destruct (st_coll st <? wd3) eqn:E1; [lia|]. apply Z.ltb_ge in E1. lia. }
    clear Ex.
    bind_ok H as next_size Ens. apply usub_some in Ens. destruct Ens as [Rns ->].
    bind_ok H as m2 Em2.
    bind_ok H as next_tok Ent. apply usub_some in Ent. destruct Ent as [Rnt ->].
    bind_ok H as y Ey. destruct y as [[[ns nt] nc] out2].
    bind_ok H as cdelta Ecd. apply usub_some in Ecd. destruct Ecd as [Rcd ->].
    bind_ok H as ncd Encd. apply ropp_val in Encd. subst ncd.
    bind_ok H as cs Ecs.
    bind_ok H as nsd Ensd. apply ropp_val in Ensd. subst nsd.
    bind_ok H as nsdt Ensdt. apply ropp_val in Ensdt. subst nsdt.
    bind_ok H as m4 Em4.
    bind_ok H as u2 Eval.
    bind_ok H as zz Ez. destruct zz as [out3 sec3].
    subst Goal. injection H as <- <- <-. cbv zeta.
    cbn [is_long coll_long size_usd size_tok coll dr_size_delta dr_sdt dr_remove dr_impact_value dr_impact_diff
         dr_pnl dr_uncapped_pnl dr_insolvent_step dr_fees dr_claim_l dr_claim_s dr_hold_out dr_hold_sec
         dr_user_out dr_user_sec dr_output dr_secondary].
    exists sd1, change, fs, st, rem_coll, out1, m2, nc, out2, cs.
    split; [repeat split; assumption|]. split; [exact Hliq|]. split; [repeat split; assumption|].
    split; [repeat split; first [assumption|reflexivity]|]. split; [exact Hx|].
    split.
    { do 4 (split; [first [assumption|reflexivity]|]). cbn [dr_remove size_usd size_tok coll is_long coll_long].
      destruct (_ || _).
      - bind_ok Ey as o Eo. apply uadd_some in Eo. destruct Eo as [_ ->]. injection Ey as <- <- <- <-. repeat split; reflexivity.
      - injection Ey as <- <- <- <-. destruct u2. repeat split; try reflexivity. exact Eval. }
    split; [repeat split; assumption|].
    unfold dec_outputs. cbn [dr_output dr_secondary]. destruct (same_tokens p && negb (st_sec st =? 0)).
    - bind_ok Ez as o Eo. apply uadd_some in Eo. destruct Eo as [_ ->]. injection Ez as <- <-. split; reflexivity.
    - injection Ez as <- <-. split; reflexivity.
  Qed.

  Lemma decrease_spec p m pr sd0 acc cw fl p1 m' rep :
    0 < size_usd p -> 0 < size_tok p -> 0 <= coll p ->
    decrease w unit p m pr sd0 acc cw fl = Ok (p1, m', rep) ->
    ((size_usd p < sd0 -> fl_cap fl = true) /\ (size_usd p <= sd0 -> dr_size_delta rep = size_usd p) /\
     (fl_liq fl = true -> exists reason, check_liquidatable w unit p m pr true true = Ok (Some reason)) /\
     (dr_remove rep = false -> validate_position w unit p1 m' pr false false = Ok tt)) /\
    is_long p1 = is_long p /\ coll_long p1 = coll_long p /\
    size_usd p1 = size_usd p - dr_size_delta rep /\ size_tok p1 = size_tok p - dr_sdt rep /\
    0 <= coll p1 <= coll p /\
    (dr_remove rep = true -> size_usd p1 = 0 /\ size_tok p1 = 0 /\ coll p1 = 0) /\
    (dr_remove rep = false -> 0 < size_usd p1 /\ 0 < size_tok p1) /\
    moved m m' (is_long p) (coll_long p) (- dr_size_delta rep) (- dr_sdt rep) (- (coll p - coll p1)).
  Proof using Hw.
    intros HS HT HC H.
    destruct (decrease_inv _ _ _ _ _ _ _ _ _ _ H) as (sd1 & change & fs & st & rem_coll & out1 & m2 & nc & out2 & cs
      & (_ & Esd1 & Hpart & Hsd) & Hliq & (_ & Epn & _) & (Eproc & _) & (_ & Hrem)
      & (Rns & Rnt & Rcd & Erm & Hst & L & C & K) & (Em2 & Ecs & Em4) & _).
    cbv zeta in *.
    apply capped_size_delta in Esd1. destruct Esd1 as (_ & Hcap & Hall).
    apply pnl_value_sdt in Epn.
    apply process_costs_good in Eproc; [|exact HC]. destruct Eproc as [Vst Cst]. specialize (Hrem Cst).
    pose proof (removal_is_full _ _ _ Hpart Epn) as Hfull. rewrite <- Erm in Hfull.
    assert (Hzero : - dr_size_delta rep = 0 -> - dr_sdt rep = 0).
    { intros Hz. replace (dr_size_delta rep) with 0 in Epn by lia. apply sdt_zero in Epn; lia. }
    apply update_total_borrowing_view in Em2.
    pose proof (cs_then_oi _ _ _ m _ _ _ _ _ _ _ L C (eq_trans Em2 Vst) Ecs eq_refl Em4 Hzero) as M.
    rewrite K. clear - HS HT HC Hcap Hall Hsd Hliq Rns Rnt Rcd Hst L C Hfull Hrem M Hw.
    split.
    { split; [exact Hcap|]. split; [lia|]. split; [exact Hliq|].
      destruct (dr_remove rep); [discriminate|]. intros _. apply Hst. }
    split; [exact L|]. split; [exact C|].
    destruct (dr_remove rep).
    - destruct Hst as (-> & -> & -> & _). destruct (Hfull eq_refl).
      split; [lia|]. split; [lia|]. split; [lia|]. split; [auto|]. split; [discriminate|]. exact M.
    - destruct Hst as (U & T & -> & _ & V). apply validate_position_sizes in V.
      split; [exact U|]. split; [exact T|]. split; [lia|]. split; [discriminate|]. split; [lia|]. exact M.
  Qed.

  Lemma decrease_nonempty p m pr sd acc cw fl r : decrease w unit p m pr sd acc cw fl = Ok r ->
    ~ (size_usd p = 0 /\ size_tok p = 0 /\ coll p = 0).
  Proof using Hw.
    destruct r as [[p1 m'] rep]. intros H (HS & HT & HC).
    destruct (decrease_inv _ _ _ _ _ _ _ _ _ _ H) as (? & ? & ? & ? & ? & ? & ? & ? & ? & ? & (Ene & _) & _).
    rewrite HS, HT, HC in Ene. discriminate.
  Qed.

  Lemma liquidate_decrease p m pr sd acc cw r : liquidate w unit p m pr sd acc cw = Ok r ->
    size_usd p <= sd /\ decrease w unit p m pr sd acc cw (MkFlags true true false) = Ok r.
  Proof. unfold liquidate. destruct (sd <? size_usd p) eqn:E; [discriminate|]. apply Z.ltb_ge in E. auto. Qed.

  Lemma auto_deleverage_spec p m pr sd acc cw p1 m' rep before after :
    auto_deleverage w unit p m pr sd acc cw = Ok (p1, m', rep, before, after) ->
    pnl_factor_exceeded_adl w unit m pr (is_long p) = Ok (Some before) /\
    0 < before /\ c_max_pnl_adl (m_cfg m) < before /\
    decrease w unit p m pr sd acc cw (MkFlags true false false) = Ok (p1, m', rep) /\
    pnl_factor w unit m' pr (is_long p) = Ok after /\
    after < before /\ c_min_pnl_after_adl (m_cfg m') <= after.
  Proof.
    unfold auto_deleverage. intros H.
    bind_ok H as ex Eex. destruct ex as [b|]; [|discriminate].
    bind_ok H as r Er. destruct r as [[p1' m1'] rep'].
    bind_ok H as a Ea. destruct (negb (a <? b)) eqn:E1; [discriminate|].
    bind_ok H as mn Emn. destruct (a <? mn) eqn:E2; [discriminate|].
    injection H as <- <- <- <- <-.
    apply negb_false_iff in E1. apply Z.ltb_lt in E1. apply Z.ltb_ge in E2.
    apply rsigned_ok in Emn. destruct Emn as [_ ->].
    split; [exact Eex|].
    assert (Hb : 0 < b /\ c_max_pnl_adl (m_cfg m) < b).
    { unfold pnl_factor_exceeded_adl in Eex. bind_ok Eex as x Ex.
      destruct ((0 <? fst x) && (c_max_pnl_adl (m_cfg m) <? Z.abs (fst x))) eqn:E3; [|discriminate].
      injection Eex as <-. apply andb_prop in E3. destruct E3 as [E3 E4]. apply Z.ltb_lt in E3, E4. lia. }
    destruct Hb. repeat split; assumption.
  Qed.
End P.
