(* C31 — order fee discounts are valid fractions combining rank and referral.
   [reachable unit st]: st is obtained from a zeroed Store by GT init followed by any
   sequence of set_order_fee_discount_factors (accepted or rejected) and referral-factor inserts. *)
From GV Require Import lib.Base C31.Model C31.Proofs.
Open Scope Z_scope.

(* the discount is between 0% and 100% *)
Theorem c31_discount_le_unit : forall w, 1 <= w -> forall unit, 0 < unit < 2 ^ w ->
  forall st rank referred d, reachable unit st -> 0 <= rank ->
  discount w unit st rank referred = Ok d -> 0 <= d <= unit.
Proof. exact h_discount_le_unit. Qed.

(* a referred user's discount is at least the unreferred one (and at least the referral discount) *)
Theorem c31_referred_ge_unreferred : forall w, 1 <= w -> forall unit, 0 < unit < 2 ^ w ->
  forall st rank a d, reachable unit st -> 0 <= rank ->
  discount w unit st rank false = Ok a -> discount w unit st rank true = Ok d -> a <= d /\ g_ref st <= d.
Proof. exact h_referred_ge_unreferred. Qed.

(* ... equal to 1 - (1 - rank discount)(1 - referral discount), rounded down by less than one unit *)
Theorem c31_discount_formula : forall w, 1 <= w -> forall unit, 0 < unit < 2 ^ w ->
  forall st rank a d, reachable unit st -> 0 <= rank ->
  discount w unit st rank false = Ok a -> discount w unit st rank true = Ok d ->
  d = g_ref st + a * (unit - g_ref st) / unit /\
  unit * d <= unit * unit - (unit - a) * (unit - g_ref st) < unit * d + unit.
Proof. exact h_discount_formula. Qed.

Theorem c31_rank_above_max_rejected : forall w unit st rank referred, g_max_rank st < rank ->
  discount w unit st rank referred = Err 1.
Proof. exact rank_above_max_rejected. Qed.

(* valid ranks with a referral discount of at most 100% always get a discount *)
Theorem c31_discount_total : forall w, 1 <= w -> forall unit, 0 < unit < 2 ^ w ->
  forall st rank referred, reachable unit st -> 0 <= rank <= g_max_rank st -> g_ref st <= unit ->
  exists d, discount w unit st rank referred = Ok d.
Proof. exact h_discount_total. Qed.

(* a referral discount above 100% (not validated on insert) makes the referred query fail *)
Theorem c31_referral_above_unit_rejected : forall w unit st rank, 0 <= rank <= g_max_rank st -> unit < g_ref st -> discount w unit st rank true = Err 3.
Proof. exact referral_above_unit_rejected. Qed.

(* the table setter caps factors at 100% and keeps the invariant over whole histories *)
Theorem c31_set_factors_rejects_above_unit : forall unit st fs,
  (exists f, In f fs /\ unit < f) -> set_factors unit st fs = Err 1.
Proof. exact set_factors_rejects. Qed.

Theorem c31_table_invariant : forall w, 1 <= w -> forall unit, 0 < unit < 2 ^ w ->
  forall st, reachable unit st ->
  (0 <= g_max_rank st <= MAX_RANK /\ length (g_table st) = 16%nat /\
   Forall (fun f => 0 <= f <= unit) (g_table st)) /\ 0 <= g_ref st.
Proof. exact reachable_inv. Qed.

Theorem c31_sdk_discount_eq_program : forall w unit st rank referred,
  sdk_discount w unit st rank referred = discount w unit st rank referred.
Proof. exact sdk_eq_program. Qed.

(* a reachable state with a non-trivial table, and the 2.5% / 10% example *)
Example c31_ex1 : gt_init zero_state false 1 [10; 20] = Ok (MkG 2 (repeat 0 16) 0).
Proof. vm_compute. reflexivity. Qed.
Example c31_ex2 :
  let u := 100000000000000000000 in
  let st := fold_left (apply_op u) [ORef (u / 10); OSet [0; u / 1000 * 25; u / 2]] (MkG 2 (repeat 0 16) 0) in
  discount 128 u st 1 false = Ok (u / 1000 * 25) /\
  discount 128 u st 1 true = Ok 12250000000000000000 /\
  discount 128 u st 3 true = Err 1.
Proof. vm_compute. repeat split; reflexivity. Qed.
