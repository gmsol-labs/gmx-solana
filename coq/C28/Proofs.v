(* C28 — proofs about decode_full_report and from_chainlink_report. *)
From GV Require Import lib.Base lib.DivLemmas lib.Checked C26.Model C26.Proofs C28.Model.
Open Scope Z_scope.

Definition bytes (l : list Z) : Prop := Forall (fun x => 0 <= x < 256) l.

Lemma len_nonneg l : 0 <= len l. Proof. unfold len. lia. Qed.

Lemma slice_some l a b : 0 <= a <= b -> b <= len l ->
  slice l a b = Some (firstn (Z.to_nat (b - a)) (skipn (Z.to_nat a) l)).
Proof.
  intros H1 H2. unfold slice. replace (a <? 0) with false by lia. replace (b <? a) with false by lia.
  replace (len l <? b) with false by lia. reflexivity.
Qed.

Lemma slice_len l a b s : slice l a b = Some s -> len s = b - a /\ 0 <= a <= b /\ b <= len l.
Proof.
  unfold slice. destruct (a <? 0) eqn:E1; [discriminate|]. destruct (b <? a) eqn:E2; [discriminate|].
  destruct (len l <? b) eqn:E3; [discriminate|]. cbn [orb]. intros X; injection X as <-.
  unfold len in *. rewrite firstn_length, skipn_length. lia.
Qed.

Lemma slice_bytes l a b s : bytes l -> slice l a b = Some s -> bytes s.
Proof.
  unfold slice. destruct (_ || _); [discriminate|]. intros H [= <-].
  unfold bytes in *. rewrite Forall_forall in *. intros x Hx. apply in_firstn, in_skipn in Hx. auto.
Qed.

Lemma skipn_add {A} a b (l : list A) : skipn a (skipn b l) = skipn (b + a) l.
Proof. revert l. induction b as [|b IH]; intros l; [reflexivity|]. destruct l; cbn [skipn plus]; [destruct a; reflexivity|apply IH]. Qed.

Lemma firstn_plus {A} a b (l : list A) : firstn a l ++ firstn b (skipn a l) = firstn (a + b) l.
Proof.
  rewrite <- (firstn_skipn a (firstn (a + b) l)). rewrite firstn_firstn, skipn_firstn_comm.
  do 2 f_equal; lia.
Qed.

(* a slice of a slice is a slice of the whole *)
Lemma slice_slice l a b s c d : slice l a b = Some s -> 0 <= c <= d -> d <= b - a ->
  slice s c d = slice l (a + c) (a + d).
Proof.
  intros H Hc Hd. destruct (slice_len _ _ _ _ H) as (L & Ha & Hb).
  rewrite (slice_some s c d), (slice_some l (a + c) (a + d)) by lia. f_equal.
  rewrite slice_some in H by lia. injection H as <-.
  rewrite skipn_firstn_comm, firstn_firstn, skipn_add. f_equal; [lia|f_equal; lia].
Qed.

Lemma be_bound_gen l : bytes l -> forall acc, 0 <= acc ->
  0 <= fold_left (fun a x => a * 256 + x) l acc < (acc + 1) * 256 ^ len l.
Proof.
  induction 1 as [|x r Hx _ IH]; intros acc Ha; cbn [fold_left].
  - unfold len. cbn. lia.
  - specialize (IH (acc * 256 + x) ltac:(lia)).
    replace (len (x :: r)) with (1 + len r) by (unfold len; cbn [length]; lia).
    rewrite Z.pow_add_r by (pose proof (len_nonneg r); lia). change (256 ^ 1) with 256.
    pose proof (len_nonneg r). assert (0 < 256 ^ len r) by (apply Z.pow_pos_nonneg; lia). nia.
Qed.
Lemma be_bound l : bytes l -> 0 <= be l < 256 ^ len l.
Proof. intros H. pose proof (be_bound_gen l H 0 ltac:(lia)). unfold be. lia. Qed.

(* the eight bytes at a: a usize *)
Lemma be8_u64 p a : bytes p -> 0 <= a -> a + 8 <= len p -> 0 <= be (firstn 8 (skipn (Z.to_nat a) p)) < 2 ^ 64.
Proof.
  intros HB Ha Hl. pose proof (slice_some p a (a + 8) ltac:(lia) Hl) as S.
  replace (Z.to_nat (a + 8 - a)) with 8%nat in S by lia.
  pose proof (be_bound _ (slice_bytes _ _ _ _ HB S)) as B. apply slice_len in S. destruct S as [L _]. rewrite L in B.
  replace (a + 8 - a) with 8 in B by lia. exact B.
Qed.

Lemma be_zeros z l : Forall (fun x => x = 0) z -> be (z ++ l) = be l.
Proof.
  unfold be. rewrite fold_left_app. intros H. f_equal.
  induction H as [|x r -> _ IH]; cbn [fold_left]; [reflexivity|exact IH].
Qed.

Definition off_of (p : list Z) : Z := be (firstn 8 (skipn 120 p)).
Definition len_of (p : list Z) (off : Z) : Z := be (firstn 8 (skipn (Z.to_nat (off + 24)) p)).

Theorem decode_full_report_spec p : bytes p -> len p < 2 ^ 63 ->
  decode_full_report p =
    if len p <? 128 then Some (Err 1)
    else let off := off_of p in
         if (off <? 128) || (len p <? off + 32) then Some (Err 2)
         else let n := len_of p off in
              if len p <? off + 32 + n then Some (Err 2)
              else Some (Ok (firstn 96 p, off + 32, n, firstn (Z.to_nat n) (skipn (Z.to_nat (off + 32)) p))).
Proof.
  intros HB HL. unfold decode_full_report. destruct (len p <? 128) eqn:E0; [reflexivity|].
  rewrite (slice_some p 0 32), (slice_some p 32 64), (slice_some p 64 96) by lia. cbn [obind].
  (* the offset: bytes 24..32 of the fourth word, that is bytes 120..128 of the payload *)
  pose proof (slice_some p 96 128 ltac:(lia) ltac:(lia)) as W. rewrite W. cbn [obind].
  rewrite (slice_slice _ _ _ _ 24 32 W), slice_some by lia. cbn [obind].
  change (Z.to_nat (96 + 32 - (96 + 24))) with 8%nat. change (Z.to_nat (96 + 24)) with 120%nat. fold (off_of p). cbv zeta.
  pose proof (be8_u64 p 120 HB ltac:(lia) ltac:(lia) : 0 <= off_of p < 2 ^ 64) as Boff. set (off := off_of p) in *.
  destruct (off <? 128) eqn:E1; [reflexivity|]. cbn [orb]. unfold usize_add.
  destruct (chk_u 64 (off + 32)) as [le|] eqn:C1.
  2:{ apply chk_u_none in C1. replace (len p <? off + 32) with true by lia. reflexivity. }
  apply chk_u_some in C1. destruct C1 as [C1 ->].
  destruct (len p <? off + 32) eqn:E2; [reflexivity|].
  (* the length: likewise bytes off+24..off+32 *)
  pose proof (slice_some p off (off + 32) ltac:(lia) ltac:(lia)) as LW. rewrite LW. cbn [obind].
  rewrite (slice_slice _ _ _ _ 24 32 LW), slice_some by lia. cbn [obind].
  replace (Z.to_nat (off + 32 - (off + 24))) with 8%nat by lia. fold (len_of p off).
  pose proof (be8_u64 p (off + 24) HB ltac:(lia) ltac:(lia)) as Bn. fold (len_of p off) in Bn.
  set (n := len_of p off) in *.
  destruct (chk_u 64 (off + 32 + n)) as [be_|] eqn:C2.
  2:{ apply chk_u_none in C2. replace (len p <? off + 32 + n) with true by lia. reflexivity. }
  apply chk_u_some in C2. destruct C2 as [C2 ->].
  destruct (len p <? off + 32 + n) eqn:E3; [reflexivity|].
  rewrite (slice_some p (off + 32) (off + 32 + n)) by lia. cbn [obind].
  replace (off + 32 + n - (off + 32)) with n by lia. do 5 f_equal.
  (* the three context words are the first 96 bytes *)
  change (firstn 32 p ++ firstn 32 (skipn 32 p) ++ firstn 32 (skipn 64 p) = firstn (32 + (32 + 32)) p).
  replace (skipn 64 p) with (skipn 32 (skipn 32 p)) by apply skipn_add.
  rewrite (firstn_plus 32 32 (skipn 32 p)). apply firstn_plus.
Qed.

Theorem full_report_total p : bytes p -> len p < 2 ^ 63 -> decode_full_report p <> None.
Proof.
  intros HB HL. rewrite decode_full_report_spec by assumption.
  destruct (len p <? 128); [discriminate|]. cbv zeta.
  destruct (_ || _); [discriminate|]. destruct (_ <? _); discriminate.
Qed.

(* full 32-byte ABI words, and the condition that only their low 8 bytes are used *)
Definition word (p : list Z) (i : Z) : Z := be (firstn 32 (skipn (Z.to_nat i) p)).
Definition high_zero (p : list Z) (i : Z) : Prop := Forall (fun x => x = 0) (firstn 24 (skipn (Z.to_nat i) p)).

Lemma word_low p i : 0 <= i -> high_zero p i -> word p i = be (firstn 8 (skipn (Z.to_nat (i + 24)) p)).
Proof.
  intros Hi H. unfold word, high_zero in *.
  rewrite <- (firstn_skipn 24 (firstn 32 (skipn (Z.to_nat i) p))).
  rewrite firstn_firstn. change (Nat.min 24 32) with 24%nat. rewrite be_zeros by exact H.
  rewrite skipn_firstn_comm. change (32 - 24)%nat with 8%nat. rewrite skipn_add.
  f_equal. f_equal. f_equal. lia.
Qed.

(* success: the blob is exactly the slice described by the (low 8 bytes of the) offset and length words *)
Theorem blob_is_slice p ctx st n blob : bytes p -> len p < 2 ^ 63 ->
  decode_full_report p = Some (Ok (ctx, st, n, blob)) ->
  let off := off_of p in
  128 <= len p /\ ctx = firstn 96 p /\ 128 <= off /\ st = off + 32 /\ n = len_of p off /\ 0 <= n /\
  st + n <= len p /\ blob = firstn (Z.to_nat n) (skipn (Z.to_nat st) p) /\ len blob = n.
Proof.
  intros HB HL. rewrite decode_full_report_spec by assumption. cbv zeta.
  destruct (len p <? 128) eqn:E0; [discriminate|].
  destruct ((off_of p <? 128) || (len p <? off_of p + 32)) eqn:E1; [discriminate|].
  destruct (len p <? off_of p + 32 + len_of p (off_of p)) eqn:E2; [discriminate|].
  intros X; injection X as <- <- <- <-. apply orb_false_iff in E1. destruct E1 as [E1 E1'].
  pose proof (be8_u64 p (off_of p + 24) HB ltac:(lia) ltac:(lia)) as Bn. fold (len_of p (off_of p)) in Bn.
  repeat split; try lia.
  unfold len in *. rewrite firstn_length, skipn_length. lia.
Qed.

Theorem blob_is_abi_slice p ctx st n blob : bytes p -> len p < 2 ^ 63 ->
  decode_full_report p = Some (Ok (ctx, st, n, blob)) ->
  high_zero p 96 -> high_zero p (st - 32) ->
  st = word p 96 + 32 /\ n = word p (word p 96) /\ blob = firstn (Z.to_nat n) (skipn (Z.to_nat st) p).
Proof.
  intros HB HL H Z1 Z2. pose proof (blob_is_slice _ _ _ _ _ HB HL H) as K. cbv zeta in K.
  destruct K as (_ & _ & K1 & K2 & K3 & _ & _ & K4 & _).
  assert (W1 : word p 96 = off_of p) by (rewrite word_low by (try lia; assumption); reflexivity).
  replace (st - 32) with (off_of p) in Z2 by lia.
  assert (W2 : word p (off_of p) = len_of p (off_of p)) by (rewrite word_low by (try lia; assumption); reflexivity).
  rewrite W1, W2. repeat split; try lia; assumption.
Qed.

Theorem full_report_errors p e : bytes p -> len p < 2 ^ 63 ->
  decode_full_report p = Some (Err e) <->
  (e = 1 /\ len p < 128) \/
  (e = 2 /\ 128 <= len p /\
     (off_of p < 128 \/ len p < off_of p + 32 \/ len p < off_of p + 32 + len_of p (off_of p))).
Proof.
  intros HB HL. rewrite decode_full_report_spec by assumption. cbv zeta.
  destruct (len p <? 128) eqn:E0.
  - split; [intros X; injection X as <-; left; lia|]. intros [[-> _]|[_ [? _]]]; [reflexivity|lia].
  - destruct ((off_of p <? 128) || (len p <? off_of p + 32)) eqn:E1.
    + apply orb_true_iff in E1. split; [intros X; injection X as <-; right; lia|].
      intros [[_ ?]|[-> _]]; [lia|reflexivity].
    + apply orb_false_iff in E1. destruct (len p <? off_of p + 32 + len_of p (off_of p)) eqn:E2.
      * split; [intros X; injection X as <-; right; lia|]. intros [[_ ?]|[-> _]]; [lia|reflexivity].
      * split; [discriminate|]. intros [[_ ?]|[_ [_ ?]]]; lia.
Qed.

(* the literal "ABI-described slice" fails when a high byte is set: the offset word encodes 2^248 + 128 *)
Lemma high_bytes_ignored_witness :
  let p := repeat 7 96 ++ (1 :: repeat 0 30 ++ [128]) ++ (repeat 0 31 ++ [4]) ++ [1; 2; 3; 4] in
  decode_full_report p = Some (Ok (repeat 7 96, 160, 4, [1; 2; 3; 4])) /\ word p 96 = 2 ^ 248 + 128.
Proof. vm_compute. split; reflexivity. Qed.

Lemma quotients_ordered bid price ask d : 0 <= bid <= price -> price <= ask -> 0 < d ->
  0 <= bid / d <= price / d /\ price / d <= ask / d.
Proof. intros H1 H2 Hd. split; [split; [apply div_nonneg; lia|apply Z.div_le_mono; lia]|apply Z.div_le_mono; lia]. Qed.

(* ranges of a decoded report: magnitudes are U192, observations_timestamp u32, last update u64 *)
Definition report_range (r : report) : Prop :=
  0 <= snd (r_price r) < 2 ^ 192 /\ 0 <= snd (r_bid r) < 2 ^ 192 /\ 0 <= snd (r_ask r) < 2 ^ 192 /\
  0 <= r_obs r < 2 ^ 32 /\ (forall l, r_last r = Some l -> 0 <= l < 2 ^ 64).

(* the last-update part never fails with Overflow, never reports "closed", and is the rounded-up difference *)
Definition lud_spec (r : report) : res (option Z) :=
  match r_last r with
  | None => Ok None
  | Some lts =>
      let obs_ns := r_obs r * NANOS in
      if lts <=? obs_ns then Ok (Some (div_ceil (obs_ns - lts) NANOS))
      else if NANOS <=? lts - obs_ns then Err 8 else Ok (Some 0)
  end.

(* the last-update block of from_report, verbatim, with secs inlined: the u64 product cannot
   overflow and the rounded-up difference always fits u32, so the price is never marked closed *)
Lemma last_update_block r : 0 <= r_obs r < 2 ^ 32 -> (forall l, r_last r = Some l -> 0 <= l < 2 ^ 64) ->
  (match r_last r with
  | None => Ok (None, true)
  | Some lts =>
      match umul 64 (r_obs r) NANOS with
      | None => Err 7
      | Some obs_ns =>
          match (if lts <=? obs_ns then Ok (obs_ns - lts)
                 else if NANOS <=? lts - obs_ns then Err 8 else Ok 0) with
          | Err x => Err x
          | Ok diff =>
              if div_ceil diff NANOS <? 2 ^ 32 then Ok (Some (div_ceil diff NANOS), true) else Ok (Some (2 ^ 32 - 1), false)
          end
      end
  end) = match lud_spec r with Err x => Err x | Ok l => Ok (l, true) end.
Proof.
  intros R4 R5. unfold lud_spec. destruct (r_last r) as [lts|]; [|reflexivity]. specialize (R5 lts eq_refl).
  unfold umul, NANOS in *.
  rewrite chk_u_in by lia.
  cbv zeta. destruct (lts <=? r_obs r * 1000000000) eqn:L1.
  - pose proof (div_ceil_spec (r_obs r * 1000000000 - lts) 1000000000 ltac:(lia)).
    replace (div_ceil (r_obs r * 1000000000 - lts) 1000000000 <? 2 ^ 32) with true by (symmetry; apply Z.ltb_lt; lia).
    reflexivity.
  - destruct (1000000000 <=? lts - r_obs r * 1000000000); [reflexivity|].
    change (div_ceil 0 1000000000) with 0. reflexivity.
Qed.

Theorem from_report_spec r : report_range r ->
  from_report r =
    if negb (fst (r_price r)) then Some (Err 1)
    else if negb (fst (r_bid r)) then Some (Err 2)
    else if negb (fst (r_ask r)) then Some (Err 3)
    else let price := snd (r_price r) in let bid := snd (r_bid r) in let ask := snd (r_ask r) in
      if ask <? price then Some (Err 4)
      else if price <? bid then Some (Err 5)
      else let k := find_divisor_decimals ask in
        if 18 <? k then Some (Err 6)
        else match lud_spec r with
             | Err x => Some (Err x)
             | Ok lud =>
                 Some (Ok (mkPfp (18 - k) (1 + match lud with Some _ => 6 | None => 0 end) (canonical_status (r_ext r))
                                 (match lud with Some s => s | None => 0 end) (r_obs r)
                                 (price / 10 ^ k) (bid / 10 ^ k) (ask / 10 ^ k)))
             end.
Proof.
  intros (R1 & R2 & R3 & R4 & R5). unfold from_report, non_negative.
  destruct (r_price r) as [s1 price]. destruct (r_bid r) as [s2 bid]. destruct (r_ask r) as [s3 ask]. cbn [fst snd] in *.
  destruct s1; cbn [negb]; [|reflexivity]. destruct s2; cbn [negb]; [|reflexivity]. destruct s3; cbn [negb]; [|reflexivity].
  destruct (ask <? price) eqn:E1; [reflexivity|]. destruct (price <? bid) eqn:E2; [reflexivity|]. cbv zeta.
  destruct (18 <? find_divisor_decimals ask) eqn:E3; [reflexivity|].
  pose proof (find_divisor_decimals_spec ask ltac:(lia)) as (K1 & _). cbv zeta in K1.
  pose proof (find_divisor_decimals_fits ask ltac:(lia)) as F.
  set (k := find_divisor_decimals ask) in *. pose proof (DivLemmas.pow10_pos k ltac:(lia)) as PK.
  rewrite (last_update_block r R4 R5). destruct (lud_spec r) as [lud|x]; [|reflexivity].
  pose proof (quotients_ordered bid price ask (10 ^ k) ltac:(lia) ltac:(lia) PK).
  (* all three quotients fit u128 because the largest does *)
  set (qb := bid / 10 ^ k) in *. set (qp := price / 10 ^ k) in *. set (qa := ask / 10 ^ k) in *. clearbody qb qp qa.
  rewrite (chk_u_in 128 qp), (chk_u_in 128 qb), (chk_u_in 128 qa) by lia.
  reflexivity.
Qed.

Theorem conversion_total r : report_range r -> from_report r <> None.
Proof.
  intros H. rewrite from_report_spec by assumption. cbv zeta.
  (* no branch of the equation is the outer None *)
  repeat match goal with |- context [if ?c then _ else _] => destruct c; try discriminate end.
  destruct (lud_spec r); discriminate.
Qed.

Theorem conversion_ok r o : report_range r -> from_report r = Some (Ok o) ->
  let price := snd (r_price r) in let bid := snd (r_bid r) in let ask := snd (r_ask r) in
  let k := find_divisor_decimals ask in
  fst (r_price r) = true /\ fst (r_bid r) = true /\ fst (r_ask r) = true /\
  bid <= price <= ask /\
  p_dec o = 18 - k /\ 0 <= k <= 18 /\
  p_price o = price / 10 ^ k /\ p_min o = bid / 10 ^ k /\ p_max o = ask / 10 ^ k /\
  0 <= p_min o <= p_price o /\ p_price o <= p_max o /\ p_max o < 2 ^ 128 /\
  p_ts o = r_obs r /\ p_status o = canonical_status (r_ext r) /\
  Z.odd (p_flags o) = true /\                                  (* the Open flag is always set *)
  (r_last r = None -> p_flags o = 1 /\ p_lud o = 0) /\
  (forall l, r_last r = Some l -> p_flags o = 7 /\ l < r_obs r * NANOS + NANOS /\
      0 <= p_lud o < 2 ^ 32 /\
      (l <= r_obs r * NANOS -> (p_lud o - 1) * NANOS < r_obs r * NANOS - l <= p_lud o * NANOS) /\
      (r_obs r * NANOS < l -> p_lud o = 0)).
Proof.
  intros HR. pose proof HR as (R1 & R2 & R3 & R4 & R5). rewrite from_report_spec by assumption. cbv zeta.
  destruct (fst (r_price r)); cbn [negb]; [|discriminate]. destruct (fst (r_bid r)); cbn [negb]; [|discriminate].
  destruct (fst (r_ask r)); cbn [negb]; [|discriminate].
  destruct (snd (r_ask r) <? snd (r_price r)) eqn:E1; [discriminate|].
  destruct (snd (r_price r) <? snd (r_bid r)) eqn:E2; [discriminate|].
  destruct (18 <? find_divisor_decimals (snd (r_ask r))) eqn:E3; [discriminate|].
  pose proof (find_divisor_decimals_spec (snd (r_ask r)) ltac:(lia)) as (K1 & _). cbv zeta in K1.
  pose proof (find_divisor_decimals_fits (snd (r_ask r)) ltac:(lia)) as F.
  set (k := find_divisor_decimals (snd (r_ask r))) in *. pose proof (DivLemmas.pow10_pos k ltac:(lia)) as PK.
  destruct (lud_spec r) as [lud|x] eqn:L; [|discriminate].
  intros X; injection X as <-. change (p_dec {| p_dec := 18 - k; p_flags := _; p_status := _; p_lud := _; p_ts := _; p_price := _; p_min := _; p_max := _ |}) with (18 - k).
  clearbody k. cbn [p_flags p_status p_lud p_ts p_price p_min p_max].
  pose proof (quotients_ordered (snd (r_bid r)) (snd (r_price r)) (snd (r_ask r)) (10 ^ k) ltac:(lia) ltac:(lia) PK).
  (* from here on the three quotients are just numbers *)
  set (qb := snd (r_bid r) / 10 ^ k) in *. set (qp := snd (r_price r) / 10 ^ k) in *.
  set (qa := snd (r_ask r) / 10 ^ k) in *. clearbody qb qp qa.
  repeat (split; [first [reflexivity | lia]|]).
  split; [destruct lud; reflexivity|].
  unfold lud_spec in L. split.
  - intros E. rewrite E in L. injection L as <-. split; reflexivity.
  - intros l E. rewrite E in L. specialize (R5 l E). cbv zeta in L. unfold NANOS in *.
    destruct (l <=? r_obs r * 1000000000) eqn:L1.
    + injection L as <-. pose proof (div_ceil_spec (r_obs r * 1000000000 - l) 1000000000 ltac:(lia)).
      repeat split; try lia.
    + destruct (1000000000 <=? l - r_obs r * 1000000000) eqn:L2; [discriminate|]. injection L as <-.
      repeat split; lia.
Qed.

Theorem rejects_negative_or_misordered r : report_range r ->
  (fst (r_price r) = false \/ fst (r_bid r) = false \/ fst (r_ask r) = false \/
   snd (r_ask r) < snd (r_price r) \/ snd (r_price r) < snd (r_bid r)) ->
  exists e, from_report r = Some (Err e) /\ 1 <= e <= 5.
Proof.
  intros HR H. rewrite from_report_spec by assumption. cbv zeta.
  destruct (fst (r_price r)); cbn [negb]; [|exists 1; split; [reflexivity|lia]].
  destruct (fst (r_bid r)); cbn [negb]; [|exists 2; split; [reflexivity|lia]].
  destruct (fst (r_ask r)); cbn [negb]; [|exists 3; split; [reflexivity|lia]].
  destruct (snd (r_ask r) <? snd (r_price r)) eqn:E1; [exists 4; split; [reflexivity|lia]|].
  destruct (snd (r_price r) <? snd (r_bid r)) eqn:E2; [exists 5; split; [reflexivity|lia]|].
  exfalso. destruct H as [H|[H|[H|[H|H]]]]; try discriminate; lia.
Qed.

(* field mapping of decode: bid = ask = price for the single-price schemas *)
Theorem report_of_single f r : (f_version f = 2 \/ f_version f = 7 \/ f_version f = 8) -> report_of f = Ok r ->
  r_bid r = r_price r /\ r_ask r = r_price r /\ snd (r_price r) = Z.abs (f_price f) /\ fst (r_price r) = negb (f_price f <? 0).
Proof.
  intros V. unfold report_of.
  assert (TS : forall x s, to_signed_mag x = Ok s -> snd s = Z.abs x /\ fst s = negb (x <? 0)).
  { intros x s. unfold to_signed_mag. destruct (_ <=? _); [discriminate|]. intros X; injection X as <-. split; reflexivity. }
  destruct V as [V|[V|V]]; rewrite V; cbn [Z.eqb Pos.eqb orb].
  1,2: destruct (to_signed_mag (f_price f)) as [s|] eqn:E; cbn [rbind]; [|discriminate]; intros [= <-];
    cbn; apply TS in E; tauto.
  - destruct (to_signed_mag (f_price f)) as [s|] eqn:E; cbn [rbind]; [|discriminate].
    destruct (if f_status f =? 0 then _ else _) as [e|]; cbn [rbind]; [|discriminate]. intros X; injection X as <-.
    cbn. apply TS in E. tauto.
Qed.

