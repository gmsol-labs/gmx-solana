(* C05 — "A swap never pays out more value than it takes in, beyond capped impact": theorems only. *)
From GV Require Import lib.Base MK.Market MK.Swap MK.MarketProofs C05.Proofs MK.Examples.
Open Scope Z_scope.

(* [swap_exec_trace] is [swap_exec] that additionally returns the intermediate amounts of
   Swap::try_execute: the input after fees, the amount converted, the amount taken from the
   input token's impact pool when positive impact was capped, and the pool amount out. *)
Theorem c05_trace_is_exec : forall w unit cfg s il a ps,
  swap_exec w unit cfg s il a ps =
  match swap_exec_trace w unit cfg s il a ps with Ok (s', r, _) => Ok (s', r) | Err e => Err e end.
Proof. intros. unfold swap_exec. destruct (swap_exec_trace w unit cfg s il a ps) as [[[s' r] t]|e]; reflexivity. Qed.

(* value of the output at the maximum output price <= value of the input after fees at the
   minimum input price + the positive impact funded by the two swap-impact pools *)
Theorem c05_swap_value_bound : forall w, 1 <= w -> forall unit, 0 < unit -> forall cfg s il a ps s' r t,
  wf_state w s -> wf_prices w ps -> in_range w a ->
  swap_exec_trace w unit cfg s il a ps = Ok (s', r, t) ->
  sr_out r * pr_max (side_price ps (negb il))
    <= st_after_fees t * pr_min (side_price ps il) + funded_impact_value ps il r t.
Proof. exact swap_value_bound. Qed.

(* the funded impact: each amount is at most the impact-pool balance it is paid from, it is
   exactly what leaves that pool, and its value is at most the impact value earned *)
Theorem c05_swap_funded_bounds : forall w, 1 <= w -> forall unit, 0 < unit -> forall cfg s il a ps s' r t,
  wf_state w s -> wf_prices w ps -> in_range w a ->
  swap_exec_trace w unit cfg s il a ps = Ok (s', r, t) -> 0 < sr_impact_value r ->
  0 <= sr_impact_amount r <= pamount (swap_impact s) (negb il) /\
  0 <= st_capped_in t <= pamount (swap_impact s) il /\
  pamount (swap_impact s') (negb il) = pamount (swap_impact s) (negb il) - sr_impact_amount r /\
  pamount (swap_impact s') il = pamount (swap_impact s) il - st_capped_in t /\
  sr_impact_amount r * pr_max (side_price ps (negb il)) + st_capped_in t * pr_max (side_price ps il)
    <= sr_impact_value r /\
  (pr_min (side_price ps il) <= pr_max (side_price ps il) ->
     funded_impact_value ps il r t <= sr_impact_value r).
Proof. exact swap_funded_bounds. Qed.

(* no positive impact: exact conversion, rounded down, of the input after fees and after the
   negative impact amount; never more than the gross input is worth *)
Theorem c05_swap_nonpositive_impact : forall w, 1 <= w -> forall unit, 0 < unit -> forall cfg s il a ps s' r t,
  wf_state w s -> wf_prices w ps -> in_range w a ->
  swap_exec_trace w unit cfg s il a ps = Ok (s', r, t) -> sr_impact_value r <= 0 ->
  sr_out r = (st_after_fees t - sr_impact_amount r) * pr_min (side_price ps il) / pr_max (side_price ps (negb il)) /\
  sr_out r * pr_max (side_price ps (negb il)) <= a * pr_min (side_price ps il) /\
  pamount (swap_impact s') il = pamount (swap_impact s) il + sr_impact_amount r /\
  pamount (swap_impact s') (negb il) = pamount (swap_impact s) (negb il).
Proof. exact swap_nonpositive_impact. Qed.

(* zero fees and zero impact: out = floor(in * p_in.min / p_out.max) *)
Theorem c05_swap_zero_fee_zero_impact : forall w, 1 <= w -> forall unit, 0 < unit -> forall cfg s il a ps s' r t,
  wf_state w s -> wf_prices w ps -> in_range w a ->
  fp_positive (c_swap_fee cfg) = 0 -> fp_negative (c_swap_fee cfg) = 0 ->
  swap_exec_trace w unit cfg s il a ps = Ok (s', r, t) -> sr_impact_value r = 0 ->
  sr_out r = a * pr_min (side_price ps il) / pr_max (side_price ps (negb il)) /\
  f_receiver (sr_fees r) = 0 /\ f_pool (sr_fees r) = 0 /\ sr_impact_amount r = 0.
Proof. exact swap_zero_fee_zero_impact. Qed.

(* zero impact factors in the configuration give zero impact on every swap *)
Theorem c05_swap_zero_impact_config : forall w, 1 <= w -> forall unit, 0 < unit -> forall cfg s il a ps s' r t,
  ip_positive (c_swap_impact cfg) = 0 -> ip_negative (c_swap_impact cfg) = 0 ->
  swap_exec_trace w unit cfg s il a ps = Ok (s', r, t) -> sr_impact_value r = 0.
Proof. exact swap_zero_impact_config. Qed.

(* non-vacuity: concrete u64/9 markets *)
(* capped positive impact: 5 long tokens from the long impact pool, 7 short tokens from the
   short impact pool; funded value 5*121 + 7*1 = 612 <= impact value 1600 *)
Example c05_ex_capped :
  exists s' r t, swap_exec_trace 64 (10 ^ 9) cfg64 ex_market_small_impact false 10000000000 ex_prices = Ok (s', r, t) /\
    sr_out r = 82603310 /\ sr_impact_value r = 1600 /\ sr_impact_amount r = 5 /\ st_capped_in t = 7 /\
    st_after_fees t = 9995000000 /\ funded_impact_value ex_prices false r t = 612.
Proof. eexists. eexists. eexists. split; [vm_compute; reflexivity|]. repeat split. Qed.

(* negative impact *)
Example c05_ex_negative :
  exists s' r t, swap_exec_trace 64 (10 ^ 9) cfg64 ex_market true 1000000 ex_prices = Ok (s', r, t) /\
    sr_out r = 119915880 /\ sr_impact_value r = -77 /\ sr_impact_amount r = 1 /\ st_after_fees t = 999300.
Proof. eexists. eexists. eexists. split; [vm_compute; reflexivity|]. repeat split. Qed.

(* zero fees, zero impact factors: plain conversion 1000000 * 120 / 1 *)
Example c05_ex_zero :
  exists s' r t, swap_exec_trace 64 (10 ^ 9) cfg64_zero ex_market true 1000000 ex_prices = Ok (s', r, t) /\
    sr_out r = 120000000 /\ sr_impact_value r = 0.
Proof. eexists. eexists. eexists. split; [vm_compute; reflexivity|]. repeat split. Qed.
