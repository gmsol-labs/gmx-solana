(* C01 — lemmas about the checked-arithmetic model. *)
From GV Require Import lib.Base lib.DivLemmas C01.Model.
From GV Require Export lib.Checked.
Open Scope Z_scope.

Definition ceil_div (n d : Z) : Z := if n mod d =? 0 then n / d else n / d + 1.
Definition clampZ (v lo hi : Z) := Z.max lo (Z.min v hi).

(* Characterisations that hold for every width, stated before the section that assumes [1 <= w]. *)
Lemma to_opposite_signed_some w a r : 0 <= a ->
  to_opposite_signed w a = Some r <-> (a < 2 ^ (w - 1) /\ r = - a).
Proof.
  intros Ha. unfold to_opposite_signed. rewrite obind_some. split.
  - intros (s & Hs & Hr). apply to_signed_some in Hs. apply sneg_some in Hr. lia.
  - intros [Hs ->]. exists a. rewrite to_signed_some, sneg_some. lia.
Qed.

Lemma to_signed_with_sign_some w a neg r : 0 <= a ->
  to_signed_with_sign w a neg = Some r <-> (a < 2 ^ (w - 1) /\ r = if neg then - a else a).
Proof. intros Ha. destruct neg; [apply to_opposite_signed_some, Ha|apply to_signed_some]. Qed.

Lemma to_signed_with_sign_none w a neg : 0 <= a ->
  to_signed_with_sign w a neg = None <-> 2 ^ (w - 1) <= a.
Proof.
  intros Ha. rewrite (none_iff _ _ (fun r => to_signed_with_sign_some w a neg r Ha)). split.
  - intros N. specialize (N (if neg then - a else a)). lia.
  - intros Hge r. lia.
Qed.

Lemma round_up_div_some w a d r : 0 <= a -> 0 <= d ->
  round_up_div w a d = Some r <-> (d <> 0 /\ a + d < 2 ^ w /\ r = (a + d - 1) / d).
Proof.
  intros Ha Hd. unfold round_up_div. destruct (Z.eqb_spec d 0); [split; [discriminate|tauto]|].
  rewrite obind_some. split.
  - intros (s & H1 & H2). apply uadd_some in H1. destruct H1 as [H1 ->].
    rewrite obind_some in H2. destruct H2 as (t & H2 & H3). apply usub_some in H2. destruct H2 as [_ ->].
    apply udiv_some in H3. tauto.
  - intros (_ & Hlt & ->). exists (a + d). rewrite uadd_some, obind_some. split; [lia|].
    exists (a + d - 1). rewrite usub_some, udiv_some. lia.
Qed.

Lemma mul_div_range w a b d r : mul_div w a b d = Some r -> 0 <= r < 2 ^ w.
Proof. unfold mul_div. destruct (d =? 0); [discriminate|]. intros H. apply chk_u_some in H. lia. Qed.

Lemma mul_div_ceil_range w a b d r : mul_div_ceil w a b d = Some r -> 0 <= r < 2 ^ w.
Proof. unfold mul_div_ceil. destruct (d =? 0); [discriminate|]. intros H. apply chk_u_some in H. lia. Qed.

Lemma apply_factor_range w u v f r : apply_factor w u v f = Some r -> 0 <= r < 2 ^ w.
Proof. apply mul_div_range. Qed.

(* Once the section closes, a lemma takes [1 <= w] (and [0 < unit]) only if its proof uses it, and [lia]
   uses what it finds in the context; a [Proof using] line says so where callers depend on it. *)
Section P.
  Variable w : Z.
  Hypothesis Hw : 1 <= w.

  Let P2 : 0 < 2 ^ w. Proof. apply pow2_pos; lia. Qed.
  Let P2' : 0 < 2 ^ (w - 1). Proof. apply pow2_pos; lia. Qed.
  Let P2'' : 2 ^ w = 2 * 2 ^ (w - 1).
  Proof. replace w with (1 + (w - 1)) at 1 by lia. rewrite Z.pow_add_r by lia. reflexivity. Qed.

  Lemma ceil_div_spec n d : 0 < d -> d * (ceil_div n d - 1) < n <= d * ceil_div n d.
  Proof. intros Hd. unfold ceil_div. destruct (n mod d =? 0) eqn:E; lia. Qed.

  Theorem mul_div_exact a b d r : 0 <= a -> 0 <= b -> 0 <= d ->
    mul_div w a b d = Some r <-> (d <> 0 /\ r = a * b / d /\ r < 2 ^ w).
  Proof.
    intros Ha Hb Hd. unfold mul_div. destruct (Z.eqb_spec d 0).
    - split; [discriminate|]. lia.
    - rewrite chk_u_some. pose proof (mul_div_nonneg a b d Ha Hb). lia.
  Qed.

  Theorem mul_div_floor a b d r : 0 <= a -> 0 <= b -> 0 <= d ->
    mul_div w a b d = Some r -> d * r <= a * b < d * r + d /\ 0 <= r < 2 ^ w.
  Proof.
    intros Ha Hb Hd H. apply mul_div_exact in H; try assumption. destruct H as (H1 & -> & H3).
    pose proof (div_floor_spec (a * b) d). pose proof (mul_div_nonneg a b d Ha Hb). lia.
  Qed.

  Theorem mul_div_none a b d : 0 <= a -> 0 <= b -> 0 <= d ->
    mul_div w a b d = None <-> (d = 0 \/ 2 ^ w <= a * b / d).
  Proof.
    intros Ha Hb Hd. rewrite (none_iff _ _ (fun r => mul_div_exact a b d r Ha Hb Hd)). split.
    - intros N. specialize (N (a * b / d)). lia.
    - intros H r. lia.
  Qed.

  Theorem mul_div_ceil_exact a b d r : 0 <= a -> 0 <= b -> 0 <= d ->
    mul_div_ceil w a b d = Some r ->
    d <> 0 /\ d * (r - 1) < a * b <= d * r /\ 0 <= r < 2 ^ w.
  Proof.
    intros Ha Hb Hd. unfold mul_div_ceil. destruct (Z.eqb_spec d 0); [discriminate|].
    fold (ceil_div (a * b) d). rewrite chk_u_some. intros [H ->].
    pose proof (ceil_div_spec (a * b) d). lia.
  Qed.

  Theorem mul_div_ceil_none a b d : 0 <= a -> 0 <= b -> 0 <= d ->
    mul_div_ceil w a b d = None <-> (d = 0 \/ 2 ^ w <= ceil_div (a * b) d).
  Proof.
    intros Ha Hb Hd. unfold mul_div_ceil. destruct (Z.eqb_spec d 0).
    - split; [auto|reflexivity].
    - fold (ceil_div (a * b) d). rewrite chk_u_none.
      pose proof (ceil_div_spec (a * b) d). assert (0 <= ceil_div (a * b) d) by nia. lia.
  Qed.

  Theorem mul_div_ceil_ge_floor a b d r r' : 0 <= a -> 0 <= b -> 0 <= d ->
    mul_div w a b d = Some r -> mul_div_ceil w a b d = Some r' -> r <= r' <= r + 1.
  Proof.
    intros Ha Hb Hd H1 H2. apply mul_div_floor in H1; try assumption.
    apply mul_div_ceil_exact in H2; try assumption. nia.
  Qed.

  Lemma mul_div_signed_some a n d r : 0 <= a -> 0 <= d ->
    mul_div_signed w a n d = Some r <->
    (d <> 0 /\ a * Z.abs n / d < 2 ^ (w - 1) /\ r = if 0 <? n then a * Z.abs n / d else - (a * Z.abs n / d)).
  Proof.
    intros Ha Hd. pose proof (Z.abs_nonneg n) as Hn. pose proof (mul_div_nonneg a (Z.abs n) d Ha Hn).
    unfold mul_div_signed. rewrite obind_some. split.
    - intros (x & H1 & H2). apply mul_div_exact in H1; [|assumption..]. destruct H1 as (Hd0 & -> & _).
      apply obind_some in H2. destruct H2 as (s & Hs & H2). apply to_signed_some in Hs. destruct Hs as [Hs ->].
      destruct (0 <? n); [injection H2 as <-|apply sneg_some in H2]; tauto.
    - intros (Hd0 & Hlt & ->). exists (a * Z.abs n / d). rewrite mul_div_exact, obind_some by assumption.
      split; [lia|]. exists (a * Z.abs n / d). rewrite to_signed_some. split; [auto|].
      destruct (0 <? n); [reflexivity|apply sneg_some; lia].
  Qed.

  Theorem mul_div_signed_exact a n d r : 0 <= a -> 0 <= d ->
    mul_div_signed w a n d = Some r ->
    d <> 0 /\ Z.abs r = a * Z.abs n / d /\ Z.abs r < 2 ^ (w - 1) /\
    (0 < n -> 0 <= r) /\ (n <= 0 -> r <= 0).
  Proof.
    intros Ha Hd H. apply mul_div_signed_some in H; [|assumption..]. destruct H as (Hd0 & Hlt & ->).
    pose proof (mul_div_nonneg a (Z.abs n) d). destruct (Z.ltb_spec 0 n); lia.
  Qed.

  Theorem mul_div_signed_none a n d : 0 <= a -> 0 <= d ->
    mul_div_signed w a n d = None <-> (d = 0 \/ 2 ^ (w - 1) <= a * Z.abs n / d).
  Proof.
    intros Ha Hd. rewrite (none_iff _ _ (fun r => mul_div_signed_some a n d r Ha Hd)). split.
    - intros N. specialize (N (if 0 <? n then a * Z.abs n / d else - (a * Z.abs n / d))). lia.
    - intros H r. lia.
  Qed.

  Theorem round_up_div_sound a d r : 0 <= a -> 0 <= d ->
    round_up_div w a d = Some r -> d <> 0 /\ d * (r - 1) < a <= d * r.
  Proof using Type.
    intros Ha Hd H. apply round_up_div_some in H; [|assumption..]. destruct H as (Hd0 & _ & ->).
    split; [exact Hd0|]. apply ceil_spec. lia.
  Qed.

  Theorem round_up_div_none a d : 0 <= a -> 0 <= d ->
    round_up_div w a d = None <-> (d = 0 \/ 2 ^ w <= a + d).
  Proof using Hw.
    intros Ha Hd. rewrite (none_iff _ _ (fun r => round_up_div_some w a d r Ha Hd)). split.
    - intros N. specialize (N ((a + d - 1) / d)). lia.
    - intros H r. lia.
  Qed.

  Lemma round_up_mag_div_val d x r : round_up_mag_div w d x = Some r ->
    d <> 0 /\ r = Z.quot (if x <? 0 then x - d + 1 else x + d - 1) d.
  Proof.
    unfold round_up_mag_div. destruct (d =? 0); [discriminate|].
    rewrite obind_some. intros (ds & H1 & H2). apply to_signed_some in H1. destruct H1 as [_ ->].
    destruct (x <? 0).
    - apply obind_some in H2. destruct H2 as (s & Hs & H2). apply ssub_some in Hs. destruct Hs as [_ ->].
      apply obind_some in H2. destruct H2 as (t & Ht & H2). apply sadd_some in Ht. destruct Ht as [_ ->].
      apply sdiv_some in H2. tauto.
    - apply obind_some in H2. destruct H2 as (s & Hs & H2). apply sadd_some in Hs. destruct Hs as [_ ->].
      apply obind_some in H2. destruct H2 as (t & Ht & H2). apply ssub_some in Ht. destruct Ht as [_ ->].
      apply sdiv_some in H2. tauto.
  Qed.

  Theorem round_up_mag_div_sound d x r : 0 <= d ->
    round_up_mag_div w d x = Some r ->
    d <> 0 /\ d * (Z.abs r - 1) < Z.abs x <= d * Z.abs r /\ (0 <= x -> 0 <= r) /\ (x < 0 -> r <= 0).
  Proof.
    intros Hd H. apply round_up_mag_div_val in H. destruct H as [Hd0 ->]. split; [exact Hd0|].
    destruct (Z.ltb_spec x 0).
    - rewrite quot_neg_num by lia. replace (- (x - d + 1)) with (- x + d - 1) by lia.
      pose proof (ceil_spec (- x) d) as HC.
      pose proof (div_nonneg (- x + d - 1) d). lia.
    - rewrite quot_nonneg_div by lia.
      pose proof (ceil_spec x d) as HC.
      pose proof (div_nonneg (x + d - 1) d). lia.
  Qed.

  Theorem bound_magnitude_spec v mn mx r : 0 <= mn -> 0 <= mx -> in_s w v = true ->
    bound_magnitude w v mn mx = Ok r ->
    mn <= mx /\ Z.abs r = clampZ (Z.abs v) mn mx /\ (v < 0 -> r <= 0) /\ (0 <= v -> 0 <= r) /\ in_s w r = true.
  Proof.
    intros Hmn Hmx Hv. rewrite in_s_iff in *. unfold bound_magnitude, clampZ.
    destruct (mx <? mn) eqn:E0; [discriminate|].
    destruct (Z.abs v <? mn) eqn:E1; [|destruct (mx <? Z.abs v) eqn:E2].
    - rewrite of_opt_ok, to_signed_with_sign_some by exact Hmn. destruct (v <? 0) eqn:Ev; lia.
    - rewrite of_opt_ok, to_signed_with_sign_some by exact Hmx. destruct (v <? 0) eqn:Ev; lia.
    - intros [= <-]. lia.
  Qed.

  Theorem bound_magnitude_err v mn mx e : 0 <= mn -> 0 <= mx ->
    bound_magnitude w v mn mx = Err e ->
    (e = 1 /\ mx < mn) \/ (e = 2 /\ mn <= mx /\ 2 ^ (w - 1) <= clampZ (Z.abs v) mn mx).
  Proof.
    intros Hmn Hmx. unfold bound_magnitude, clampZ. destruct (mx <? mn) eqn:E0; [intros [= <-]; lia|].
    destruct (Z.abs v <? mn) eqn:E1; [|destruct (mx <? Z.abs v) eqn:E2; [|discriminate]].
    - rewrite of_opt_err, to_signed_with_sign_none by exact Hmn. lia.
    - rewrite of_opt_err, to_signed_with_sign_none by exact Hmx. lia.
  Qed.

  Theorem add_with_signed_exact a s r : 0 <= a ->
    add_with_signed w a s = Some r <-> (r = a + s /\ 0 <= r < 2 ^ w).
  Proof.
    intros Ha. unfold add_with_signed. destruct (0 <? s) eqn:E; [rewrite uadd_some|rewrite usub_some]; lia.
  Qed.
  Theorem sub_with_signed_exact a s r : 0 <= a ->
    sub_with_signed w a s = Some r <-> (r = a - s /\ 0 <= r < 2 ^ w).
  Proof.
    intros Ha. unfold sub_with_signed. destruct (0 <? s) eqn:E; [rewrite usub_some|rewrite uadd_some]; lia.
  Qed.
  Theorem mul_with_signed_exact a s r : 0 <= a ->
    mul_with_signed w a s = Some r -> r = a * s /\ Z.abs r < 2 ^ (w - 1).
  Proof.
    intros Ha H.
    assert (exists p, umul w a (Z.abs s) = Some p /\ to_signed_with_sign w p (s <? 0) = Some r) as (p & H1 & H2)
      by (unfold mul_with_signed in H; destruct (s <? 0); apply obind_some in H; exact H).
    apply umul_some in H1. destruct H1 as [H1 ->].
    apply to_signed_with_sign_some in H2; [|lia]. destruct H2 as [H2 ->]. destruct (Z.ltb_spec s 0); nia.
  Qed.
  Theorem signed_sub_exact a b r : 0 <= a -> 0 <= b ->
    signed_sub w a b = Some r -> r = a - b /\ Z.abs r < 2 ^ (w - 1).
  Proof.
    intros Ha Hb. unfold signed_sub, diff. destruct (Z.leb_spec b a).
    - rewrite to_signed_some. lia.
    - rewrite to_opposite_signed_some by lia. lia.
  Qed.

  Section F.
    Variable unit : Z.
    Hypothesis Hunit : 0 < unit.

    Theorem apply_factor_exact v f r : 0 <= v -> 0 <= f ->
      apply_factor w unit v f = Some r <-> (r = v * f / unit /\ r < 2 ^ w).
    Proof. intros. unfold apply_factor. rewrite mul_div_exact by lia. intuition lia. Qed.

    Theorem div_to_factor_exact v d ru r : 0 <= v -> 0 <= d ->
      div_to_factor w unit v d ru = Some r ->
      (d = 0 /\ r = 0) \/
      (d <> 0 /\ ru = false /\ d * r <= v * unit < d * r + d) \/
      (d <> 0 /\ ru = true /\ d * (r - 1) < v * unit <= d * r).
    Proof.
      intros Hv Hd. unfold div_to_factor. destruct (Z.eqb_spec d 0).
      - intros [= <-]. auto.
      - destruct ru; intros H.
        + apply mul_div_ceil_exact in H; [|lia..]. right; right. tauto.
        + apply mul_div_floor in H; [|lia..]. right; left. tauto.
    Qed.

    Theorem div_to_factor_signed_exact v d r : 0 <= d ->
      div_to_factor_signed w unit v d = Some r ->
      (d = 0 /\ r = 0) \/
      (d <> 0 /\ Z.abs r = unit * Z.abs v / d /\ (0 < v -> 0 <= r) /\ (v <= 0 -> r <= 0)).
    Proof.
      intros Hd. unfold div_to_factor_signed. destruct (Z.eqb_spec d 0).
      - intros [= <-]. auto.
      - intros H. apply mul_div_signed_exact in H; [|lia..]. right. tauto.
    Qed.

    Lemma pow_loop_succ b n :
      pow_loop w unit b (N.succ n) = (a <- pow_loop w unit b n ;; fmul w unit a b).
    Proof. unfold pow_loop. rewrite N.iter_succ. reflexivity. Qed.

    Theorem pow_loop_0 b : pow_loop w unit b 0 = Some unit.
    Proof. reflexivity. Qed.

    Theorem pow_loop_1 b : 0 <= b < 2 ^ w -> unit < 2 ^ w -> pow_loop w unit b 1 = Some b.
    Proof.
      intros Hb Hu. change 1%N with (N.succ 0). rewrite pow_loop_succ, pow_loop_0. cbn [obind].
      unfold fmul, mul_div. destruct (Z.eqb_spec unit 0); [lia|].
      rewrite Z.mul_comm, Z.div_mul by lia. apply chk_u_some. lia.
    Qed.

    Theorem pow_loop_upper b n r : 0 <= b ->
      pow_loop w unit b n = Some r -> 0 <= r /\ r * unit ^ (Z.of_N n) <= unit * b ^ (Z.of_N n).
    Proof.
      intros Hb. revert r. induction n as [|n IH] using N.peano_ind; intros r.
      - rewrite pow_loop_0. intros [= <-]. simpl. lia.
      - rewrite pow_loop_succ, obind_some. intros (a & Ha & Hf).
        destruct (IH a Ha) as [IH0 IH1]. unfold fmul in Hf. apply mul_div_floor in Hf; [|lia..].
        rewrite N2Z.inj_succ, !Z.pow_succ_r by lia.
        assert (0 < unit ^ Z.of_N n) by (apply Z.pow_pos_nonneg; lia).
        split; [lia|]. nia.
    Qed.

    Theorem pow_loop_mono b1 b2 n r1 r2 : 0 <= b1 <= b2 ->
      pow_loop w unit b1 n = Some r1 -> pow_loop w unit b2 n = Some r2 -> r1 <= r2.
    Proof.
      intros Hb. revert r1 r2. induction n as [|n IH] using N.peano_ind; intros r1 r2.
      - rewrite !pow_loop_0. intros [= <-] [= <-]. lia.
      - rewrite !pow_loop_succ, !obind_some. intros (a1 & Ha1 & Hf1) (a2 & Ha2 & Hf2).
        specialize (IH a1 a2 Ha1 Ha2).
        apply pow_loop_upper in Ha1; [|lia..]. apply pow_loop_upper in Ha2; [|lia..].
        unfold fmul in *. apply mul_div_exact in Hf1; [|lia..]. apply mul_div_exact in Hf2; [|lia..].
        destruct Hf1 as (_ & -> & _). destruct Hf2 as (_ & -> & _).
        apply div_mono_num; [lia|]. nia.
    Qed.

    Lemma pow_loop_ge_unit b n r : unit <= b -> pow_loop w unit b n = Some r -> unit <= r.
    Proof.
      intros Hb. revert r. induction n as [|n IH] using N.peano_ind; intros r.
      - rewrite pow_loop_0. intros [= <-]. lia.
      - rewrite pow_loop_succ, obind_some. intros (a & Ha & Hf). specialize (IH a Ha).
        unfold fmul in Hf. apply mul_div_exact in Hf; [|lia..]. destruct Hf as (_ & -> & _).
        apply Z.div_le_lower_bound; [lia|]. nia.
    Qed.

    Lemma pow_fixed_some b e r :
      pow_fixed w unit b e = Some r -> pow_loop w unit b (Z.to_N (e / unit)) = Some r.
    Proof. unfold pow_fixed. destruct (e mod unit =? 0); [auto|discriminate]. Qed.

    Lemma apply_exponent_factor_inv v e r : apply_exponent_factor w unit v e = Some r ->
      (v < unit /\ r = 0) \/ (v = unit /\ r = unit) \/
      (unit < v /\ e = 0 /\ r = unit) \/ (unit < v /\ e = unit /\ r = v) \/
      (unit < v /\ e <> 0 /\ e <> unit /\ pow_fixed w unit v e = Some r).
    Proof.
      unfold apply_exponent_factor.
      destruct (Z.ltb_spec v unit); [intros [= <-]; auto|].
      destruct (Z.eqb_spec v unit); [intros [= <-]; auto|].
      destruct (Z.eqb_spec e 0); [intros [= <-]; right; right; left; lia|].
      destruct (Z.eqb_spec e unit); [intros [= <-]; right; right; right; left; lia|].
      intros Hp. right; right; right; right. repeat split; try assumption. lia.
    Qed.

    Lemma apply_exponent_factor_ge_unit v e r :
      unit <= v -> apply_exponent_factor w unit v e = Some r -> unit <= r.
    Proof.
      intros Hv H. destruct (apply_exponent_factor_inv v e r H) as [?|[?|[?|[?|(_ & _ & _ & Hp)]]]]; try lia.
      apply pow_fixed_some, pow_loop_ge_unit in Hp; lia.
    Qed.

    Lemma apply_exponent_factor_nonneg v e r : apply_exponent_factor w unit v e = Some r -> 0 <= r.
    Proof.
      intros H. destruct (Z.lt_ge_cases v unit) as [Hv|Hv].
      - destruct (apply_exponent_factor_inv v e r H) as [?|?]; lia.
      - apply apply_exponent_factor_ge_unit in H; lia.
    Qed.

    Lemma apply_exponent_factor_mono v1 v2 e r1 r2 : 0 <= v1 <= v2 ->
      apply_exponent_factor w unit v1 e = Some r1 -> apply_exponent_factor w unit v2 e = Some r2 -> r1 <= r2.
    Proof.
      intros Hv H1 H2. pose proof (apply_exponent_factor_nonneg v2 e r2 H2).
      destruct (apply_exponent_factor_inv v1 e r1 H1) as [?|[?|C1]]; [lia|..].
      - apply apply_exponent_factor_ge_unit in H2; lia.
      - (* both bases above one: the two computations take the same branch *)
        destruct (apply_exponent_factor_inv v2 e r2 H2) as [?|[?|C2]]; [lia..|].
        destruct C1 as [?|[?|(_ & ? & ? & Q1)]], C2 as [?|[?|(_ & ? & ? & Q2)]]; try lia.
        apply pow_fixed_some in Q1, Q2. exact (pow_loop_mono v1 v2 _ r1 r2 ltac:(lia) Q1 Q2).
    Qed.

    Lemma apply_factors_ok x f e r : 0 <= f -> apply_factors w unit x f e = Ok r ->
      exists X, apply_exponent_factor w unit x e = Some X /\ 0 <= X /\ r = X * f / unit.
    Proof.
      intros Hf. unfold apply_factors. rewrite rbind_of_opt_ok. intros (X & H1 & H2).
      apply of_opt_ok in H2. pose proof (apply_exponent_factor_nonneg x e X H1).
      unfold fmul in H2. apply mul_div_exact in H2; [|lia..]. exists X. tauto.
    Qed.

    Lemma apply_factors_mono x1 x2 f1 f2 e r1 r2 : 0 <= x1 <= x2 -> 0 <= f1 <= f2 ->
      apply_factors w unit x1 f1 e = Ok r1 -> apply_factors w unit x2 f2 e = Ok r2 -> 0 <= r1 <= r2.
    Proof.
      intros Hx Hf H1 H2. apply apply_factors_ok in H1; [|lia]. apply apply_factors_ok in H2; [|lia].
      destruct H1 as (X1 & A1 & B1 & ->). destruct H2 as (X2 & A2 & B2 & ->).
      pose proof (apply_exponent_factor_mono x1 x2 e X1 X2 Hx A1 A2). split.
      - apply mul_div_nonneg; lia.
      - apply div_mono_num; nia.
    Qed.
  End F.

  Theorem usd_to_mt_cases usd pool supply divisor r :
    0 <= usd -> 0 <= pool -> 0 <= supply -> 0 <= divisor ->
    usd_to_mt w usd pool supply divisor = Some r ->
    divisor <> 0 /\
    ((supply = 0 /\ pool = 0 /\ r = usd / divisor) \/
     (supply = 0 /\ pool <> 0 /\ r = (pool + usd) / divisor /\ pool + usd < 2 ^ w) \/
     (supply <> 0 /\ pool <> 0 /\ pool * r <= supply * usd < pool * r + pool /\ r < 2 ^ w)).
  Proof.
    intros Hu Hp Hs Hd. unfold usd_to_mt. destruct (Z.eqb_spec divisor 0); [discriminate|].
    intros H. split; [assumption|]. revert H.
    destruct (Z.eqb_spec supply 0), (Z.eqb_spec pool 0); cbn [andb negb].
    - rewrite udiv_some. intros [_ ->]. auto.
    - rewrite obind_some. intros (s & H1 & H2). apply uadd_some in H1. destruct H1 as [H1 ->].
      apply udiv_some in H2. destruct H2 as [_ ->]. right; left. lia.
    - intros H. apply mul_div_exact in H; [|lia..]. tauto.
    - intros H. apply mul_div_floor in H; [|lia..]. right; right. lia.
  Qed.

  Lemma usd_to_mt_floor usd pool supply divisor r :
    0 <= usd -> 0 <= pool -> 0 < supply -> 0 <= divisor ->
    usd_to_mt w usd pool supply divisor = Some r ->
    0 < pool /\ 0 <= r /\ pool * r <= supply * usd < pool * r + pool.
  Proof.
    intros Hu Hp Hs Hd H. apply usd_to_mt_cases in H; [|lia..].
    destruct H as (_ & [(? & _)|[(? & _)|(_ & Hp0 & Hfl & _)]]); try lia.
    split; [lia|]. split; [nia|exact Hfl].
  Qed.

  Theorem usd_to_mt_never_rounds_up usd pool supply divisor r :
    0 <= usd -> 0 <= pool -> 0 < supply -> 0 < divisor ->
    usd_to_mt w usd pool supply divisor = Some r -> r * pool <= supply * usd.
  Proof.
    intros Hu Hp Hs Hd H. apply usd_to_mt_floor in H; [|lia..]. lia.
  Qed.

  Theorem mt_to_usd_exact amount pool supply r : 0 <= amount -> 0 <= pool -> 0 <= supply ->
    mt_to_usd w amount pool supply = Some r ->
    supply <> 0 /\ supply * r <= pool * amount < supply * r + supply.
  Proof. intros Ha Hp Hs H. unfold mt_to_usd in H. apply mul_div_floor in H; lia. Qed.
End P.
