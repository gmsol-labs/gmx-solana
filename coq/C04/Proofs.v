(* C04 — lemmas: ledger equalities of a swap, all-or-nothing. *)
From GV Require Import lib.Base MK.Market MK.Swap MK.MarketProofs MK.SwapProofs.
Open Scope Z_scope.

Section P.
  Variable w : Z.
  Hypothesis Hw : 1 <= w.
  Variable unit : Z.
  Hypothesis Hunit : 0 < unit.
  Variable cfg : config.

  Lemma swap_ledger s il a ps s' r :
    wf_state w s -> wf_prices w ps -> in_range w a ->
    swap_exec w unit cfg s il a ps = Ok (s', r) ->
    holdings s' il = holdings s il + a /\
    holdings s' (negb il) = holdings s (negb il) - sr_out r /\
    0 <= sr_out r /\
    total_supply s' = total_supply s /\ same_rest s s' /\ vi_follows s s' /\ wf_state w s'.
  Proof.
    intros Hs Hp Ha H. apply fst_bind_inv in H. destruct H as [t H].
    app swap_exec_trace_ok H. destruct H. tauto.
  Qed.

  Lemma swap_out_le_holdings s il a ps s' r :
    wf_state w s -> wf_prices w ps -> in_range w a ->
    swap_exec w unit cfg s il a ps = Ok (s', r) ->
    sr_out r <= pamount (primary s) (negb il) + pamount (swap_impact s) (negb il).
  Proof.
    intros Hs Hp Ha H. apply fst_bind_inv in H. destruct H as [t H].
    app swap_exec_trace_ok H.
    pose proof (sf_wf _ _ _ _ _ _ _ _ H) as (_ & Hprim & Himp1 & _).
    pose proof (sf_prim_out _ _ _ _ _ _ _ _ H). pose proof (sf_imp_out _ _ _ _ _ _ _ _ H).
    pose proof (pamount_range w _ (negb il) Hprim) as R. pose proof (pamount_range w _ (negb il) Himp1) as R1.
    unfold in_range in *. lia.
  Qed.

  Lemma swap_fail_unchanged s il a ps e :
    swap_exec w unit cfg s il a ps = Err e -> swap_step w unit cfg s il a ps = s.
  Proof. unfold swap_step. intros ->. reflexivity. Qed.

  Lemma swap_step_ok s il a ps s' r :
    swap_exec w unit cfg s il a ps = Ok (s', r) -> swap_step w unit cfg s il a ps = s'.
  Proof. unfold swap_step. intros ->. reflexivity. Qed.

  Lemma swap_step_wf s il a ps : wf_state w s -> wf_prices w ps -> in_range w a ->
    wf_state w (swap_step w unit cfg s il a ps).
  Proof.
    intros Hs Hp Ha. unfold swap_step. destruct (swap_exec w unit cfg s il a ps) as [[s' r]|e] eqn:E; [|exact Hs].
    apply swap_ledger in E; try assumption. cbn. tauto.
  Qed.
End P.
