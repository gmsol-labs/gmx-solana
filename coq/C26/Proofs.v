(* C26 — proofs about the model of Decimal / storage conversion / Pyth conversion. *)
From GV Require Import lib.Base lib.DivLemmas lib.Checked C26.Model.
Open Scope Z_scope.

Lemma pow10_pos e : 0 < 10 ^ e \/ e < 0.
Proof. destruct (Z.lt_ge_cases e 0); [right; assumption|left; apply DivLemmas.pow10_pos; assumption]. Qed.
Lemma pow10_sum a b : 0 <= a -> 0 <= b -> 10 ^ (a + b) = 10 ^ a * 10 ^ b.
Proof. intros; apply Z.pow_add_r; lia. Qed.
Lemma pow10_le a b : 0 <= a <= b -> 10 ^ a <= 10 ^ b.
Proof. intros; apply Z.pow_le_mono_r; lia. Qed.
Lemma pow10_split a b : 0 <= a <= b -> 10 ^ b = 10 ^ a * 10 ^ (b - a).
Proof. intros. rewrite <- pow10_sum by lia. f_equal. lia. Qed.

(* where the powers of ten stand among the bounds of the machine types
   (twice 2^32 * 10^20: checked_mid adds two unit prices) *)
Lemma u32_units_fit : 2 * (2 ^ 32 * 10 ^ 20) < 2 ^ 128. Proof. reflexivity. Qed.
Lemma ten38_u128 : 10 ^ 38 < 2 ^ 128. Proof. reflexivity. Qed.
Lemma ten39_u128 : 2 ^ 128 <= 10 ^ 39. Proof. apply Z.leb_le. reflexivity. Qed.
Lemma ten19_u64 : 10 ^ 19 < 2 ^ 64. Proof. reflexivity. Qed.
Lemma ten20_u64 : 2 ^ 64 <= 10 ^ 20. Proof. apply Z.leb_le. reflexivity. Qed.
Lemma two192_bound : 2 ^ 192 <= 2 ^ 128 * 10 ^ 20. Proof. apply Z.leb_le. reflexivity. Qed.

Lemma unit_bound v m : 0 <= v < 2 ^ 32 -> 0 <= m <= 20 -> 0 <= v * 10 ^ m < 2 ^ 32 * 10 ^ 20.
Proof.
  intros Hv Hm. pose proof (DivLemmas.pow10_pos m ltac:(lia)). pose proof (pow10_le m 20 ltac:(lia)).
  split; [apply Z.mul_nonneg_nonneg; lia|].
  apply Z.le_lt_trans with (v * 10 ^ 20); [apply Z.mul_le_mono_nonneg_l; lia|apply Z.mul_lt_mono_pos_r; lia].
Qed.

(* Every arithmetic step of try_from_price multiplies or divides by a power of ten. *)
Definition scale (x e : Z) : Z := if 0 <=? e then x * 10 ^ e else x / 10 ^ (- e).

Lemma scale_mul x e : 0 <= e -> scale x e = x * 10 ^ e.
Proof. intros. unfold scale. replace (0 <=? e) with true by lia. reflexivity. Qed.
Lemma scale_div x e : 0 <= e -> scale x (- e) = x / 10 ^ e.
Proof.
  intros. unfold scale. destruct (0 <=? - e) eqn:E; [|rewrite Z.opp_involutive; reflexivity].
  replace e with 0 by lia. cbn. rewrite Z.mul_1_r, Z.div_1_r. reflexivity.
Qed.

(* steps compose exactly unless a division is followed by a multiplication *)
Lemma scale_scale x e1 e2 : 0 <= e1 \/ e2 <= 0 -> scale (scale x e1) e2 = scale x (e1 + e2).
Proof.
  intros H. destruct (Z.le_gt_cases 0 e1) as [H1|H1]; [rewrite (scale_mul x e1 H1)|].
  - destruct (Z.le_gt_cases 0 e2) as [H2|H2].
    + rewrite !scale_mul by lia. rewrite pow10_sum by lia. ring.
    + replace e2 with (- - e2) at 1 by lia. rewrite scale_div by lia.
      destruct (Z.le_gt_cases 0 (e1 + e2)) as [H3|H3].
      * rewrite scale_mul by lia. rewrite (pow10_split (- e2) e1) by lia.
        replace (e1 - - e2) with (e1 + e2) by lia. rewrite (Z.mul_comm (10 ^ - e2)), Z.mul_assoc.
        apply Z.div_mul. pose proof (DivLemmas.pow10_pos (- e2)); lia.
      * replace (e1 + e2) with (- (- e2 - e1)) by lia. rewrite scale_div by lia.
        rewrite (pow10_split e1 (- e2)) by lia. rewrite (Z.mul_comm (10 ^ e1)).
        apply Z.div_mul_cancel_r; [pose proof (DivLemmas.pow10_pos (- e2 - e1))|pose proof (DivLemmas.pow10_pos e1)]; lia.
  - replace e1 with (- - e1) by lia. replace e2 with (- - e2) by lia.
    rewrite <- Z.opp_add_distr, !scale_div by lia.
    pose proof (DivLemmas.pow10_pos (- e1)). rewrite Z.div_div by (try apply DivLemmas.pow10_pos; lia).
    rewrite pow10_sum by lia. reflexivity.
Qed.

Lemma trunc_scale x d p : 0 <= d -> 0 <= p -> x * 10 ^ p / 10 ^ d = scale x (p - d).
Proof. intros. rewrite <- (scale_mul x p), <- scale_div by lia. apply scale_scale. lia. Qed.

(* a number beyond u128 stays beyond u32 however the code scales it *)
Lemma scale_large x e : 2 ^ 128 <= x -> - 20 <= e -> 2 ^ 32 <= scale x e.
Proof.
  intros Hx He. pose proof u32_units_fit. destruct (Z.le_gt_cases 0 e).
  - rewrite scale_mul by lia. pose proof (DivLemmas.pow10_pos e). nia.
  - replace e with (- - e) by lia. rewrite scale_div by lia.
    pose proof (DivLemmas.pow10_pos (- e) ltac:(lia)). pose proof (pow10_le (- e) 20 ltac:(lia)).
    apply Z.div_le_lower_bound; [lia|]. rewrite Z.mul_comm.
    apply Z.le_trans with (2 ^ 32 * 10 ^ 20); [apply Z.mul_le_mono_nonneg_l|]; lia.
Qed.

Definition decs_ok (d td p : Z) : bool :=
  (d <=? 20) && (td <=? 20) && (p <=? 20) && (td + p <=? 20).

Lemma decs_ok_iff d td p : decs_ok d td p = true <-> (d <= 20 /\ td <= 20 /\ p <= 20 /\ td + p <= 20).
Proof. unfold decs_ok. rewrite !andb_true_iff, !Z.leb_le. tauto. Qed.

(* the two ways the function ends: a checked multiplication by a power of ten, or a value
   already computed, followed by the conversion to u32.  An overflow of the u128 product is
   reported like a result beyond u32, which it implies. *)
Lemma finish_val v (m : Z) : 0 <= v ->
  (v32 <-- of_opt 2 (chk_u 32 v) ;; Ok (v32, m)) = if v <? 2 ^ 32 then Ok (v, m) else Err 2.
Proof.
  intros Hv. rewrite of_opt_chk_u by assumption. destruct (v <? 2 ^ 32); reflexivity.
Qed.

Lemma umul_pow10 x e : 0 <= x -> 0 <= e ->
  of_opt 2 (umul 128 x (10 ^ e)) = if x * 10 ^ e <? 2 ^ 128 then Ok (x * 10 ^ e) else Err 2.
Proof.
  intros Hx He. apply of_opt_chk_u. apply Z.mul_nonneg_nonneg; [|apply Z.lt_le_incl, DivLemmas.pow10_pos]; assumption.
Qed.

Lemma finish_mul x e (m : Z) : 0 <= x -> 0 <= e ->
  (v <-- of_opt 2 (umul 128 x (10 ^ e)) ;; v32 <-- of_opt 2 (chk_u 32 v) ;; Ok (v32, m)) =
  if x * 10 ^ e <? 2 ^ 32 then Ok (x * 10 ^ e, m) else Err 2.
Proof.
  intros Hx He. rewrite umul_pow10 by assumption. pose proof (DivLemmas.pow10_pos e He).
  assert (0 <= x * 10 ^ e) by (apply Z.mul_nonneg_nonneg; lia).
  destruct (x * 10 ^ e <? 2 ^ 128) eqn:E; cbn [rbind]; [apply finish_val; assumption|].
  replace (x * 10 ^ e <? 2 ^ 32) with false; [reflexivity|].
  symmetry. apply Z.ltb_ge. apply Z.le_trans with (2 ^ 128); [apply Z.pow_le_mono_r|]; lia.
Qed.

(* The whole function as one equation: the value is the exact truncation, the only
   failures are the decimal guards (Err 1) and a truncation that does not fit u32 (Err 2). *)
Theorem try_from_price_eq price d td p :
  0 <= price < 2 ^ 128 -> 0 <= d -> 0 <= td -> 0 <= p ->
  try_from_price price d td p =
    if decs_ok d td p then
      let T := price * 10 ^ p / 10 ^ d in
      if T <? 2 ^ 32 then Ok (T, 20 - td - p) else Err 2
    else Err 1.
Proof.
  intros Hp Hd Htd Hpp. unfold try_from_price, MAX_DECIMALS.
  destruct (decs_ok d td p) eqn:D.
  2:{ unfold decs_ok in D. destruct (_ || _ || _) eqn:G1; [reflexivity|].
      destruct (20 <? td + p) eqn:G2; [reflexivity|lia]. }
  apply decs_ok_iff in D. replace (_ || _ || _) with false by lia. replace (20 <? td + p) with false by lia.
  cbv zeta. rewrite trunc_scale by assumption.
  replace (2 * td + (20 - td - p) <=? 20) with (td <=? p) by lia.
  replace (20 - (2 * td + (20 - td - p))) with (p - td) by lia.
  replace (2 * td + (20 - td - p) - 20) with (td - p) by lia.
  assert (D0 : forall x e, 0 <= x -> 0 <= e -> 0 <= x / 10 ^ e) by (intros; apply div_nonneg; [|apply DivLemmas.pow10_pos]; lia).
  destruct (d =? td) eqn:Edt; [|destruct (d <? td) eqn:Elt].
  - (* same decimals: one step, by p - td *)
    assert (d = td) by lia. subst td. cbn [rbind fst snd]. destruct (d <=? p) eqn:Edp.
    + rewrite finish_mul, scale_mul by lia. reflexivity.
    + cbn [rbind]. rewrite finish_val by (apply D0; lia).
      replace (p - d) with (- (d - p)) by lia. rewrite scale_div by lia. reflexivity.
  - (* fewer decimals than the token: first up by td - d, checked, then by p - td *)
    rewrite umul_pow10 by lia. set (X := price * 10 ^ (td - d)).
    assert (HX : 0 <= X) by (apply Z.mul_nonneg_nonneg; [|apply Z.lt_le_incl, DivLemmas.pow10_pos]; lia).
    assert (ET : scale price (p - d) = scale X (p - td)).
    { subst X. rewrite <- (scale_mul price (td - d)), scale_scale by lia. f_equal. lia. }
    rewrite ET. destruct (X <? 2 ^ 128) eqn:EX; cbn [rbind fst snd].
    + destruct (td <=? p) eqn:Etp.
      * rewrite finish_mul, scale_mul by lia. reflexivity.
      * cbn [rbind]. rewrite finish_val by (apply D0; lia).
        replace (p - td) with (- (td - p)) by lia. rewrite scale_div by lia. reflexivity.
    + replace (scale X (p - td) <? 2 ^ 32) with false; [reflexivity|].
      symmetry. apply Z.ltb_ge, scale_large; lia.
  - (* more decimals: the surplus d - td is carried along and merged into the one step *)
    cbn [rbind fst snd]. destruct (td <=? p) eqn:Etp.
    + destruct (d - td <=? p - td) eqn:Ede.
      * rewrite finish_mul, scale_mul by lia. replace (p - td - (d - td)) with (p - d) by lia. reflexivity.
      * cbn [rbind]. rewrite finish_val by (apply D0; lia).
        replace (p - d) with (- (d - td - (p - td))) by lia. rewrite scale_div by lia. reflexivity.
    + cbn [rbind]. rewrite finish_val by (apply D0; [apply D0|]; lia).
      rewrite <- !scale_div, scale_scale by lia. replace (- (td - p) + - (d - td)) with (p - d) by lia. reflexivity.
Qed.

Theorem try_from_price_ok price d td p v m :
  0 <= price < 2 ^ 128 -> 0 <= d -> 0 <= td -> 0 <= p ->
  try_from_price price d td p = Ok (v, m) <->
  (d <= 20 /\ td <= 20 /\ p <= 20 /\ td + p <= 20) /\
  v = price * 10 ^ p / 10 ^ d /\ v < 2 ^ 32 /\ m = 20 - td - p.
Proof.
  intros Hp Hd Htd Hpp. rewrite try_from_price_eq by assumption. rewrite <- decs_ok_iff.
  destruct (decs_ok d td p); cbv zeta.
  - destruct (_ <? 2 ^ 32) eqn:E; split.
    + intros [= <- <-]. repeat split; lia.
    + intros (_ & -> & _ & ->). reflexivity.
    + discriminate.
    + intros (_ & -> & ? & _). lia.
  - split; [discriminate|]. intros [[=] _].
Qed.

Theorem try_from_price_err price d td p e :
  0 <= price < 2 ^ 128 -> 0 <= d -> 0 <= td -> 0 <= p ->
  try_from_price price d td p = Err e <->
  (e = 1 /\ ~ (d <= 20 /\ td <= 20 /\ p <= 20 /\ td + p <= 20)) \/
  (e = 2 /\ (d <= 20 /\ td <= 20 /\ p <= 20 /\ td + p <= 20) /\ 2 ^ 32 <= price * 10 ^ p / 10 ^ d).
Proof.
  intros Hp Hd Htd Hpp. rewrite try_from_price_eq by assumption. rewrite <- decs_ok_iff.
  destruct (decs_ok d td p); cbv zeta.
  - destruct (_ <? 2 ^ 32) eqn:E; split.
    + discriminate.
    + intros [[_ H]|(_ & _ & H)]; [exfalso; apply H; reflexivity|lia].
    + intros [= <-]. right. repeat split; lia.
    + intros [[_ H]|(-> & _)]; [exfalso; apply H; reflexivity|reflexivity].
  - split.
    + intros [= <-]. left. split; [reflexivity|discriminate].
    + intros [[-> _]|(_ & [=] & _)]. reflexivity.
Qed.

Theorem try_from_price_floor price d td p v m :
  0 <= price < 2 ^ 128 -> 0 <= d -> 0 <= td -> 0 <= p ->
  try_from_price price d td p = Ok (v, m) ->
  0 <= v < 2 ^ 32 /\ v * 10 ^ d <= price * 10 ^ p < (v + 1) * 10 ^ d.
Proof.
  intros Hp Hd Htd Hpp H. apply try_from_price_ok in H; try assumption. destruct H as (_ & -> & Hlt & _).
  pose proof (DivLemmas.pow10_pos d Hd). pose proof (DivLemmas.pow10_pos p Hpp).
  pose proof (div_floor_spec (price * 10 ^ p) (10 ^ d) ltac:(lia)).
  assert (0 <= price * 10 ^ p / 10 ^ d) by (apply div_nonneg; [apply Z.mul_nonneg_nonneg|]; lia). lia.
Qed.

Lemma try_from_price_mono p1 p2 d td p v1 m1 v2 m2 :
  0 <= p1 <= p2 -> p2 < 2 ^ 128 -> 0 <= d -> 0 <= td -> 0 <= p ->
  try_from_price p1 d td p = Ok (v1, m1) -> try_from_price p2 d td p = Ok (v2, m2) ->
  v1 <= v2 /\ m1 = m2.
Proof.
  intros H1 H2 Hd Htd Hp A B. apply try_from_price_ok in A; [|lia..]. apply try_from_price_ok in B; [|lia..].
  destruct A as (_ & -> & _ & ->), B as (_ & -> & _ & ->). split; [|reflexivity].
  apply Z.div_le_mono; [apply DivLemmas.pow10_pos; lia|]. apply Z.mul_le_mono_nonneg_r; [apply Z.lt_le_incl, DivLemmas.pow10_pos|]; lia.
Qed.

Theorem try_to_price_ok mn mx d td p a b :
  try_to_price mn mx d td p = Ok (a, b) <->
  try_from_price mn d td p = Ok a /\ try_from_price mx d td p = Ok b.
Proof.
  unfold try_to_price. rewrite rbind_ok. split.
  - intros (x & E1 & E2). apply rbind_ok in E2. destruct E2 as (y & E2 & [= <- <-]). auto.
  - intros [E1 E2]. exists a. split; [exact E1|]. rewrite E2. reflexivity.
Qed.

Lemma multiplier_some m : 0 <= m <= 38 -> multiplier m = Some (10 ^ m).
Proof.
  intros H. unfold multiplier. apply chk_u_some. split; [|reflexivity].
  pose proof (DivLemmas.pow10_pos m ltac:(lia)). pose proof (pow10_le m 38 ltac:(lia)). pose proof ten38_u128. lia.
Qed.
Lemma multiplier_none m : 39 <= m -> multiplier m = None.
Proof.
  intros H. unfold multiplier. apply chk_u_none. right.
  pose proof (pow10_le 39 m ltac:(lia)). pose proof ten39_u128. lia.
Qed.

Theorem to_unit_price_spec v m u : 0 <= v -> 0 <= m ->
  to_unit_price v m = Some u <-> (u = v * 10 ^ m /\ m <= 38 /\ v * 10 ^ m < 2 ^ 128).
Proof.
  intros Hv Hm. unfold to_unit_price. destruct (Z_le_gt_dec m 38).
  - rewrite multiplier_some by lia. cbn [obind]. rewrite chk_u_some.
    pose proof (DivLemmas.pow10_pos m Hm). assert (0 <= v * 10 ^ m) by (apply Z.mul_nonneg_nonneg; lia).
    split; [intros [? ->]|intros (-> & ? & ?)]; repeat split; lia.
  - rewrite multiplier_none by lia. cbn [obind]. split; [discriminate|lia].
Qed.

Theorem unit_price_never_rounds_up price d td p v m :
  0 <= price < 2 ^ 128 -> 0 <= d -> 0 <= td -> 0 <= p ->
  try_from_price price d td p = Ok (v, m) ->
  to_unit_price v m = Some (v * 10 ^ m) /\
  0 <= m <= 20 /\
  v * 10 ^ m * 10 ^ (d + td) <= price * 10 ^ 20 < (v * 10 ^ m + 10 ^ m) * 10 ^ (d + td).
Proof.
  intros Hp Hd Htd Hpp H. pose proof (try_from_price_floor _ _ _ _ _ _ Hp Hd Htd Hpp H) as (Hv & Hf).
  apply try_from_price_ok in H; try assumption. destruct H as ((D1 & D2 & D3 & D4) & _ & _ & ->).
  split; [|split; [lia|]].
  - apply to_unit_price_spec; try lia. pose proof (unit_bound v (20 - td - p) Hv ltac:(lia)). pose proof u32_units_fit.
    repeat split; lia.
  - (* the floor inequality times 10^(20 - p) *)
    assert (E : 10 ^ (20 - td - p) * 10 ^ (d + td) = 10 ^ d * 10 ^ (20 - p))
      by (rewrite <- !pow10_sum by lia; f_equal; lia).
    rewrite (pow10_split p 20) by lia. pose proof (DivLemmas.pow10_pos (20 - p) ltac:(lia)) as K.
    revert Hf E K. generalize (10 ^ d) (10 ^ p) (10 ^ (20 - p)) (10 ^ (20 - td - p)) (10 ^ (d + td)).
    clear. intros A B K M N Hf E HK.
    replace (v * M * N) with (v * A * K) by (rewrite <- (Z.mul_assoc v M N), E; ring).
    replace ((v * M + M) * N) with ((v + 1) * A * K)
      by (replace (v * M + M) with ((v + 1) * M) by ring; rewrite <- (Z.mul_assoc (v + 1) M N), E; ring).
    rewrite (Z.mul_assoc price B K). split; [apply Z.mul_le_mono_nonneg_r|apply Z.mul_lt_mono_pos_r]; lia.
Qed.

Lemma div_ceil_spec a mu : 0 < mu -> mu * (div_ceil a mu - 1) < a <= mu * div_ceil a mu.
Proof. intros H. unfold div_ceil. destruct (0 <? a mod mu) eqn:E; lia. Qed.
Lemma div_ceil_unique a mu r : 0 < mu -> mu * (r - 1) < a <= mu * r -> div_ceil a mu = r.
Proof. intros H Hr. pose proof (div_ceil_spec a mu H). nia. Qed.

Lemma with_unit_price_eq m price ru : 0 <= m <= 38 -> 0 <= price ->
  with_unit_price m price ru =
    let v := if ru then div_ceil price (10 ^ m) else price / 10 ^ m in
    if v <? 2 ^ 32 then Ok v else Err 1.
Proof.
  intros Hm Hp. unfold with_unit_price. rewrite multiplier_some by lia. cbv zeta.
  set (v := if ru then _ else _). pose proof (DivLemmas.pow10_pos m ltac:(lia)) as P.
  assert (0 <= v).
  { subst v. destruct ru; [|apply div_nonneg; lia]. pose proof (div_ceil_spec price _ P). nia. }
  apply of_opt_chk_u. assumption.
Qed.

Theorem with_unit_price_floor m price v : 0 <= m <= 38 -> 0 <= price ->
  with_unit_price m price false = Ok v <-> (v = price / 10 ^ m /\ v < 2 ^ 32).
Proof.
  intros Hm Hp. rewrite with_unit_price_eq by assumption. cbv zeta.
  destruct (_ <? 2 ^ 32) eqn:E; split; try discriminate.
  - intros [= <-]. lia.
  - intros [-> _]. reflexivity.
  - lia.
Qed.

Theorem with_unit_price_ceil m price v : 0 <= m <= 38 -> 0 <= price ->
  with_unit_price m price true = Ok v ->
  0 <= v < 2 ^ 32 /\ (v - 1) * 10 ^ m < price <= v * 10 ^ m.
Proof.
  intros Hm Hp. rewrite with_unit_price_eq by assumption. cbv zeta.
  pose proof (DivLemmas.pow10_pos m ltac:(lia)) as P. pose proof (div_ceil_spec price _ P).
  destruct (_ <? 2 ^ 32) eqn:E; [|discriminate]. intros [= <-]. nia.
Qed.

Theorem with_unit_price_none m price ru : 0 <= m <= 38 -> 0 <= price ->
  with_unit_price m price ru = Err 1 <->
  (if ru then (2 ^ 32 - 1) * 10 ^ m < price else 2 ^ 32 * 10 ^ m <= price).
Proof.
  intros Hm Hp. rewrite with_unit_price_eq by assumption. cbv zeta.
  pose proof (DivLemmas.pow10_pos m ltac:(lia)) as P.
  pose proof (div_ceil_spec price _ P). pose proof (div_floor_spec price _ P).
  destruct ru; (destruct (_ <? 2 ^ 32) eqn:E; split; [discriminate|nia|nia|reflexivity]).
Qed.

Theorem with_unit_price_trap m price ru : 0 <= m -> 0 <= price ->
  with_unit_price m price ru = Err 9 <-> 39 <= m.
Proof.
  intros Hm Hp. destruct (Z_le_gt_dec m 38).
  - rewrite with_unit_price_eq by lia. cbv zeta. destruct (_ <? 2 ^ 32); split; (discriminate || lia).
  - unfold with_unit_price. rewrite multiplier_none by lia. split; [lia|reflexivity].
Qed.

Theorem with_unit_price_roundtrip v m ru : 0 <= v < 2 ^ 32 -> 0 <= m <= 38 -> v * 10 ^ m < 2 ^ 128 ->
  to_unit_price v m = Some (v * 10 ^ m) /\ with_unit_price m (v * 10 ^ m) ru = Ok v.
Proof.
  intros Hv Hm Hf. split; [apply to_unit_price_spec; lia|]. pose proof (DivLemmas.pow10_pos m ltac:(lia)).
  rewrite with_unit_price_eq by (try apply Z.mul_nonneg_nonneg; lia). unfold div_ceil.
  rewrite Z.div_mul, Z.mod_mul by lia. cbn [Z.ltb Z.compare].
  destruct ru; cbv zeta; replace (v <? 2 ^ 32) with true by lia; reflexivity.
Qed.

Definition M128 : Z := 2 ^ 128 - 1.

Lemma power_bounds_table :
  power_bounds = map (fun i => M128 * 10 ^ Z.of_nat i) (seq 0 20).
Proof. vm_compute. reflexivity. Qed.

Lemma count_below_nonneg num l : 0 <= count_below num l <= Z.of_nat (length l).
Proof. induction l as [|b r IH]; cbn [count_below length]; [lia|]. destruct (b <? num); lia. Qed.

(* on the table of an increasing function the count is the index of the first entry >= the key:
   all entries before it are below the key, all from it on are not *)
Lemma count_below_increasing (f : nat -> Z) num :
  (forall i j, (i < j)%nat -> f i < f j) ->
  forall n a, let k := Z.to_nat (count_below num (map f (seq a n))) in
  (k <= n)%nat /\ count_below num (map f (seq a n)) = Z.of_nat k /\
  (forall i, (a <= i < a + k)%nat -> f i < num) /\ (forall i, (a + k <= i < a + n)%nat -> num <= f i).
Proof.
  intros Hf. induction n as [|n IH]; intros a; cbn [seq map count_below].
  - cbv zeta. cbn. repeat split; lia.
  - specialize (IH (S a)). cbv zeta in *. pose proof (count_below_nonneg num (map f (seq (S a) n))) as B.
    rewrite map_length, seq_length in B.
    set (c := count_below num (map f (seq (S a) n))) in *. destruct IH as (_ & _ & I1 & I2).
    destruct (f a <? num) eqn:E.
    + replace (Z.to_nat (1 + c)) with (S (Z.to_nat c)) by lia. repeat split; try lia.
      * intros i Hi. destruct (Nat.eq_dec i a) as [->|]; [lia|apply I1; lia].
      * intros i Hi. apply I2. lia.
    + (* the head is not below the key, so nothing after it is *)
      assert (c = 0). { destruct (Z.eq_dec c 0); [assumption|]. specialize (I1 (S a) ltac:(lia)). specialize (Hf a (S a) ltac:(lia)). lia. }
      subst c. rewrite H. cbn. repeat split; try lia.
      intros i Hi. destruct (Nat.eq_dec i a) as [->|]; [lia|]. specialize (Hf a i ltac:(lia)). lia.
Qed.

Theorem find_divisor_decimals_spec num : 0 <= num ->
  let k := find_divisor_decimals num in
  0 <= k <= 20 /\
  (k <= 19 -> num <= M128 * 10 ^ k) /\
  (1 <= k -> M128 * 10 ^ (k - 1) < num).
Proof.
  intros Hn. unfold find_divisor_decimals. rewrite power_bounds_table.
  pose proof (count_below_increasing (fun i => M128 * 10 ^ Z.of_nat i) num) as H. cbv zeta in *.
  destruct (H ltac:(intros i j Hij; apply Z.mul_lt_mono_pos_l; [reflexivity|apply Z.pow_lt_mono_r; lia]) 20%nat 0%nat)
    as (K & -> & Below & Above).
  set (k := Z.to_nat _) in *. clearbody k. cbv beta in *. split; [lia|split]; intros Hk.
  - apply Above. lia.
  - replace (Z.of_nat k - 1) with (Z.of_nat (k - 1)) by lia. apply Below. lia.
Qed.

Theorem find_divisor_decimals_fits num : 0 <= num < 2 ^ 192 ->
  0 <= num / 10 ^ find_divisor_decimals num < 2 ^ 128.
Proof.
  intros Hn. pose proof (find_divisor_decimals_spec num ltac:(lia)) as (K1 & K2 & _). cbv zeta in *.
  set (k := find_divisor_decimals num) in *. pose proof (DivLemmas.pow10_pos k ltac:(lia)).
  split; [apply div_nonneg; lia|]. apply Z.div_lt_upper_bound; [lia|]. rewrite Z.mul_comm.
  destruct (Z_le_gt_dec k 19).
  - specialize (K2 ltac:(lia)). unfold M128 in K2. lia.
  - replace k with 20 by lia. pose proof two192_bound. lia.
Qed.

Theorem find_divisor_decimals_near_minimal num j : 0 <= num -> 0 <= j ->
  let k := find_divisor_decimals num in
  (j <= k - 2 -> 2 ^ 128 <= num / 10 ^ j) /\
  (j = k - 1 -> 2 ^ 128 - 1 <= num / 10 ^ j).
Proof.
  intros Hn Hj. pose proof (find_divisor_decimals_spec num Hn) as (K1 & _ & K3). cbv zeta in *.
  set (k := find_divisor_decimals num) in *. pose proof (DivLemmas.pow10_pos j Hj).
  split; intros Hjk; specialize (K3 ltac:(lia)); (apply Z.div_le_lower_bound; [assumption|]); unfold M128 in K3.
  - (* 10^(k-1) is at least 10 * 10^j, and 10 * u128::MAX > 2^128 *)
    rewrite (pow10_split j (k - 1)) in K3 by lia.
    pose proof (pow10_le 1 (k - 1 - j) ltac:(lia)). change (10 ^ 1) with 10 in *.
    assert (P : 2 <= 2 ^ 128) by lia.
    revert K3 H H0 P. generalize (2 ^ 128) (10 ^ j) (10 ^ (k - 1 - j)). clear. intros. nia.
  - subst j. lia.
Qed.

Lemma find_divisor_decimals_not_minimal_witness :
  let num := (2 ^ 128 - 1) * 10 + 5 in
  find_divisor_decimals num = 2 /\ num / 10 ^ 1 < 2 ^ 128.
Proof. vm_compute. split; reflexivity. Qed.

Theorem convert_to_u128_storage_spec num decimals : 0 <= num < 2 ^ 192 -> 0 <= decimals ->
  let k := find_divisor_decimals num in
  convert_to_u128_storage num decimals =
    if decimals <? k then Err 1 else Ok (num / 10 ^ k, decimals - k).
Proof.
  intros Hn Hd. cbv zeta. unfold convert_to_u128_storage.
  destruct (decimals <? find_divisor_decimals num); [reflexivity|].
  pose proof (find_divisor_decimals_fits num Hn).
  rewrite chk_u_in by lia. reflexivity.
Qed.

Theorem convert_to_u128_storage_sound num decimals q d' : 0 <= num < 2 ^ 192 -> 0 <= decimals ->
  convert_to_u128_storage num decimals = Ok (q, d') ->
  let k := decimals - d' in
  0 <= k <= 20 /\ 0 <= d' /\ 0 <= q < 2 ^ 128 /\ q * 10 ^ k <= num < (q + 1) * 10 ^ k.
Proof.
  intros Hn Hd. rewrite convert_to_u128_storage_spec by assumption. cbv zeta.
  pose proof (find_divisor_decimals_spec num ltac:(lia)) as (K1 & _). cbv zeta in K1.
  pose proof (find_divisor_decimals_fits num Hn). set (k := find_divisor_decimals num) in *.
  destruct (decimals <? k) eqn:E; [discriminate|]. intros [= <- <-].
  replace (decimals - (decimals - k)) with k by lia.
  pose proof (div_floor_spec num (10 ^ k) (DivLemmas.pow10_pos k ltac:(lia))). repeat split; lia.
Qed.

Theorem convert_to_u128_storage_never_panics num decimals : 0 <= num < 2 ^ 192 -> 0 <= decimals ->
  convert_to_u128_storage num decimals <> Err 9.
Proof.
  intros Hn Hd. rewrite convert_to_u128_storage_spec by assumption. cbv zeta.
  destruct (decimals <? find_divisor_decimals num); discriminate.
Qed.

Theorem convert_to_u128_storage_none num decimals : 0 <= num < 2 ^ 192 -> 0 <= decimals <= 19 ->
  convert_to_u128_storage num decimals = Err 1 <-> M128 * 10 ^ decimals < num.
Proof.
  intros Hn Hd. rewrite convert_to_u128_storage_spec by lia. cbv zeta.
  pose proof (find_divisor_decimals_spec num ltac:(lia)) as (K1 & K2 & K3). cbv zeta in *.
  set (k := find_divisor_decimals num) in *. assert (0 < M128) by reflexivity.
  destruct (decimals <? k) eqn:E; (split; [intros A|intros B]); try reflexivity; try discriminate.
  - apply Z.le_lt_trans with (M128 * 10 ^ (k - 1)); [|apply K3; lia].
    apply Z.mul_le_mono_nonneg_l; [|apply pow10_le]; lia.
  - exfalso. assert (M128 * 10 ^ k <= M128 * 10 ^ decimals) by (apply Z.mul_le_mono_nonneg_l; [|apply pow10_le]; lia).
    specialize (K2 ltac:(lia)). lia.
Qed.

(* the guard in the model is 10u64.checked_pow *)
Lemma pow10_u64_spec e : 0 <= e -> pow10_u64 e = chk_u 64 (10 ^ e).
Proof.
  intros He. unfold pow10_u64. destruct (19 <? e) eqn:E; [|reflexivity].
  symmetry. apply chk_u_none. right. pose proof (pow10_le 20 e ltac:(lia)). pose proof ten20_u64. lia.
Qed.
Lemma pow10_u64_some e : 0 <= e <= 19 -> pow10_u64 e = Some (10 ^ e).
Proof.
  intros He. rewrite pow10_u64_spec by lia. apply chk_u_some. split; [|reflexivity].
  pose proof (DivLemmas.pow10_pos e ltac:(lia)). pose proof (pow10_le e 19 ltac:(lia)). pose proof ten19_u64. lia.
Qed.

(* the inline match that ends pyth_value_to_decimal; pyth_value_to_decimal_spec closes by conversion with it *)
Definition map_err7 (r : res (Z * Z)) : res (Z * Z) := match r with Ok x => Ok x | Err _ => Err 7 end.

Lemma map_err7_ok r x : map_err7 r = Ok x <-> r = Ok x.
Proof. destruct r; cbn; split; intros H; try discriminate; exact H. Qed.

Theorem pyth_value_to_decimal_spec value e td p :
  0 <= value < 2 ^ 64 -> - 2 ^ 31 <= e < 2 ^ 31 ->
  pyth_value_to_decimal value e td p =
    if e =? - 2 ^ 31 then Err 9
    else if e <? -255 then Err 4
    else if e <=? 0 then map_err7 (try_from_price value (- e) td p)
    else if 20 <=? e then Err 5
    else if 2 ^ 64 <=? value * 10 ^ e then Err 6
    else map_err7 (try_from_price (value * 10 ^ e) 0 td p).
Proof.
  intros Hv He. unfold pyth_value_to_decimal.
  destruct (e <=? 0) eqn:E2.
  - replace (e <? -255) with (negb (- e <? 2 ^ 8)) by (change (2 ^ 8) with 256; lia).
    destruct (e =? - 2 ^ 31) eqn:E0.
    + replace (chk_s 32 (- e)) with (@None Z) by (symmetry; apply chk_s_none; lia). reflexivity.
    + replace (chk_s 32 (- e)) with (Some (- e)) by (symmetry; apply chk_s_some; lia).
      destruct (- e <? 2 ^ 8) eqn:E1; cbn [negb].
      * rewrite chk_u_in by lia. reflexivity.
      * rewrite chk_u_out by lia. reflexivity.
  - replace (e =? - 2 ^ 31) with false by lia. replace (e <? -255) with false by lia.
    destruct (20 <=? e) eqn:E3.
    + unfold pow10_u64. replace (19 <? e) with true by lia. reflexivity.
    + rewrite pow10_u64_some by lia. cbn [of_opt rbind].
      pose proof (DivLemmas.pow10_pos e ltac:(lia)). assert (0 <= value * 10 ^ e) by (apply Z.mul_nonneg_nonneg; lia).
      destruct (2 ^ 64 <=? value * 10 ^ e) eqn:E4.
      * unfold umul. rewrite chk_u_out by lia. reflexivity.
      * unfold umul. rewrite chk_u_in by lia. reflexivity.
Qed.

Lemma pyth_value_to_decimal_ok value e td p x :
  0 <= value < 2 ^ 64 -> - 2 ^ 31 <= e < 2 ^ 31 ->
  pyth_value_to_decimal value e td p = Ok x ->
  (e <= 0 /\ try_from_price value (- e) td p = Ok x) \/
  (0 < e < 20 /\ 0 <= value * 10 ^ e < 2 ^ 64 /\ try_from_price (value * 10 ^ e) 0 td p = Ok x).
Proof.
  intros Hv He. rewrite pyth_value_to_decimal_spec by assumption.
  destruct (e =? - 2 ^ 31); [discriminate|]. destruct (e <? -255); [discriminate|].
  destruct (e <=? 0) eqn:E2; [rewrite map_err7_ok; left; split; [lia|assumption]|].
  destruct (20 <=? e) eqn:E3; [discriminate|]. destruct (2 ^ 64 <=? value * 10 ^ e) eqn:E4; [discriminate|].
  rewrite map_err7_ok. right. pose proof (DivLemmas.pow10_pos e ltac:(lia)).
  assert (0 <= value * 10 ^ e) by (apply Z.mul_nonneg_nonneg; lia). repeat split; (assumption || lia).
Qed.

(* exact value of a successful Pyth conversion: floor(value * 10^e * 10^p) *)
Theorem pyth_value_to_decimal_exact value e td p v m :
  0 <= value < 2 ^ 64 -> - 2 ^ 31 <= e < 2 ^ 31 -> 0 <= td -> 0 <= p ->
  pyth_value_to_decimal value e td p = Ok (v, m) ->
  m = 20 - td - p /\ 0 <= v < 2 ^ 32 /\ td + p <= 20 /\
  ((-20 <= e <= 0 /\ v = value * 10 ^ p / 10 ^ (- e)) \/
   (0 < e < 20 /\ v = value * 10 ^ e * 10 ^ p)).
Proof.
  intros Hv He Htd Hp H. apply pyth_value_to_decimal_ok in H; try assumption.
  assert (U : forall x, 0 <= x < 2 ^ 64 -> 0 <= x < 2 ^ 128) by lia.
  destruct H as [(E & T)|(E & B & T)].
  - pose proof (try_from_price_floor value (- e) td p _ _ (U _ Hv) ltac:(lia) Htd Hp T) as (F & _).
    apply try_from_price_ok in T; [|apply U; lia|lia..]. destruct T as ((D1 & D2 & D3 & D4) & -> & _ & ->).
    repeat split; lia.
  - pose proof (try_from_price_floor _ 0 td p _ _ (U _ B) ltac:(lia) Htd Hp T) as (F & _).
    apply try_from_price_ok in T; [|apply U; lia|lia..]. destruct T as ((D1 & D2 & D3 & D4) & -> & _ & ->).
    change (10 ^ 0) with 1. rewrite Z.div_1_r in *. repeat split; lia.
Qed.

Lemma pyth_with_confidence_ok price conf e td p a b :
  pyth_with_confidence price conf e td p = Ok (a, b) ->
  0 <= price /\ 0 <= price - conf /\ price + conf < 2 ^ 64 /\
  pyth_value_to_decimal (price - conf) e td p = Ok a /\ pyth_value_to_decimal (price + conf) e td p = Ok b.
Proof.
  unfold pyth_with_confidence. destruct (price <? 0) eqn:E0; cbn [of_opt rbind]; [discriminate|].
  intros H. apply rbind_ok in H. destruct H as (mn & A & H). apply of_opt_ok, usub_some in A. destruct A as [A ->].
  apply rbind_ok in H. destruct H as (mx & B & H). apply of_opt_ok, uadd_some in B. destruct B as [B ->].
  apply rbind_ok in H. destruct H as (a' & P1 & H). apply rbind_ok in H. destruct H as (b' & P2 & [= <- <-]).
  repeat split; (assumption || lia).
Qed.

Theorem pyth_with_confidence_sound price conf e td p v1 m1 v2 m2 :
  - 2 ^ 63 <= price < 2 ^ 63 -> 0 <= conf < 2 ^ 64 -> - 2 ^ 31 <= e < 2 ^ 31 -> 0 <= td -> 0 <= p ->
  pyth_with_confidence price conf e td p = Ok ((v1, m1), (v2, m2)) ->
  0 <= conf <= price /\
  pyth_value_to_decimal (price - conf) e td p = Ok (v1, m1) /\
  pyth_value_to_decimal (price + conf) e td p = Ok (v2, m2) /\
  v1 <= v2 /\ m1 = m2.
Proof.
  intros Hpr Hc He Htd Hp H. apply pyth_with_confidence_ok in H. destruct H as (H0 & Hmn & Hmx & P1 & P2).
  split; [lia|]. split; [assumption|]. split; [assumption|].
  apply pyth_value_to_decimal_ok in P1, P2; try lia.
  destruct P1 as [(E & T1)|(E & B1 & T1)], P2 as [(E' & T2)|(E' & B2 & T2)]; try lia.
  - apply (try_from_price_mono (price - conf) (price + conf) (- e) td p); (assumption || lia).
  - pose proof (DivLemmas.pow10_pos e ltac:(lia)).
    apply (try_from_price_mono ((price - conf) * 10 ^ e) ((price + conf) * 10 ^ e) 0 td p); (assumption || nia).
Qed.

Theorem pyth_with_confidence_err3_unreachable price conf e td p :
  - 2 ^ 63 <= price < 2 ^ 63 -> 0 <= conf < 2 ^ 64 ->
  pyth_with_confidence price conf e td p <> Err 3.
Proof.
  intros Hpr Hc. unfold pyth_with_confidence.
  destruct (price <? 0) eqn:E0; cbn [of_opt rbind]; [discriminate|].
  destruct (usub 64 price conf) as [mn|] eqn:A; cbn [of_opt rbind]; [|discriminate].
  apply usub_some in A.
  (* the sum of an i64 and a u64 that is at most the i64 cannot overflow u64 *)
  unfold uadd. rewrite chk_u_in by (change (2 ^ 64) with (2 * 2 ^ 63); lia).
  cbn [of_opt rbind].
  (* and the conversion itself has no error 3 *)
  assert (N : forall v, pyth_value_to_decimal v e td p <> Err 3).
  { intros v. unfold pyth_value_to_decimal.
    destruct (e <=? 0).
    - destruct (chk_s 32 (- e)); cbn [rbind]; [|discriminate].
      destruct (chk_u 8 z); cbn [of_opt rbind]; [|discriminate].
      destruct (try_from_price _ _ _ _); discriminate.
    - destruct (pow10_u64 e); cbn [of_opt rbind]; [|discriminate].
      destruct (umul 64 v z); cbn [of_opt rbind]; [|discriminate].
      destruct (try_from_price _ _ _ _); discriminate. }
  intros H. apply rbind_err in H. destruct H as [H|(a & _ & H)]; [exact (N _ H)|].
  apply rbind_err in H. destruct H as [H|(b & _ & [=])]. exact (N _ H).
Qed.
