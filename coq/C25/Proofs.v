(* C25 — proofs about PriceFeed::update and its histories. *)
From GV Require Import lib.Base C25.Model.
Open Scope Z_scope.

Definition ordered (f : feed) : Prop := fp_min f <= fp_price f <= fp_max f.

Lemma update_cases f o :
  (exists e, update f o = (Err e, f) /\
     ((e = 17 /\ (o_slot o < last_slot f \/ o_now o < last_published_at f)) \/
      (e = 1 /\ last_slot f <= o_slot o /\ last_published_at f <= o_now o /\
         ((o_idem o = false /\ o_ts o < fp_ts f) \/
          (fp_ts f <= o_ts o /\ (sat_add_u64 (o_now o) (o_mfe o) < o_ts o \/ o_max o < o_min o \/ o_max o < o_price o \/ o_price o < o_min o)))))) \/
  (update f o = (Ok false, f) /\ o_idem o = true /\ o_ts o < fp_ts f /\
     last_slot f <= o_slot o /\ last_published_at f <= o_now o) \/
  (update f o = (Ok true, mkFeed (o_slot o) (o_now o) (o_ts o) (o_price o) (o_min o) (o_max o) (o_dec o)) /\
     last_slot f <= o_slot o /\ last_published_at f <= o_now o /\ fp_ts f <= o_ts o /\
     o_ts o <= sat_add_u64 (o_now o) (o_mfe o) /\ o_min o <= o_price o <= o_max o).
Proof.
  unfold update.
  destruct (o_slot o <? last_slot f) eqn:E1; [left; exists 17; split; [reflexivity|lia]|].
  destruct (o_now o <? last_published_at f) eqn:E2; [left; exists 17; split; [reflexivity|lia]|].
  destruct (o_ts o <? fp_ts f) eqn:E3.
  - (* older than the stored price: skipped or rejected, by mode *)
    destruct (o_idem o) eqn:EI; cbn [andb]; [right; left; repeat split; lia|].
    left; exists 1; split; [reflexivity|lia].
  - rewrite andb_false_r.
    destruct (sat_add_u64 (o_now o) (o_mfe o) <? o_ts o) eqn:E4; [left; exists 1; split; [reflexivity|lia]|].
    destruct (o_max o <? o_min o) eqn:E5; [left; exists 1; split; [reflexivity|lia]|].
    destruct (o_max o <? o_price o) eqn:E6; [left; exists 1; split; [reflexivity|lia]|].
    destruct (o_price o <? o_min o) eqn:E7; [left; exists 1; split; [reflexivity|lia]|].
    right; right. repeat split; lia.
Qed.

Theorem rejected_unchanged f o e f' : update f o = (Err e, f') -> f' = f.
Proof.
  intros H. destruct (update_cases f o) as [(e' & U & _)|[(U & _)|(U & _)]]; rewrite U in H; try discriminate.
  injection H as _ <-. reflexivity.
Qed.

Theorem idempotent_skip f o :
  o_idem o = true -> o_ts o < fp_ts f -> last_slot f <= o_slot o -> last_published_at f <= o_now o ->
  update f o = (Ok false, f).
Proof.
  intros H1 H2 H3 H4. destruct (update_cases f o) as [(e & _ & C)|[(U & _)|(_ & _ & _ & C & _)]]; [|exact U|lia].
  rewrite H1 in C. exfalso. destruct C as [C|(_ & _ & _ & [[[=] _]|C])]; lia.
Qed.

Theorem skip_only_older_idempotent f o f' : update f o = (Ok false, f') ->
  f' = f /\ o_idem o = true /\ o_ts o < fp_ts f.
Proof.
  intros H. destruct (update_cases f o) as [(e' & U & _)|[(U & A & B & _)|(U & _)]]; rewrite U in H; try discriminate.
  injection H as <-. auto.
Qed.

Theorem strict_rejects_older f o :
  o_idem o = false -> o_ts o < fp_ts f -> exists e, update f o = (Err e, f).
Proof.
  intros H1 H2. destruct (update_cases f o) as [(e' & U & _)|[(U & A & _)|(U & _ & _ & B & _)]].
  - exists e'. exact U. - congruence. - lia.
Qed.

Theorem accepted_update f o f' : update f o = (Ok true, f') ->
  f' = mkFeed (o_slot o) (o_now o) (o_ts o) (o_price o) (o_min o) (o_max o) (o_dec o) /\
  fp_ts f <= o_ts o <= sat_add_u64 (o_now o) (o_mfe o) /\ o_min o <= o_price o <= o_max o /\
  last_slot f <= o_slot o /\ last_published_at f <= o_now o.
Proof.
  intros H. destruct (update_cases f o) as [(e' & U & _)|[(U & _)|(U & A)]]; rewrite U in H; try discriminate.
  injection H as <-. repeat split; lia.
Qed.

Lemma step_mono f o :
  fp_ts f <= fp_ts (step f o) /\ last_slot f <= last_slot (step f o) /\
  last_published_at f <= last_published_at (step f o) /\ (ordered f -> ordered (step f o)).
Proof.
  unfold step, ordered. destruct (update_cases f o) as [(e' & U & _)|[(U & _)|(U & A)]]; rewrite U; cbn [snd];
    try (repeat split; lia). cbn [fp_ts last_slot last_published_at fp_min fp_price fp_max]. repeat split; lia.
Qed.

Lemma fold_step_mono ops : forall f,
  fp_ts f <= fp_ts (fold_left step ops f) /\ last_slot f <= last_slot (fold_left step ops f) /\
  last_published_at f <= last_published_at (fold_left step ops f) /\
  (ordered f -> ordered (fold_left step ops f)).
Proof.
  induction ops as [|o r IH]; intros f; cbn [fold_left].
  - split; [lia|]. split; [lia|]. split; [lia|]. auto.
  - pose proof (step_mono f o) as (A1 & A2 & A3 & A4). pose proof (IH (step f o)) as (B1 & B2 & B3 & B4).
    split; [lia|]. split; [lia|]. split; [lia|]. auto.
Qed.

(* after any sequence of updates: the price timestamp never decreased at any point of the history *)
Theorem feed_ts_monotone ops1 ops2 :
  fp_ts (run ops1) <= fp_ts (run (ops1 ++ ops2)) /\
  last_slot (run ops1) <= last_slot (run (ops1 ++ ops2)) /\
  last_published_at (run ops1) <= last_published_at (run (ops1 ++ ops2)).
Proof.
  unfold run. rewrite fold_left_app. pose proof (fold_step_mono ops2 (fold_left step ops1 feed0)). tauto.
Qed.

(* ... and the stored price is ordered, and its timestamp is never negative *)
Theorem feed_price_ordered ops : ordered (run ops) /\ 0 <= fp_ts (run ops).
Proof.
  unfold run. pose proof (fold_step_mono ops feed0) as (A & _ & _ & B). split; [apply B; unfold ordered; cbn; lia|exact A].
Qed.
