From GV Require Import lib.Base C33.Model C33.Proofs.
Open Scope Z_scope.

(* [run init ops]: any sequence of prepare_user / initialize_referral_code / set_referrer /
   transfer_referral_code / cancel_referral_code_transfer / accept_referral_code over any number of
   users and codes, every instruction with ANY choice of the passed accounts; an instruction is
   accepted iff none of the Anchor constraints / handler checks is violated ([violations]), and a
   rejected instruction changes nothing.  [op_wf]: signers / owners are real keys (>= 1). *)

(* never self-referential, never mutual, codes belong to exactly one user — in every reachable state *)
Theorem c33_invariant : forall ops, Forall op_wf ops -> Inv (run init ops).
Proof. intros ops F. apply run_Inv; [exact Inv_init|exact F]. Qed.

Theorem c33_never_self : forall ops o u, Forall op_wf ops ->
  aget (s_users (run init ops)) o = Some u -> u_referrer u <> o.
Proof. intros ops o u F. apply (i_self _ (run_Inv ops init Inv_init F)). Qed.

Theorem c33_never_mutual : forall ops a b ua ub, Forall op_wf ops ->
  aget (s_users (run init ops)) a = Some ua -> aget (s_users (run init ops)) b = Some ub ->
  u_referrer ua = b -> u_referrer ub <> a.
Proof. intros ops a b ua ub F. apply (i_mutual _ (run_Inv ops init Inv_init F)). Qed.

(* write-once, from any state, over any continuation *)
Theorem c33_referrer_write_once : forall ops s k u, aget (s_users s) k = Some u -> u_referrer u <> 0 ->
  exists u', aget (s_users (run s ops)) k = Some u' /\ u_referrer u' = u_referrer u.
Proof. exact run_referrer_write_once. Qed.

(* the only way a referrer appears: set_referrer signed by the user itself, previous value none,
   target a different user that is not referred by the signer *)
Theorem c33_referrer_set_only_by_owner : forall s o k u u',
  aget (s_users s) k = Some u -> aget (s_users (step s o)) k = Some u' -> u_referrer u' <> u_referrer u ->
  exists c r ur, o = SetRef k c r /\ u_referrer u = 0 /\ u_referrer u' = r /\ r <> k /\
                 aget (s_users s) r = Some ur /\ u_referrer ur <> k /\ u_code ur = c.
Proof.
  intros s o k u u' H H' Hd. destruct (step_user s o k u H) as (u'' & H'' & [E|E]); rewrite H'' in H'; injection H' as ->.
  - contradiction.
  - exact E.
Qed.

(* a code belongs to exactly one user at a time *)
Theorem c33_code_owner_bijection : forall ops, Forall op_wf ops ->
  let s := run init ops in
  (forall c cd, aget (s_codes s) c = Some cd -> c <> 0 /\ exists u, aget (s_users s) (c_owner cd) = Some u /\ u_code u = c) /\
  (forall o u, aget (s_users s) o = Some u -> u_code u <> 0 ->
     exists cd, aget (s_codes s) (u_code u) = Some cd /\ c_owner cd = o) /\
  (forall a b ua ub, aget (s_users s) a = Some ua -> aget (s_users s) b = Some ub ->
     u_code ua <> 0 -> u_code ua = u_code ub -> a = b).
Proof.
  intros ops F s. pose proof (run_Inv ops init Inv_init F) as I. fold s in I.
  split; [apply (i_cown s I)|split; [apply (i_ucode s I)|apply (code_unique_holder s I)]].
Qed.

(* ownership changes only when the proposed new owner accepts *)
Theorem c33_transfer_requires_accept : forall s o c cd, aget (s_codes s) c = Some cd ->
  exists cd', aget (s_codes (step s o)) c = Some cd' /\
    (c_owner cd' <> c_owner cd ->
       exists u, o = Accept (c_owner cd') c u /\ c_owner cd' = c_next cd /\ u = c_owner cd).
Proof.
  intros s o c cd H. destruct (step_code s o c cd H) as (cd' & H' & [E|E]); exists cd'; split; auto.
  intros N. contradiction.
Qed.

(* a transfer completed by acceptance, a referral, and the rejected attacks *)
Example c33_ex :
  let ops := [Prepare 1; Prepare 2; Prepare 3; InitCode 1 7; SetRef 2 7 1; Transfer 1 7 3; Accept 3 7 1; SetRef 1 7 3] in
  let s := run init ops in
  aget (s_codes s) 7 = Some (mkcode 3 3) /\
  aget (s_users s) 2 = Some (mkuser 1 0 0) /\ aget (s_users s) 1 = Some (mkuser 3 0 1) /\
  aget (s_users s) 3 = Some (mkuser 0 7 1) /\
  violations s (SetRef 3 7 3) = [7] /\            (* self *)
  violations (run init [Prepare 1; Prepare 2; InitCode 1 7; InitCode 2 8; SetRef 2 7 1]) (SetRef 1 8 2) = [8] /\  (* mutual *)
  violations s (SetRef 2 7 3) = [9] /\                  (* second referrer *)
  violations (run init [Prepare 1; Prepare 2; Prepare 3; InitCode 1 7; Transfer 1 7 3]) (Accept 2 7 1) = [10]. (* wrong acceptor *)
Proof. vm_compute. repeat split; reflexivity. Qed.
