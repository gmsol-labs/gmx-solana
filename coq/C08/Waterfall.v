(* C08 — the CollateralProcessor waterfall (process_costs): what every step does to the processor state, and the
   conservation of tokens (ledger pools + processor buckets) through the whole of it. *)
From GV Require Import lib.Base lib.DivLemmas C01.Model C01.Proofs PS.Model PS.Lemmas PS.Actions PS.Frame C08.Proofs.
Open Scope Z_scope.

(* tokens held for the trader / holding account inside the processor state *)
Definition bucket_c (s : pstate) : Z := st_out s + st_coll s + st_user_out s + st_hold_out s.   (* collateral token *)
Definition bucket_q (s : pstate) : Z := st_sec s + st_hold_sec s + st_user_sec s.               (* pnl token *)
(* conserved quantity per token: ledger pools without collateral sums + processor buckets *)
Definition W (p : position) (s : pstate) (t : bool) : Z :=
  lacc (st_m s) t + on (coll_long p) t (bucket_c s) + on (is_long p) t (bucket_q s).

Definition nn (s : pstate) : Prop := 0 <= st_out s /\ 0 <= st_coll s /\ 0 <= st_sec s.
(* [delta p s s' N]: going from s to s' the collateral token lost N from the conserved quantity, the other nothing *)
Definition delta (p : position) (s s' : pstate) (N : Z) : Prop :=
  forall t, W p s' t = W p s t - on (coll_long p) t N.

Lemma delta_trans p s1 s2 s3 N1 N2 N : delta p s1 s2 N1 -> delta p s2 s3 N2 -> N = N1 + N2 -> delta p s1 s3 N.
Proof. intros H1 H2 -> t. rewrite H2, H1. unfold on. destruct (Bool.eqb (coll_long p) t); lia. Qed.

(* the fees record after the waterfall: untouched, or cleared except for the funding part *)
Definition fees_kept (fs f : fees) : Prop := f = fs \/ f = fees_clear fs.

Lemma fees_kept_fund fs f : fees_kept fs f -> f_fund f = f_fund fs.
Proof. intros [->| ->]; reflexivity. Qed.

Lemma fees_kept_trans f1 f2 f3 : fees_kept f1 f2 -> fees_kept f2 f3 -> fees_kept f1 f3.
Proof. intros [->| ->] [->| ->]; [left|right|right|right]; reflexivity. Qed.

Lemma pay_from_rem avail rem pd a r : pay_from avail rem = (pd, a, r) -> 0 <= avail -> 0 < r -> a = 0.
Proof.
  unfold pay_from. intros H Ha Hp. destruct (Z.eqb_spec avail 0); [injection H as _ <- _; assumption|].
  destruct (rem <? avail); injection H as _ <- <-; lia.
Qed.

Section P.
  Variable w : Z.
  Hypothesis Hw : 1 <= w.
  Variable pr : prices.
  Variable p : position.
  Notation cpm := (pmin (out_price pr p)).
  Notation ppm := (pmin (pnl_price pr p)).
  Hypothesis Hcp : 0 < cpm.
  Hypothesis Hpp : 0 < ppm.
  Hypothesis Hppx : 0 < pmax (pnl_price pr p).

  Lemma same_tokens_prices : same_tokens p = true -> ppm = cpm.
  Proof. unfold same_tokens, out_price, pnl_price. intros H. apply Bool.eqb_prop in H. rewrite H. reflexivity. Qed.

  (* [pays s cost cont s' pc psec]: the trader's buckets of s paid pc collateral tokens and psec pnl tokens towards
     [cost] (USD).  When the payment is complete (cont) they are worth the cost up to one base unit of the pnl token:
     what output and collateral could not cover is converted to pnl tokens rounding down.  Otherwise nothing is left. *)
  Definition pays (s : pstate) (cost : Z) (cont : bool) (s' : pstate) (pc psec : Z) : Prop :=
    nn s' /\ 0 <= pc /\ 0 <= psec /\
    st_out s' + st_coll s' + pc = st_out s + st_coll s /\ st_sec s' + psec = st_sec s /\
    pc * cpm < cost + cpm /\
    (cont = true -> cost < pc * cpm + (psec + 1) * ppm) /\
    (cont = false -> st_out s' = 0 /\ st_coll s' = 0 /\ st_sec s' = 0).

  Lemma pays_nothing s : nn s -> pays s 0 true s 0 0.
  Proof. intros Hn. unfold pays. repeat split; intros; try apply Hn; lia || discriminate. Qed.

  (* State::do_pay_for_cost only touches the three buckets it pays from *)
  Lemma do_pay_spec s cost s' pc psec rem :
    nn s -> 0 <= cost ->
    do_pay_for_cost w pr p s cost = Ok (s', pc, psec, rem) ->
    exists o q c, s' = MkPState (st_m s) o q c (st_hold_out s) (st_hold_sec s) (st_user_out s) (st_user_sec s) (st_fees s) /\
                  pays s cost (rem =? 0) s' pc psec.
  Proof.
    destruct s as [m o q c ho hs uo us fs]. unfold pays, nn, do_pay_for_cost. cbn [st_m st_out st_sec st_coll st_hold_out st_hold_sec st_user_out st_user_sec st_fees]. intros (N1 & N2 & N3) Hc H.
    destruct (Z.eqb_spec cost 0) as [->|E0].
    { injection H as <- <- <- <-. exists o, q, c. split; [reflexivity|]. cbn [st_out st_sec st_coll]. repeat split; intros; lia || discriminate. }
    bind_ok H as R Er. apply round_up_div_sound in Er; [|lia..]. destruct Er as [_ HR].
    assert (R0 : 0 <= R) by nia.
    destruct (pay_from o R) as [[p1 o1] r1] eqn:P1. pose proof (pay_from_rem _ _ _ _ _ P1 N1) as Z1.
    apply pay_from_spec in P1; [|lia..].
    destruct (Z.eqb_spec r1 0) as [E1|E1].
    { injection H as <- <- <- <-. exists o1, q, c. split; [reflexivity|]. cbn [st_out st_sec st_coll]. assert (p1 = R) by lia. subst p1.
      repeat split; intros; lia || discriminate. }
    destruct (pay_from c r1) as [[p2 c2] r2] eqn:P2. pose proof (pay_from_rem _ _ _ _ _ P2 N2) as Z2.
    apply pay_from_spec in P2; [|lia..].
    bind_ok H as paidc Epc. apply uadd_some in Epc. destruct Epc as [_ ->].
    assert (ER : R = p1 + p2 + r2) by lia.
    destruct (Z.eqb_spec r2 0) as [E2|E2].
    { injection H as <- <- <- <-. exists o1, q, c2. split; [reflexivity|]. cbn [st_out st_sec st_coll]. assert (p1 + p2 = R) by lia.
      repeat split; intros; first [lia | discriminate | nia]. }
    bind_ok H as rs Ers. apply mul_div_floor in Ers; [|lia..]. destruct Ers as (Hrs & Hrs0 & _).
    destruct (pay_from q rs) as [[p3 q3] rs1] eqn:P3. pose proof (pay_from_rem _ _ _ _ _ P3 N3) as Z3.
    apply pay_from_spec in P3; [|lia..].
    bind_ok H as rem' Ec. apply umul_some in Ec. destruct Ec as [_ ->].
    injection H as <- <- <- <-. exists o1, q3, c2. split; [reflexivity|]. cbn [st_out st_sec st_coll]. subst R.
    repeat split; try lia; try nia.
  Qed.

  (* what a pay step guarantees about its resulting state: continuing, or stopping at the step [stp] *)
  Definition after (r : pres) (stp : Z) (Q : bool -> pstate -> Prop) : Prop :=
    match r with PCont s => Q true s | PStop k s => k = stp /\ Q false s | PErr _ => True end.

  Lemma after_pay s cost stp receive (Q : bool -> pstate -> Prop) :
    (forall s1 pc psec rem s2, do_pay_for_cost w pr p s cost = Ok (s1, pc, psec, rem) -> receive s1 pc psec rem = Ok s2 ->
        Q (rem =? 0) s2) ->
    after (pay_for_cost w pr p s cost stp receive) stp Q.
  Proof.
    intros HQ. unfold pay_for_cost, plift.
    destruct (do_pay_for_cost w pr p s cost) as [[[[s1 pc] psec] rem]|e] eqn:E1; [|exact I].
    destruct (receive s1 pc psec rem) as [s2|e] eqn:E2; [|exact I].
    specialize (HQ _ _ _ _ _ eq_refl E2). destruct (rem =? 0); [exact HQ|split; [reflexivity|exact HQ]].
  Qed.

  (* where the amounts paid went: lc, ls into the ledger pools (collateral / pnl token), hs to the holding
     account, uc, us to the user's claimable collateral *)
  Definition credited (s s' : pstate) (lc ls hs uc us : Z) : Prop :=
    (forall t, lacc (st_m s') t = lacc (st_m s) t + on (coll_long p) t lc + on (is_long p) t ls) /\
    st_hold_out s' = st_hold_out s /\ st_hold_sec s' = st_hold_sec s + hs /\
    st_user_out s' = st_user_out s + uc /\ st_user_sec s' = st_user_sec s + us.

  Lemma credited_nothing s : credited s s 0 0 0 0 0.
  Proof. split; [intros t; rewrite !on_0; lia|repeat split; lia]. Qed.

  Lemma nothing_paid s : nn s -> pays s 0 true s 0 0 /\ credited s s 0 0 0 0 0 /\ st_fees s = st_fees s.
  Proof. intros Hn. exact (conj (pays_nothing s Hn) (conj (credited_nothing s) eq_refl)). Qed.

  Lemma pays_delta s cost cont s' pc psec lc ls hs uc us :
    pays s cost cont s' pc psec -> credited s s' lc ls hs uc us -> psec = ls + hs + us -> delta p s s' (pc - lc - uc).
  Proof.
    intros (_ & _ & _ & B1 & B2 & _) (L & H1 & H2 & U1 & U2) E t. unfold W, bucket_c, bucket_q. rewrite L.
    unfold on. destruct (Bool.eqb (coll_long p) t), (Bool.eqb (is_long p) t); lia.
  Qed.

  Lemma pay_to_primary_pool_spec s pc psec s2 :
    pay_to_primary_pool w pr p s pc psec = Ok s2 ->
    exists m2, s2 = set_st_m s m2 /\
      forall t, lacc m2 t = lacc (st_m s) t + on (coll_long p) t pc + on (is_long p) t psec.
  Proof.
    unfold pay_to_primary_pool. intros H.
    bind_ok H as pcs E1. apply rsigned_ok in E1. destruct E1 as [_ ->].
    bind_ok H as pss E2. apply rsigned_ok in E2. destruct E2 as [_ ->].
    bind_ok H as m1 E3. bind_ok H as m2 E4. injection H as <-. exists m2. split; [reflexivity|].
    assert (L1 : forall t, lacc m1 t = lacc (st_m s) t + on (coll_long p) t pc).
    { destruct (Z.eqb_spec pc 0) as [->|_]; [injection E3 as <-; intros t; rewrite on_0; lia|].
      exact (apply_delta_acc w _ _ _ _ E3). }
    destruct (Z.eqb_spec psec 0) as [->|_]; [injection E4 as <-; intros t; rewrite on_0, L1; lia|].
    intros t. rewrite (apply_delta_acc w _ _ _ _ E4), L1. reflexivity.
  Qed.

  (* funding fees: what is paid in the collateral token leaves the ledger (it stays in the vault as the funding
     residual), what is paid in the pnl token becomes claimable for the holding account *)
  Lemma step_funding_spec s :
    nn s -> 0 <= f_fund (st_fees s) ->
    after (step_funding w pr p s) S_FUNDING (fun cont s' => exists pc psec,
      pays s (f_fund (st_fees s) * cpm) cont s' pc psec /\ credited s s' 0 0 psec 0 0 /\ st_fees s' = st_fees s).
  Proof.
    intros Hn Hf. unfold step_funding. destruct (Z.eqb_spec (f_fund (st_fees s)) 0) as [->|E0].
    { exists 0, 0. exact (nothing_paid s Hn). }
    unfold plift. destruct (of_opt E_COMP (umul w (f_fund (st_fees s)) cpm)) as [cost|] eqn:Ec; [|exact I].
    apply of_opt_ok, umul_some in Ec. destruct Ec as [_ ->].
    apply after_pay. intros s1 pc psec rem s2 E1 E2. exists pc, psec.
    apply do_pay_spec in E1; [|exact Hn|nia]. destruct E1 as (o & q & c & -> & P).
    assert (E : s2 = MkPState (st_m s) o q c (st_hold_out s) (st_hold_sec s + psec) (st_user_out s) (st_user_sec s) (st_fees s)).
    { cbn [st_hold_sec] in E2. destruct (Z.eqb_spec psec 0) as [->|_]; [injection E2 as <-; rewrite Z.add_0_r; reflexivity|].
      bind_ok E2 as h Eh. apply uadd_some in Eh. destruct Eh as [_ ->]. injection E2 as <-. reflexivity. }
    subst s2. split; [exact P|]. split; [|reflexivity].
    split; [intros t; rewrite !on_0; cbn; lia|cbn; repeat split; lia].
  Qed.

  (* a loss and a negative price impact are paid into the primary pool *)
  Lemma pay_primary_step s cost stp receive :
    nn s -> 0 <= cost ->
    (forall s1 pc psec rem s2, receive s1 pc psec rem = Ok s2 ->
       exists m2, s2 = set_st_m s1 m2 /\
         forall t, lacc m2 t = lacc (st_m s1) t + on (coll_long p) t pc + on (is_long p) t psec) ->
    after (pay_for_cost w pr p s cost stp receive) stp (fun cont s' => exists pc psec,
      pays s cost cont s' pc psec /\ credited s s' pc psec 0 0 0 /\ st_fees s' = st_fees s).
  Proof.
    intros Hn Hc Hr. apply after_pay. intros s1 pc psec rem s2 E1 E2. exists pc, psec.
    apply do_pay_spec in E1; [|assumption..]. destruct E1 as (o & q & c & -> & P).
    destruct (Hr _ _ _ _ _ E2) as (m2 & -> & L). split; [exact P|]. split; [|reflexivity].
    split; [exact L|cbn; repeat split; lia].
  Qed.

  Lemma step_pnl_negative_spec s pnl : nn s ->
    after (step_pnl_negative w pr p s pnl) S_PNL (fun cont s' => exists pc psec,
      pays s (Z.max 0 (- pnl)) cont s' pc psec /\ credited s s' pc psec 0 0 0 /\ st_fees s' = st_fees s).
  Proof.
    intros Hn. unfold step_pnl_negative. destruct (Z.ltb_spec pnl 0).
    - replace (Z.max 0 (- pnl)) with (Z.abs pnl) by lia. apply pay_primary_step; [exact Hn|lia|].
      intros s1 pc psec rem s2. apply pay_to_primary_pool_spec.
    - replace (Z.max 0 (- pnl)) with 0 by lia. exists 0, 0. exact (nothing_paid s Hn).
  Qed.

  (* ... and the impact pool is credited with the value paid, which no ledger pool sees *)
  Lemma step_impact_negative_spec s piv : nn s ->
    after (step_impact_negative w pr p s piv) S_IMPACT (fun cont s' => exists pc psec,
      pays s (Z.max 0 (- piv)) cont s' pc psec /\ credited s s' pc psec 0 0 0 /\ st_fees s' = st_fees s).
  Proof.
    intros Hn. unfold step_impact_negative. destruct (Z.ltb_spec piv 0).
    - replace (Z.max 0 (- piv)) with (Z.abs piv) by lia. apply pay_primary_step; [exact Hn|lia|].
      intros s1 pc psec rem s2 H0.
      bind_ok H0 as s2' E1. apply pay_to_primary_pool_spec in E1. destruct E1 as (m0 & -> & L).
      bind_ok H0 as m1 E2. bind_ok H0 as m2 E3. injection H0 as <-. exists m2. split; [reflexivity|].
      cbn [st_m set_st_m] in E2. intros t. rewrite <- L.
      assert (L1 : lacc m1 t = lacc m0 t).
      { destruct (pc =? 0); [injection E2 as <-; reflexivity|].
        bind_ok E2 as d Ed. bind_ok E2 as ds Eds. exact (apply_impact_delta_acc w _ _ _ E2 t). }
      rewrite <- L1. destruct (psec =? 0); [injection E3 as <-; reflexivity|].
      bind_ok E3 as d Ed. bind_ok E3 as ds Eds. exact (apply_impact_delta_acc w _ _ _ E3 t).
    - replace (Z.max 0 (- piv)) with 0 by lia. exists 0, 0. exact (nothing_paid s Hn).
  Qed.

  Lemma credit_unless_zero b x r : (if x =? 0 then Ok b else of_opt E_OVF (uadd w b x)) = Ok r -> r = b + x.
  Proof. destruct (Z.eqb_spec x 0) as [->|_]; intros H; [injection H as <-; lia|]. ok_inj H. apply uadd_some in H. lia. Qed.

  (* price impact diff: what is paid becomes claimable collateral for the user *)
  Lemma step_impact_diff_spec s diff : nn s -> 0 <= diff ->
    after (step_impact_diff w pr p s diff) S_DIFF (fun cont s' => exists pc psec,
      pays s diff cont s' pc psec /\ credited s s' 0 0 0 pc psec /\ st_fees s' = st_fees s).
  Proof.
    intros Hn Hd. unfold step_impact_diff. destruct (Z.eqb_spec diff 0) as [->|_].
    { exists 0, 0. exact (nothing_paid s Hn). }
    apply after_pay. intros s1 pc psec rem s2 E1 E2. exists pc, psec.
    apply do_pay_spec in E1; [|assumption..]. destruct E1 as (o & q & c & -> & P).
    bind_ok E2 as uo Euo. apply credit_unless_zero in Euo. bind_ok E2 as us Eus. apply credit_unless_zero in Eus.
    injection E2 as <-. subst uo us. split; [exact P|]. split; [|reflexivity].
    split; [intros t; rewrite !on_0; cbn; lia|cbn; repeat split; lia].
  Qed.

  Lemma fees_total_excl_nonneg f te : fees_total_excl_funding w f = Ok te -> 0 <= te.
  Proof.
    unfold fees_total_excl_funding. intros H.
    bind_ok H as t1 E1. apply uadd_some in E1. bind_ok H as t2 E2. apply uadd_some in E2.
    destruct (f_liq f) as [[[lv la] lr]|]; [ok_inj H; apply uadd_some in H; lia|injection H as <-; lia].
  Qed.

  (* fees: pool and receiver parts are credited in full when the step completes in the collateral token;
     D = the part of them that was credited although it was not paid (the remainder of the cost converted to
     zero pnl tokens).  In every other case what was paid goes to the primary pool and the fees are cleared. *)
  Lemma step_fees_spec s : nn s ->
    after (step_fees w pr p s) S_FEES (fun cont s' => exists ca pc psec D,
      fees_total_excl_funding w (st_fees s) = Ok ca /\
      pays s (ca * cpm) cont s' pc psec /\ credited s s' (pc + D) psec 0 0 0 /\ fees_kept (st_fees s) (st_fees s') /\
      0 <= D /\ D * cpm < ppm /\ (same_tokens p = true -> D = 0)).
  Proof.
    intros Hn. unfold step_fees, plift.
    destruct (fees_total_excl_funding w (st_fees s)) as [ca|] eqn:Eca; [|exact I].
    pose proof (fees_total_excl_nonneg _ _ Eca) as Hca.
    destruct (Z.eqb_spec ca 0) as [->|_].
    { exists 0, 0, 0, 0. split; [reflexivity|]. split; [exact (pays_nothing s Hn)|]. split; [exact (credited_nothing s)|].
      split; [left; reflexivity|]. repeat split; lia. }
    destruct (of_opt E_COMP (umul w ca cpm)) as [cost|] eqn:Ec; [|exact I].
    apply of_opt_ok, umul_some in Ec. destruct Ec as [_ ->].
    apply after_pay. intros s1 pc psec rem s2 E1 E2. exists ca, pc, psec.
    apply do_pay_spec in E1; [|exact Hn|nia]. destruct E1 as (o & q & c & -> & P).
    cbn [st_fees st_m] in E2. destruct ((rem =? 0) && (psec =? 0)) eqn:Eb.
    - apply andb_prop in Eb. destruct Eb as [Er Ep]. apply Z.eqb_eq in Ep. subst psec.
      bind_ok E2 as fpl G1. bind_ok E2 as fps G2. apply rsigned_ok in G2. destruct G2 as [_ ->].
      bind_ok E2 as m1 G3. bind_ok E2 as fr G4. bind_ok E2 as frs G5. apply rsigned_ok in G5. destruct G5 as [_ ->].
      bind_ok E2 as m2 G6. injection E2 as <-.
      destruct (fees_split w _ _ _ _ G4 G1 Eca) as (Hsum & _ & _).
      pose proof (apply_delta_acc w _ _ _ _ G3) as L1.
      pose proof (apply_fee_delta_acc w _ _ _ _ G6) as L2.
      pose proof P as (_ & _ & _ & _ & _ & B1 & B2 & _). specialize (B2 Er).
      exists (ca - pc). split; [reflexivity|]. split; [exact P|]. split.
      { split; [|cbn; repeat split; lia]. intros t. cbn [st_m set_st_m]. rewrite L2, L1, on_0.
        unfold on. destruct (Bool.eqb (coll_long p) t); lia. }
      split; [left; reflexivity|]. split; [nia|]. split; [lia|].
      intros Hs. rewrite (same_tokens_prices Hs) in B2. nia.
    - bind_ok E2 as s2' G1. apply pay_to_primary_pool_spec in G1. destruct G1 as (m2 & -> & L). injection E2 as <-.
      exists 0. split; [reflexivity|]. split; [exact P|]. split.
      { split; [intros t; rewrite Z.add_0_r; exact (L t)|cbn; repeat split; lia]. }
      split; [right; reflexivity|]. repeat split; lia.
  Qed.

  (* profit and positive impact: [a] tokens leave the primary pool of the pnl token and are handed to the trader,
     as output when the pnl token is the collateral token, as secondary output otherwise *)
  Definition gains (s s' : pstate) (a : Z) : Prop :=
    credited s s' 0 (- a) 0 0 0 /\ st_fees s' = st_fees s /\ st_coll s' = st_coll s /\
    st_out s' = st_out s + (if same_tokens p then a else 0) /\ st_sec s' = st_sec s + (if same_tokens p then 0 else a).

  Lemma gains_nothing s : gains s s 0.
  Proof. split; [exact (credited_nothing s)|]. destruct (same_tokens p); repeat split; lia. Qed.

  Lemma gains_delta s s' a : gains s s' a -> delta p s s' 0.
  Proof.
    intros ((L & H1 & H2 & U1 & U2) & _ & C & O & S) t. unfold W, bucket_c, bucket_q. rewrite L.
    unfold same_tokens in O, S. unfold on. destruct (is_long p), (coll_long p), t; cbn in *; lia.
  Qed.

  Lemma add_pnl_token_amount_spec s m1 a s' :
    (forall t, lacc m1 t = lacc (st_m s) t + on (is_long p) t (- a)) ->
    add_pnl_token_amount w p (set_st_m s m1) a = Ok s' -> gains s s' a.
  Proof.
    intros L H. unfold add_pnl_token_amount in H. unfold gains, credited.
    destruct (same_tokens p); bind_ok H as o E; apply uadd_some in E; destruct E as [_ ->]; injection H as <-; cbn;
      (split; [split; [intros t; rewrite on_0, L; lia|repeat split; lia]|repeat split; lia]).
  Qed.

  Lemma step_add_pnl_spec s pnl s' : step_add_pnl w pr p s pnl = Ok s' ->
    exists a, gains s s' a /\ 0 <= a /\ a * pmax (pnl_price pr p) <= Z.max 0 pnl.
  Proof.
    intros H. unfold step_add_pnl in H. destruct (Z.ltb_spec 0 pnl); [|injection H as <-; exists 0; split; [apply gains_nothing|lia]].
    bind_ok H as a Ea. apply udiv_some in Ea. destruct Ea as [_ ->].
    bind_ok H as na Ena. apply ropp_val in Ena. subst na.
    bind_ok H as m1 Em. pose proof (apply_delta_acc w _ _ _ _ Em) as L.
    exists (Z.abs pnl / pmax (pnl_price pr p)). split; [exact (add_pnl_token_amount_spec _ _ _ _ L H)|].
    rewrite Z.abs_eq by lia. pose proof (div_floor_spec pnl _ Hppx). split; [apply div_nonneg|]; lia.
  Qed.

  Lemma step_add_impact_spec s piv s' : step_add_impact w pr p s piv = Ok s' ->
    exists a, gains s s' a /\ 0 <= a /\ a * pmax (pnl_price pr p) <= Z.max 0 piv.
  Proof.
    intros H. unfold step_add_impact in H. destruct (Z.ltb_spec 0 piv); [|injection H as <-; exists 0; split; [apply gains_nothing|lia]].
    bind_ok H as a Ea. bind_ok H as na Ena. bind_ok H as m1 Em1.
    bind_ok H as d Ed. apply udiv_some in Ed. destruct Ed as [_ ->].
    bind_ok H as nd End_. apply ropp_val in End_. subst nd.
    bind_ok H as m2 Em2. pose proof (apply_delta_acc w _ _ _ _ Em2) as L.
    exists (Z.abs piv / pmax (pnl_price pr p)). split.
    - apply (add_pnl_token_amount_spec _ m2); [|exact H]. intros t. rewrite L.
      rewrite (apply_impact_delta_acc w _ _ _ Em1 t). reflexivity.
    - rewrite Z.abs_eq by lia. pose proof (div_floor_spec piv _ Hppx). split; [apply div_nonneg|]; lia.
  Qed.

  Definition pay_steps (s2 : pstate) (pnl piv diff : Z) : pres :=
    pbind (step_funding w pr p s2) (fun s3 =>
    pbind (step_pnl_negative w pr p s3 pnl) (fun s4 =>
    pbind (step_fees w pr p s4) (fun s5 =>
    pbind (step_impact_negative w pr p s5 piv) (fun s6 =>
    step_impact_diff w pr p s6 diff)))).

  Lemma process_costs_run m fs pnl piv diff ins st stp :
    process_costs w pr p m fs pnl piv diff ins = Ok (st, stp) ->
    exists s1 s2,
      step_add_pnl w pr p (MkPState m 0 0 (coll p) 0 0 0 0 fs) pnl = Ok s1 /\ step_add_impact w pr p s1 piv = Ok s2 /\
      pay_steps s2 pnl piv diff = match stp with Some k => PStop k st | None => PCont st end.
  Proof.
    unfold process_costs, plift. intros H.
    destruct (step_add_pnl _ _ _ _ _) as [s1|] eqn:E1; [|discriminate].
    destruct (step_add_impact _ _ _ _ _) as [s2|] eqn:E2; [|discriminate].
    exists s1, s2. split; [reflexivity|]. split; [exact E2|]. fold (pay_steps s2 pnl piv diff) in H.
    destruct (pay_steps s2 pnl piv diff) as [s|k s|e]; [|destruct ins|]; try discriminate; injection H as <- <-; reflexivity.
  Qed.

  (* [ends r Q]: Q holds of the step the run r stopped at, if any, and of its last state
     (PS.Frame.pres_inv Q r is ends r (fun _ => Q): an invariant that does not look at the step) *)
  Definition ends (r : pres) (Q : option Z -> pstate -> Prop) : Prop :=
    match r with PCont s => Q None s | PStop k s => Q (Some k) s | PErr _ => True end.

  Lemma ends_pbind r stp A f (Q : option Z -> pstate -> Prop) :
    after r stp A -> (forall s, A false s -> Q (Some stp) s) -> (forall s, A true s -> ends (f s) Q) -> ends (pbind r f) Q.
  Proof. destruct r; cbn; [auto|intros [-> HA] HS _; exact (HS _ HA)|auto]. Qed.

  (* the ledger statement about a state s reached from s0 with the fees fs due:
     K = funding fees collected in the collateral token, D = fees credited although not paid *)
  Definition settled (s0 : pstate) (fs : fees) (stp : option Z) (s : pstate) (K D : Z) : Prop :=
    delta p s0 s (K - D) /\ nn s /\ fees_kept fs (st_fees s) /\
    0 <= K <= f_fund fs /\ 0 <= D /\ D * cpm < ppm /\ (same_tokens p = true -> D = 0) /\
    (stp <> Some S_FUNDING -> st_hold_sec s = 0 -> (f_fund fs - K) * cpm < ppm).

  Lemma settled_funding s0 fs s c s' pc psec :
    delta p s0 s 0 -> st_hold_sec s = 0 -> 0 <= f_fund fs ->
    pays s (f_fund fs * cpm) c s' pc psec -> credited s s' 0 0 psec 0 0 -> st_fees s' = fs ->
    settled s0 fs (if c then None else Some S_FUNDING) s' pc 0.
  Proof.
    intros D0 H0 Hf P C F.
    split; [eapply delta_trans; [exact D0|eapply pays_delta; [exact P|exact C|lia]|lia]|]. split; [apply P|]. split; [left; exact F|].
    destruct P as (_ & P1 & P2 & _ & _ & P5 & P6 & _). destruct C as (_ & _ & H3 & _).
    split; [nia|]. split; [lia|]. split; [lia|]. split; [reflexivity|].
    destruct c; [|intros X; exfalso; apply X; reflexivity]. intros _ Hh. specialize (P6 eq_refl).
    assert (psec = 0) by lia. subst psec. lia.
  Qed.

  (* a step after the funding step; only the fee step credits the pools with D' more than was paid *)
  Lemma settled_step s0 fs s K D s' cost cont pc psec lc ls uc us D' :
    settled s0 fs None s K D ->
    pays s cost cont s' pc psec -> credited s s' lc ls 0 uc us -> lc + uc = pc + D' -> psec = ls + us ->
    fees_kept (st_fees s) (st_fees s') ->
    D' = 0 \/ (D = 0 /\ 0 <= D' /\ D' * cpm < ppm /\ (same_tokens p = true -> D' = 0)) ->
    forall stp, stp <> Some S_FUNDING -> settled s0 fs stp s' K (D + D').
  Proof.
    intros (Dl & _ & F & BK & B1 & B2 & B3 & Full) P C E1 E2 F' HD stp Hk.
    split; [eapply delta_trans; [exact Dl|eapply pays_delta; [exact P|exact C|lia]|lia]|].
    split; [apply P|]. split; [exact (fees_kept_trans _ _ _ F F')|]. split; [exact BK|].
    assert (BD : 0 <= D + D' /\ (D + D') * cpm < ppm /\ (same_tokens p = true -> D + D' = 0)).
    { destruct HD as [->|(-> & HD)]; [rewrite Z.add_0_r; exact (conj B1 (conj B2 B3))|exact HD]. }
    destruct BD as (X1 & X2 & X3). split; [exact X1|]. split; [exact X2|]. split; [exact X3|].
    intros _ Hh. apply Full; [discriminate|]. destruct C as (_ & _ & H2 & _). lia.
  Qed.

  Theorem process_costs_ledger m fs pnl piv diff ins st stp :
    0 <= coll p -> 0 <= f_fund fs -> 0 <= diff ->
    process_costs w pr p m fs pnl piv diff ins = Ok (st, stp) ->
    exists K D, settled (MkPState m 0 0 (coll p) 0 0 0 0 fs) fs stp st K D.
  Proof.
    intros Hc Hf Hd H. destruct (process_costs_run _ _ _ _ _ _ _ _ H) as (s1 & s2 & E1 & E2 & Run). clear H.
    set (s0 := MkPState m 0 0 (coll p) 0 0 0 0 fs) in *.
    cut (ends (pay_steps s2 pnl piv diff) (fun k s => exists K D, settled s0 fs k s K D)).
    { rewrite Run. destruct stp; exact (fun x => x). }
    destruct (step_add_pnl_spec _ _ _ E1) as (a1 & G1 & A1 & _). destruct (step_add_impact_spec _ _ _ E2) as (a2 & G2 & A2 & _).
    pose proof (delta_trans _ _ _ _ _ _ 0 (gains_delta _ _ _ G1) (gains_delta _ _ _ G2) eq_refl) as D2.
    destruct G1 as ((_ & _ & H1 & _) & F1 & C1 & O1 & S1), G2 as ((_ & _ & H2 & _) & F2 & C2 & O2 & S2).
    assert (N2 : nn s2) by (unfold nn; rewrite O2, S2, C2, O1, S1, C1; destruct (same_tokens p); cbn; lia).
    assert (F02 : st_fees s2 = fs) by (rewrite F2, F1; reflexivity).
    assert (H02 : st_hold_sec s2 = 0) by (rewrite H2, H1; reflexivity).
    clear E1 E2 Run H1 H2 F1 F2 C1 C2 O1 O2 S1 S2.
    assert (Hf2 : 0 <= f_fund (st_fees s2)) by (rewrite F02; exact Hf).
    (* Each [eapply ends_pbind; [step spec|..]] below leaves two goals: the run stopped at this step, or it goes on.
       The tactics after the [;] run in both (they derive the statement I_n for the state after the step); the closing
       [[A|B]] finishes the first with I_n and, in the second, turns I_n into the premise of the next step. *)
    unfold pay_steps. eapply ends_pbind; [exact (step_funding_spec s2 N2 Hf2)|..]; rewrite F02;
      intros s3 (pc & psec & P & C & F3); pose proof (settled_funding _ _ _ _ _ _ _ D2 H02 Hf P C F3) as I3; [exists pc, 0; exact I3|].
    clear D2 N2 Hf2 H02.
    eapply ends_pbind; [apply step_pnl_negative_spec, I3|..];
      intros s4 (pc4 & ps4 & P4 & C4 & F4);
      pose proof (settled_step _ _ _ _ _ _ _ _ _ _ _ _ _ _ 0 I3 P4 C4 ltac:(lia) ltac:(lia) (or_introl F4) (or_introl eq_refl)) as I4;
      [eexists _, _; apply I4; discriminate|specialize (I4 None ltac:(discriminate))].
    clear I3 P C F3 P4 C4 F4.
    eapply ends_pbind; [apply step_fees_spec, I4|..];
      intros s5 (ca & pc5 & ps5 & D & _ & P5 & C5 & F5 & BD);
      pose proof (settled_step _ _ _ _ _ _ _ _ _ _ _ _ _ _ D I4 P5 C5 ltac:(lia) ltac:(lia) F5 (or_intror (conj eq_refl BD))) as I5;
      [eexists _, _; apply I5; discriminate|specialize (I5 None ltac:(discriminate))].
    clear I4 P5 C5 F5.
    eapply ends_pbind; [apply step_impact_negative_spec, I5|..];
      intros s6 (pc6 & ps6 & P6 & C6 & F6);
      pose proof (settled_step _ _ _ _ _ _ _ _ _ _ _ _ _ _ 0 I5 P6 C6 ltac:(lia) ltac:(lia) (or_introl F6) (or_introl eq_refl)) as I6;
      [eexists _, _; apply I6; discriminate|specialize (I6 None ltac:(discriminate))].
    pose proof (step_impact_diff_spec s6 diff (proj1 (proj2 I6)) Hd) as S7.
    destruct (step_impact_diff w pr p s6 diff) as [s7|k s7|]; [|destruct S7 as [-> S7]|exact I];
      destruct S7 as (pc7 & ps7 & P7 & C7 & F7); eexists _, _;
      apply (settled_step _ _ _ _ _ _ _ _ _ _ _ _ _ _ 0 I6 P7 C7 ltac:(lia) ltac:(lia) (or_introl F7) (or_introl eq_refl)); discriminate.
  Qed.
End P.
