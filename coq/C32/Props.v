(* C32 — builder fees are bounded by what the order actually produced.
   w = width of usd values, wa = width of token amounts, unit = MARKET_USD_UNIT (all generic). *)
From GV Require Import lib.Base C32.Model C32.Proofs.
Open Scope Z_scope.

(* the fee is the executed size times the factor (floor), converted at the MINIMUM price, rounded UP *)
Theorem c32_fee_round_up : forall w unit, 1 <= w -> 0 < unit -> forall size factor pmin fee,
  0 <= size -> 0 <= factor -> 0 <= pmin ->
  compute w unit size factor pmin = Ok fee ->
  (factor = 0 /\ fee = 0) \/
  (factor <> 0 /\ pmin <> 0 /\ 0 <= fee /\ pmin * (fee - 1) < size * factor / unit <= pmin * fee).
Proof. exact fee_round_up. Qed.

Theorem c32_compute_err : forall w unit, 1 <= w -> 0 < unit -> forall size factor pmin e,
  0 <= size -> 0 <= factor -> 0 <= pmin ->
  compute w unit size factor pmin = Err e ->
  e = 2 /\ factor <> 0 /\ (pmin = 0 \/ 2 ^ w <= size * factor / unit \/ 2 ^ w <= size * factor / unit + pmin).
Proof. exact compute_err. Qed.

Theorem c32_clamp_spec : forall fee avail, clamp fee avail <= fee /\ clamp fee avail <= avail /\
  (clamp fee avail = fee \/ clamp fee avail = avail).
Proof. exact clamp_spec. Qed.

(* increase: fee + remaining collateral increment = original increment ... *)
Theorem c32_increase_split_exact : forall w wa unit incr size factor pmin after fee, 0 <= incr < 2 ^ wa ->
  charge w wa unit incr size factor pmin = Ok (after, fee) ->
  after + fee = incr /\ 0 <= after /\ 0 <= fee /\ compute w unit size factor pmin = Ok fee.
Proof. exact increase_split_exact. Qed.

(* ... or the order fails: the fee cannot be computed, does not fit a token amount, or exceeds the
   increment (no partial charge) *)
Theorem c32_increase_fails_cases : forall w wa unit, 1 <= wa -> forall incr size factor pmin e,
  0 <= incr < 2 ^ wa ->
  charge w wa unit incr size factor pmin = Err e ->
  (compute w unit size factor pmin = Err e) \/
  (exists fee, compute w unit size factor pmin = Ok fee /\
               ((e = 2 /\ (fee < 0 \/ 2 ^ wa <= fee)) \/ (e = 3 /\ incr < fee))).
Proof. intros w wa unit _. exact (increase_fails_cases w wa unit). Qed.

Theorem c32_increase_path_ok : forall w wa unit, 1 <= wa -> forall rec incr size factor pmin after rec' routed,
  0 <= incr < 2 ^ wa -> 0 <= rec ->
  increase_path w wa unit rec incr size factor pmin = Ok (after, rec', routed) ->
  after + routed = incr /\ rec' = rec + routed /\ 0 <= routed /\ 0 <= after /\
  (factor = 0 -> routed = 0) /\ (factor <> 0 -> compute w unit size factor pmin = Ok routed).
Proof. intros w wa unit _. exact (increase_path_ok w wa unit). Qed.

(* decrease: the recorded fee never exceeds the final output amount *)
Theorem c32_decrease_recorded_le_output : forall w wa unit, 1 <= wa -> forall rec size factor pmin output rec',
  0 <= size -> 0 <= factor -> 0 <= pmin -> 0 <= output -> 0 <= rec ->
  decrease_path w wa unit rec size factor pmin output = Ok rec' ->
  0 <= rec' - rec <= output /\
  (factor = 0 -> rec' = rec) /\
  (factor <> 0 -> exists fee, compute w unit size factor pmin = Ok fee /\ rec' - rec = Z.min fee output).
Proof. exact decrease_recorded_le_output. Qed.

(* settlement transfers at most the recorded amount and never more than the escrow holds, then
   zeroes the record *)
Theorem c32_settle_le_recorded_le_escrow : forall rec escrow, 0 <= rec -> 0 <= escrow ->
  let '(t, rec', esc') := settle rec escrow in
  0 <= t <= rec /\ t <= escrow /\ t = Z.min rec escrow /\ rec' = 0 /\ esc' = escrow - t /\ 0 <= esc'.
Proof. exact settle_spec. Qed.

(* ... so that repeating it is a no-op *)
Theorem c32_settle_idempotent : forall rec escrow,
  let '(t, rec', esc') := settle rec escrow in settle rec' esc' = (0, rec', esc').
Proof. exact settle_idempotent. Qed.

(* over a whole order life (charges routed into the escrow, other deposits, repeated settlements)
   the escrow always covers the record, and a settlement then pays the record in full *)
Theorem c32_order_life : forall wa, 1 <= wa -> forall ops, Forall wf_bop ops ->
  forall s, binv s -> binv (fold_left (bstep wa) ops s).
Proof. intros wa _. exact (order_life wa). Qed.

Theorem c32_settle_pays_in_full : forall wa rec esc paid, binv (rec, esc, paid) ->
  bstep wa (rec, esc, paid) BSettle = (0, esc - rec, paid + rec).
Proof. exact settle_pays_in_full. Qed.

Example c32_ex1 : compute 128 (10 ^ 20) (1000 * 10 ^ 20) (10 ^ 17) 3 = Ok 33333333333333333334
  /\ charge 128 64 (10 ^ 20) 500 (1000 * 10 ^ 20) (10 ^ 17) (10 ^ 18) = Ok (400, 100)
  /\ charge 128 64 (10 ^ 20) 99 (1000 * 10 ^ 20) (10 ^ 17) (10 ^ 18) = Err 3.
Proof. vm_compute. repeat split; reflexivity. Qed.
Example c32_ex2 : decrease_path 128 64 (10 ^ 20) 7 (1000 * 10 ^ 20) (10 ^ 17) (10 ^ 18) 60 = Ok 67
  /\ settle 67 50 = (50, 0, 0)
  /\ fold_left (bstep 64) [BCharge 5; BDeposit 100; BSettle; BSettle; BCharge 7; BSettle] (0, 0, 0) = (0, 100, 12).
Proof. vm_compute. repeat split; reflexivity. Qed.
