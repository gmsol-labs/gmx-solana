(* C44 — a successful revertible swap executes exactly one hop per market of each declared path, chained by
   token and amount, and keeps the recorded balances' totals; creation-time validation of the paths. *)
From GV Require Import lib.Base lib.Checked C44.Model.
Open Scope Z_scope.

Definition bal_of (m : mk) (tok : Z) : Z :=
  if tok =? mk_long m then mk_bl m else if tok =? mk_short m then mk_bs m else 0.
Fixpoint total (ms : list mk) (tok : Z) : Z :=
  match ms with [] => 0 | m :: r => bal_of m tok + total r tok end.
Definition same_tokens (m m' : mk) : Prop :=
  mk_id m' = mk_id m /\ mk_long m' = mk_long m /\ mk_short m' = mk_short m.

(* market tokens never change: [toks_of ms id] is the (long, short) of market id *)
Definition toks_of (ms : list mk) (id : Z) : option (Z * Z) :=
  match find ms id with Some m => Some (mk_long m, mk_short m) | None => None end.

(* token lookup of a swap state: the current market or one of the swap markets *)
Definition lk (s : st) (id : Z) : option (Z * Z) :=
  if id =? mk_id (s_cur s) then Some (mk_long (s_cur s), mk_short (s_cur s)) else toks_of (s_ms s) id.

(* the recorded balance of token T, summed over the current market and all swap markets *)
Definition wtotal (s : st) (T : Z) : Z := bal_of (s_cur s) T + total (s_ms s) T.

(* [follows lk path tok amt hops tok' amt']: the hops are exactly one hop per market of the path, in order;
   each hop enters with the running token / amount, the market has two distinct tokens one of which is the
   running token, and the hop leaves with the other token and the hop's output amount *)
Inductive follows (lk : Z -> option (Z * Z)) : list Z -> Z -> Z -> list hop -> Z -> Z -> Prop :=
| F_nil tok amt : follows lk [] tok amt [] tok amt
| F_cons mt rest tok amt h hs tl ts tok' amt' :
    lk mt = Some (tl, ts) -> tl <> ts ->
    hp_market h = mt -> hp_in h = amt ->
    (hp_in_long h = true /\ tok = tl \/ hp_in_long h = false /\ tok = ts) ->
    follows lk rest (if hp_in_long h then ts else tl) (hp_out h) hs tok' amt' ->
    follows lk (mt :: rest) tok amt (h :: hs) tok' amt'.

(* amounts chain from hop to hop *)
Fixpoint chain_amounts (a : Z) (hs : list hop) (a' : Z) : Prop :=
  match hs with [] => a' = a | h :: r => hp_in h = a /\ chain_amounts (hp_out h) r a' end.

Fixpoint chain (path : list pacct) (tok : Z) : option Z :=
  match path with
  | [] => Some tok
  | p :: r =>
      if p_long p =? p_short p then None
      else if tok =? p_long p then chain r (p_short p)
      else if tok =? p_short p then chain r (p_long p)
      else None
  end.

Lemma nodup_b_NoDup l : nodup_b l = true <-> NoDup l.
Proof.
  induction l; cbn.
  - split; auto. constructor.
  - rewrite Bool.andb_true_iff, Bool.negb_true_iff, IHl. split.
    + intros [H1 H2]. constructor; auto. intro Hin. apply existsb_Zeqb_In in Hin. congruence.
    + intros [Hn Hd]%NoDup_cons_iff. split; auto. destruct (existsb (Z.eqb a) l) eqn:E; auto.
      apply existsb_Zeqb_In in E. contradiction.
Qed.

Lemma last_of_app l x : last_of (l ++ [x]) = x.
Proof. unfold last_of. apply last_last. Qed.

(* record_transferred_in / out move the recorded balance of the token's side by [d] and nothing else *)
Definition shift (m : mk) (sd : bool) (d : Z) : mk :=
  if is_pure m || sd then mkMk (mk_id m) (mk_long m) (mk_short m) (mk_bl m + d) (mk_bs m)
  else mkMk (mk_id m) (mk_long m) (mk_short m) (mk_bl m) (mk_bs m + d).

Lemma rec_in_eq m tok amt m' : rec_in m tok amt = Ok m' -> exists sd, side m tok = Some sd /\ m' = shift m sd amt.
Proof.
  unfold rec_in, shift. destruct (side m tok) as [sd|]; [|discriminate]. intro H. exists sd. split; [reflexivity|].
  destruct (is_pure m || sd); destruct (_ <? _); congruence.
Qed.

Lemma rec_out_eq m tok amt m' :
  rec_out m tok amt = Ok m' -> exists sd, side m tok = Some sd /\ m' = shift m sd (- amt).
Proof.
  unfold rec_out, shift. destruct (side m tok) as [sd|]; [|discriminate]. intro H. exists sd. split; [reflexivity|].
  destruct (is_pure m || sd); (destruct (_ <? 0); [discriminate|]); now injection H as <-.
Qed.

Lemma shift_spec m tok sd d :
  side m tok = Some sd ->
  same_tokens m (shift m sd d) /\ (tok = mk_long m \/ tok = mk_short m) /\
  forall T, bal_of (shift m sd d) T = bal_of m T + (if T =? tok then d else 0).
Proof.
  unfold side, shift, is_pure. intro H. destruct (Z.eqb_spec tok (mk_long m)) as [->|Hl].
  - injection H as <-. rewrite Bool.orb_true_r. split; [unfold same_tokens; cbn; auto|]. split; [auto|].
    intro T. unfold bal_of. cbn. destruct (T =? mk_long m); [lia|]. destruct (T =? mk_short m); lia.
  - destruct (Z.eqb_spec tok (mk_short m)) as [->|_]; [|discriminate]. injection H as <-.
    rewrite Bool.orb_false_r. destruct (Z.eqb_spec (mk_long m) (mk_short m)); [congruence|].
    split; [unfold same_tokens; cbn; auto|]. split; [auto|].
    intro T. unfold bal_of. cbn. destruct (Z.eqb_spec T (mk_long m)), (Z.eqb_spec T (mk_short m)); lia.
Qed.

Lemma rec_in_spec m tok amt m' :
  rec_in m tok amt = Ok m' ->
  same_tokens m m' /\ (tok = mk_long m \/ tok = mk_short m) /\
  forall T, bal_of m' T = bal_of m T + (if T =? tok then amt else 0).
Proof. intros (sd & Hs & ->)%rec_in_eq. apply shift_spec, Hs. Qed.

Lemma rec_out_spec m tok amt m' :
  rec_out m tok amt = Ok m' ->
  same_tokens m m' /\ (tok = mk_long m \/ tok = mk_short m) /\
  forall T, bal_of m' T = bal_of m T - (if T =? tok then amt else 0).
Proof.
  intros (sd & Hs & ->)%rec_out_eq. destruct (shift_spec m tok sd (- amt) Hs) as (S & Ht & B).
  split; [exact S|]. split; [exact Ht|]. intro T. rewrite B. destruct (T =? tok); lia.
Qed.

Lemma find_id ms id m : find ms id = Some m -> mk_id m = id.
Proof.
  induction ms; cbn; [discriminate|]. destruct (mk_id a =? id) eqn:E; auto.
  intros [= <-]. apply Z.eqb_eq. auto.
Qed.

Lemma total_upd ms m m' T :
  find ms (mk_id m') = Some m -> total (upd ms m') T = total ms T - bal_of m T + bal_of m' T.
Proof.
  induction ms; cbn; [discriminate|].
  destruct (mk_id a =? mk_id m') eqn:E.
  - intros [= ->]. cbn. lia.
  - intro H. cbn. rewrite (IHms H). lia.
Qed.

Lemma find_upd_same ms m m' : find ms (mk_id m') = Some m -> find (upd ms m') (mk_id m') = Some m'.
Proof.
  induction ms; cbn; [discriminate|]. destruct (mk_id a =? mk_id m') eqn:E.
  - intros _. cbn. rewrite Z.eqb_refl. auto.
  - intro H. cbn. rewrite E. auto.
Qed.

Lemma find_upd_other ms m' id : id <> mk_id m' -> find (upd ms m') id = find ms id.
Proof.
  intro Hne. induction ms; cbn; auto. destruct (mk_id a =? mk_id m') eqn:E.
  - cbn. apply Z.eqb_eq in E. destruct (mk_id m' =? id) eqn:E1; [apply Z.eqb_eq in E1; congruence|].
    destruct (mk_id a =? id) eqn:E2; [apply Z.eqb_eq in E2; congruence|]. auto.
  - cbn. destruct (mk_id a =? id); auto.
Qed.

Lemma toks_upd ms m m' id :
  find ms (mk_id m') = Some m -> mk_long m' = mk_long m -> mk_short m' = mk_short m ->
  toks_of (upd ms m') id = toks_of ms id.
Proof.
  intros Hf Hl Hs. unfold toks_of. destruct (Z.eq_dec id (mk_id m')) as [->|Hne].
  - rewrite (find_upd_same _ _ _ Hf), Hf. congruence.
  - rewrite (find_upd_other _ _ _ Hne). auto.
Qed.

Lemma follows_app lk p1 : forall p2 tok amt h1 h2 t1 a1 t2 a2,
  follows lk p1 tok amt h1 t1 a1 -> follows lk p2 t1 a1 h2 t2 a2 ->
  follows lk (p1 ++ p2) tok amt (h1 ++ h2) t2 a2.
Proof.
  induction p1; intros p2 tok amt h1 h2 t1 a1 t2 a2 H1 H2; inversion H1; subst; cbn; auto.
  econstructor; eauto.
Qed.

Lemma follows_markets lk path tok amt hops tok' amt' :
  follows lk path tok amt hops tok' amt' -> map hp_market hops = path.
Proof. induction 1; cbn; congruence. Qed.

Lemma follows_no_pure lk0 path tok amt hops tok' amt' :
  follows lk0 path tok amt hops tok' amt' ->
  Forall (fun mt => exists l s, lk0 mt = Some (l, s) /\ l <> s) path.
Proof. induction 1; constructor; eauto. Qed.

Lemma follows_chain_amounts lk0 path tok amt hops tok' amt' :
  follows lk0 path tok amt hops tok' amt' -> chain_amounts amt hops amt'.
Proof. induction 1; cbn; auto. Qed.

Lemma side_opposite m tok sd tok' :
  side m tok = Some sd -> opposite m tok = Some tok' ->
  sd = true /\ tok = mk_long m /\ tok' = mk_short m \/ sd = false /\ tok = mk_short m /\ tok' = mk_long m.
Proof.
  unfold side, opposite. destruct (Z.eqb_spec tok (mk_long m)); [intros [= <-] [= <-]; auto|].
  destruct (Z.eqb_spec tok (mk_short m)); [intros [= <-] [= <-]; auto|discriminate].
Qed.

Lemma do_swap_spec m tok amt outs tok' amt' sd outs' :
  do_swap m tok amt outs = Ok (tok', amt', sd, outs') ->
  mk_long m <> mk_short m /\ outs = amt' :: outs' /\ amt <> 0 /\
  (sd = true /\ tok = mk_long m /\ tok' = mk_short m \/ sd = false /\ tok = mk_short m /\ tok' = mk_long m).
Proof.
  unfold do_swap. destruct (side m tok) as [s|] eqn:Es; [|discriminate].
  destruct (opposite m tok) as [t|] eqn:Eo; [|discriminate]. pose proof (side_opposite _ _ _ _ Es Eo) as D.
  destruct (Z.eqb_spec tok t); [discriminate|]. destruct (Z.eqb_spec amt 0); [discriminate|].
  destruct outs as [|o r]; [discriminate|]. destruct (U64_MAX <? o); [discriminate|]. intros [= <- <- <- <-].
  repeat split; auto. destruct D as [(_ & <- & <-)|(_ & <- & <-)]; auto.
Qed.

(* [ext s s' hops]: s' extends s by the hops (oldest first), consuming one abstract output per hop, and no
   market changed identity or tokens *)
Definition ext (s s' : st) (hops : list hop) : Prop :=
  s_hops s' = rev hops ++ s_hops s /\
  s_outs s = map hp_out hops ++ s_outs s' /\
  mk_id (s_cur s') = mk_id (s_cur s) /\
  (forall id, lk s' id = lk s id) /\
  (forall id, find (s_ms s') id = None <-> find (s_ms s) id = None) /\
  (forall T, wtotal s' T = wtotal s T).

Lemma ext_refl s : ext s s [].
Proof. unfold ext. cbn. repeat split; auto. Qed.

Lemma ext_trans a b c h1 h2 : ext a b h1 -> ext b c h2 -> ext a c (h1 ++ h2).
Proof.
  unfold ext. intros (H1 & O1 & I1 & L1 & F1 & T1) (H2 & O2 & I2 & L2 & F2 & T2).
  split; [rewrite H2, H1, rev_app_distr, app_assoc; auto|].
  split; [rewrite O1, O2, map_app, app_assoc; auto|].
  split; [congruence|]. split; [intro id; rewrite L2; auto|].
  split; [intro id; rewrite F2; auto|]. intro T. rewrite T2. auto.
Qed.

Lemma follows_weaken lk1 lk2 path tok amt hops tok' amt' :
  (forall mt v, lk1 mt = Some v -> lk2 mt = Some v) ->
  follows lk1 path tok amt hops tok' amt' -> follows lk2 path tok amt hops tok' amt'.
Proof. intros He H. induction H; [constructor|]. econstructor; eauto. Qed.

Lemma find_none_upd ms m m' id :
  find ms (mk_id m') = Some m -> (find (upd ms m') id = None <-> find ms id = None).
Proof.
  intro Hf. destruct (Z.eq_dec id (mk_id m')) as [->|Hne].
  - rewrite (find_upd_same _ _ _ Hf), Hf. split; discriminate.
  - rewrite (find_upd_other _ _ _ Hne). tauto.
Qed.

(* [runs s path tok amt s' tok' amt']: from [s], with [amt] of [tok] in hand, the swap reaches [s'] holding
   [amt'] of [tok'] by executing hops that follow [path] *)
Definition runs (s : st) (path : list Z) (tok amt : Z) (s' : st) (tok' amt' : Z) : Prop :=
  exists hops, ext s s' hops /\ follows (lk s) path tok amt hops tok' amt'.

Lemma follows_lk_ext s s' hops path tok amt hs tok' amt' :
  ext s s' hops -> follows (lk s') path tok amt hs tok' amt' -> follows (lk s) path tok amt hs tok' amt'.
Proof.
  intros (_ & _ & _ & L & _) H. eapply follows_weaken; [|exact H]. intros mt v <-. symmetry. apply L.
Qed.

Lemma runs_app s p1 tok amt s1 t1 a1 p2 s2 t2 a2 :
  runs s p1 tok amt s1 t1 a1 -> runs s1 p2 t1 a1 s2 t2 a2 -> runs s (p1 ++ p2) tok amt s2 t2 a2.
Proof.
  intros (h1 & X1 & F1) (h2 & X2 & F2). exists (h1 ++ h2). split; [eapply ext_trans; eauto|].
  eapply follows_app; [exact F1|]. eapply follows_lk_ext; eauto.
Qed.

Lemma runs_moved s s' tok amt : ext s s' [] -> runs s [] tok amt s' tok amt.
Proof. intro X. exists []. split; [exact X|constructor]. Qed.

Lemma runs_then_moved s p tok amt s1 t a s2 : runs s p tok amt s1 t a -> ext s1 s2 [] -> runs s p tok amt s2 t a.
Proof. intros R X. rewrite <- (app_nil_r p). exact (runs_app _ _ _ _ _ _ _ _ _ _ _ R (runs_moved _ _ _ _ X)). Qed.

Lemma ext_cur_none s s' hops :
  ext s s' hops -> find (s_ms s) (mk_id (s_cur s)) = None -> find (s_ms s') (mk_id (s_cur s')) = None.
Proof. intros (_ & _ & I & _ & F & _) H. rewrite I. apply F. auto. Qed.

Lemma swap_current_spec s tok amt s' tok' amt' :
  swap_current s tok amt = Ok (s', tok', amt') -> runs s [mk_id (s_cur s)] tok amt s' tok' amt'.
Proof.
  intro H. apply rbind_ok in H as ([[[t a] sd] o] & (Hp & Ho & Ha & Hs)%do_swap_spec & [= <- <- <-]).
  exists [mkHop (mk_id (s_cur s)) sd amt a]. split.
  - unfold ext. cbn. repeat split; auto.
  - apply F_cons with (tl := mk_long (s_cur s)) (ts := mk_short (s_cur s)); cbn; auto.
    + unfold lk. rewrite Z.eqb_refl. reflexivity.
    + destruct Hs as [(-> & -> & ->)|(-> & -> & ->)]; auto.
    + destruct Hs as [(-> & -> & ->)|(-> & -> & ->)]; cbn; constructor.
Qed.

Lemma ext_moved s m m' c' :
  find (s_ms s) (mk_id m) = Some m -> same_tokens m m' -> same_tokens (s_cur s) c' ->
  (forall T, bal_of c' T + bal_of m' T = bal_of (s_cur s) T + bal_of m T) ->
  ext s (mkSt (upd (s_ms s) m') c' (s_outs s) (s_hops s)) [].
Proof.
  intros Ef (Mi & Ml & Ms) (Ci & Cl & Cs) B. rewrite <- Mi in Ef.
  unfold ext. cbn. split; [auto|]. split; [auto|]. split; [auto|]. split; [|split].
  - intro i. unfold lk. cbn. rewrite Ci, Cl, Cs. destruct (i =? mk_id (s_cur s)); auto.
    eapply toks_upd; eauto.
  - intro i. eapply find_none_upd; eauto.
  - intro T. unfold wtotal. cbn. rewrite (total_upd _ _ _ _ Ef). specialize (B T). lia.
Qed.

Lemma move_cur_to_ms_spec s id tok amt s' : move_cur_to_ms s id tok amt = Ok s' -> ext s s' [].
Proof.
  unfold move_cur_to_ms. destruct (find (s_ms s) id) as [m|] eqn:Ef; [|discriminate]. intro H.
  apply rbind_ok in H as (c' & (Sc & _ & Bc)%rec_out_spec & H).
  apply rbind_ok in H as (m' & (Sm & _ & Bm)%rec_in_spec & [= <-]).
  rewrite <- (find_id _ _ _ Ef) in Ef. apply (ext_moved s m); auto. intro T. rewrite Bc, Bm. lia.
Qed.

Lemma move_ms_to_cur_spec s id tok amt s' : move_ms_to_cur s id tok amt = Ok s' -> ext s s' [].
Proof.
  unfold move_ms_to_cur. destruct (find (s_ms s) id) as [m|] eqn:Ef; [|discriminate]. intro H.
  apply rbind_ok in H as (m' & (Sm & _ & Bm)%rec_out_spec & H).
  apply rbind_ok in H as (c' & (Sc & _ & Bc)%rec_in_spec & [= <-]).
  rewrite <- (find_id _ _ _ Ef) in Ef. apply (ext_moved s m); auto. intro T. rewrite Bc, Bm. lia.
Qed.

(* swap_along_the_path records the amount into every market but the first ([skip]), and the output out of every
   market but the last (no [rest]) *)
Lemma rec_in_unless (skip : bool) m tok amt m' :
  (if skip then Ok m else rec_in m tok amt) = Ok m' ->
  same_tokens m m' /\ forall T, bal_of m' T = bal_of m T + (if skip then 0 else if T =? tok then amt else 0).
Proof.
  destruct skip; [|intros (S & _ & B)%rec_in_spec; auto].
  intros [= <-]. split; [unfold same_tokens; auto|]. intro T; lia.
Qed.

Lemma rec_out_unless_last (rest : list Z) m tok amt m' :
  match rest with [] => Ok m | _ :: _ => rec_out m tok amt end = Ok m' ->
  same_tokens m m' /\
  forall T, bal_of m' T = bal_of m T - match rest with [] => 0 | _ => if T =? tok then amt else 0 end.
Proof.
  destruct rest; [|intros (S & _ & B)%rec_out_spec; auto].
  intros [= <-]. split; [unfold same_tokens; auto|]. intro T; lia.
Qed.

Lemma along_spec : forall path s tok amt first s' tok' amt',
  along s path tok amt first = Ok (s', tok', amt') ->
  exists hops,
    s_hops s' = rev hops ++ s_hops s /\ s_outs s = map hp_out hops ++ s_outs s' /\
    s_cur s' = s_cur s /\
    (forall id, toks_of (s_ms s') id = toks_of (s_ms s) id) /\
    (forall id, find (s_ms s') id = None <-> find (s_ms s) id = None) /\
    follows (toks_of (s_ms s)) path tok amt hops tok' amt' /\
    (forall T, total (s_ms s') T = total (s_ms s) T +
               (if first then 0 else match path with [] => 0 | _ => if T =? tok then amt else 0 end)).
Proof.
  induction path as [|mt rest IH]; intros s tok amt first s' tok' amt' H; cbn [along] in H.
  - injection H as <- <- <-. exists []. cbn. repeat split; auto; try constructor. intro T. destruct first; lia.
  - destruct (find (s_ms s) mt) as [m|] eqn:Ef; [|discriminate]. pose proof (find_id _ _ _ Ef) as Hid.
    apply rbind_ok in H as (m1 & ((I1 & L1 & R1) & B1)%rec_in_unless & H).
    apply rbind_ok in H as ([[[t a] sd] o] & (Hp & Hout & Ha & Hs)%do_swap_spec & H).
    apply rbind_ok in H as (m2 & ((I2 & L2 & R2) & B2)%rec_out_unless_last & (hs & Hh & Ho & Hc & Hl & Hn & Hf & Ht)%IH).
    cbn [s_hops s_outs s_cur s_ms] in *.
    assert (Ef' : find (s_ms s) (mk_id m2) = Some m) by (rewrite I2, I1, Hid; auto).
    rewrite L1, R1 in Hs, Hp.
    exists (mkHop mt sd amt a :: hs).
    split; [rewrite Hh; cbn; rewrite <- app_assoc; reflexivity|].
    split; [rewrite Hout; cbn; rewrite Ho; reflexivity|].
    split; [auto|].
    split; [intro id; rewrite Hl; eapply toks_upd; eauto; congruence|].
    split; [intro id; rewrite Hn; eapply find_none_upd; eauto|].
    split.
    + apply F_cons with (tl := mk_long m) (ts := mk_short m); cbn; auto.
      * unfold toks_of. rewrite Ef. reflexivity.
      * destruct Hs as [(-> & -> & _)|(-> & -> & _)]; auto.
      * replace (if sd then mk_short m else mk_long m) with t by (destruct Hs as [(-> & _ & ->)|(-> & _ & ->)]; reflexivity).
        eapply follows_weaken; [|exact Hf].
        intros x v <-. symmetry. eapply toks_upd; eauto; congruence.
    + intro T. rewrite Ht, (total_upd _ _ _ _ Ef'), B2, B1.
      destruct rest; destruct first; lia.
Qed.

Lemma along_ext s path tok amt s' tok' amt' :
  find (s_ms s) (mk_id (s_cur s)) = None ->
  along s path tok amt true = Ok (s', tok', amt') -> runs s path tok amt s' tok' amt'.
Proof.
  intros Hc H. apply along_spec in H as (hops & Hh & Ho & Hcur & Hl & Hn & Hf & Ht).
  exists hops. split.
  - unfold ext. split; [auto|]. split; [auto|]. split; [congruence|]. split; [|split; [auto|]].
    + intro id. unfold lk. rewrite Hcur, Hl. auto.
    + intro T. unfold wtotal. rewrite Hcur, Ht. lia.
  - eapply follows_weaken; [|exact Hf]. intros mt v Hv. unfold lk.
    destruct (Z.eqb_spec mt (mk_id (s_cur s))) as [->|_]; auto.
    unfold toks_of in Hv. rewrite Hc in Hv. discriminate.
Qed.

Lemma stage_first_spec is_into s path tok amt s4 tok4 amt4 path4 :
  stage_first is_into s path tok amt = Ok (s4, tok4, amt4, path4) ->
  exists pre, path = pre ++ path4 /\ runs s pre tok amt s4 tok4 amt4.
Proof.
  unfold stage_first. destruct path as [|first rest].
  - intros [= <- <- <- <-]. exists []. split; [reflexivity|apply runs_moved, ext_refl].
  - intro H. apply rbind_ok in H as (s1 & E1 & H).
    assert (X1 : ext s s1 []).
    { destruct (_ && _); [exact (move_cur_to_ms_spec _ _ _ _ _ E1)|injection E1 as <-; apply ext_refl]. }
    destruct (Z.eqb_spec first (mk_id (s_cur s))) as [Ef|_].
    + (* the path starts in the current market: swap there, and hand the result to the next market *)
      apply rbind_ok in H as ([[s2 tok2] amt2] & R2%swap_current_spec & H).
      replace (mk_id (s_cur s1)) with first in R2 by (destruct X1 as (_ & _ & I & _); congruence).
      pose proof (runs_app _ [] _ _ _ _ _ _ _ _ _ (runs_moved _ _ tok amt X1) R2) as R.
      destruct rest as [|nxt rest'].
      * injection H as <- <- <- <-. exists [first]. split; [reflexivity|exact R].
      * apply rbind_ok in H as (s3 & X3%move_cur_to_ms_spec & [= <- <- <- <-]).
        exists [first]. split; [reflexivity|exact (runs_then_moved _ _ _ _ _ _ _ _ R X3)].
    + injection H as <- <- <- <-. exists []. split; [reflexivity|apply runs_moved, X1].
Qed.

Lemma stage_rest_spec is_into s4 path4 tok4 amt4 s' tok' amt' :
  find (s_ms s4) (mk_id (s_cur s4)) = None ->
  stage_rest is_into s4 path4 tok4 amt4 = Ok (s', tok', amt') -> runs s4 path4 tok4 amt4 s' tok' amt'.
Proof.
  intros Hc H. unfold stage_rest in H. destruct path4 as [|p0 prest] eqn:Ep.
  - injection H as <- <- <-. apply runs_moved, ext_refl.
  - rewrite <- Ep in *. assert (Hne : path4 <> []) by (rewrite Ep; discriminate). clear Ep. cbv zeta in H.
    apply rbind_ok in H as ([[s5 tok5] amt5] & R5 & H). apply rbind_ok in H as ([[s7 tok7] amt7] & E7 & H).
    destruct (Z.eqb_spec (last_of path4) (mk_id (s_cur s4))) as [Esw|_]; cbn [negb] in H;
      apply along_ext in R5; try exact Hc.
    + (* the path ends in the current market: the balance comes over from the last swap market, and the last
         swap is done there *)
      rewrite Bool.andb_false_r in H. injection H as <- <- <-.
      apply rbind_ok in E7 as (s6 & E6 & R7%swap_current_spec).
      assert (X6 : ext s5 s6 []).
      { destruct (removelast path4); [injection E6 as <-; apply ext_refl|exact (move_ms_to_cur_spec _ _ _ _ _ E6)]. }
      replace (mk_id (s_cur s6)) with (last_of path4) in R7
        by (destruct X6 as (_ & _ & I6 & _), R5 as (? & (_ & _ & I5 & _) & _); congruence).
      rewrite (app_removelast_last 0 Hne) at 1.
      exact (runs_app _ _ _ _ _ _ _ _ _ _ _ (runs_then_moved _ _ _ _ _ _ _ _ R5 X6) R7).
    + injection E7 as <- <- <-. rewrite Bool.andb_true_r in H. destruct is_into.
      * apply rbind_ok in H as (s8 & X8%move_ms_to_cur_spec & [= <- <- <-]).
        exact (runs_then_moved _ _ _ _ _ _ _ _ R5 X8).
      * injection H as <- <- <-. exact R5.
Qed.

Theorem one_side_spec is_into s path expected tok amt s' out :
  one_side is_into s path expected tok amt = Ok (s', out) ->
  find (s_ms s) (mk_id (s_cur s)) = None /\
  exists hops, ext s s' hops /\ follows (lk s) path tok amt hops expected out.
Proof.
  unfold one_side. intro H.
  destruct (find (s_ms s) (mk_id (s_cur s))) eqn:Hc; [discriminate|]. split; [reflexivity|].
  apply rbind_ok in H as ([[[s4 tok4] amt4] path4] & (pre & -> & R1)%stage_first_spec & H).
  apply rbind_ok in H as ([[s7 tok7] amt7] & R2 & H).
  destruct (Z.eqb_spec tok7 expected) as [->|_]; [|discriminate]. injection H as <- <-.
  apply stage_rest_spec in R2; [|destruct R1 as (h & X & _); eapply ext_cur_none; eauto].
  exact (runs_app _ _ _ _ _ _ _ _ _ _ _ R1 R2).
Qed.

Lemma optional_side_spec is_into s p exp tin a s' o :
  match tin with
  | Some t => if a =? 0 then Ok (s, 0) else one_side is_into s p exp t a
  | None => Ok (s, 0)
  end = Ok (s', o) ->
  exists h, ext s s' h /\
    match tin with
    | Some t => if a =? 0 then h = [] /\ o = 0 else follows (lk s) p t a h exp o
    | None => h = [] /\ o = 0
    end.
Proof.
  destruct tin as [t|]; [destruct (a =? 0)|].
  - intros [= <- <-]. exists []. split; [apply ext_refl|auto].
  - intros (_ & h & X & F)%one_side_spec. eauto.
  - intros [= <- <-]. exists []. split; [apply ext_refl|auto].
Qed.

Theorem revertible_swap_spec is_into s p1 p2 exp1 exp2 tin1 tin2 a1 a2 s' o1 o2 :
  revertible_swap is_into s p1 p2 exp1 exp2 tin1 tin2 a1 a2 = Ok (s', o1, o2) ->
  NoDup p1 /\ NoDup p2 /\
  exists h1 h2,
    ext s s' (h1 ++ h2) /\
    match tin1 with
    | Some t => if a1 =? 0 then h1 = [] /\ o1 = 0 else follows (lk s) p1 t a1 h1 exp1 o1
    | None => h1 = [] /\ o1 = 0
    end /\
    match tin2 with
    | Some t => if a2 =? 0 then h2 = [] /\ o2 = 0 else follows (lk s) p2 t a2 h2 exp2 o2
    | None => h2 = [] /\ o2 = 0
    end.
Proof.
  unfold revertible_swap. intro H.
  destruct (nodup_b p1) eqn:N1; cbn [negb] in H; [|discriminate]. apply nodup_b_NoDup in N1.
  apply rbind_ok in H as ([s1 x1] & (h1 & X1 & F1)%optional_side_spec & H).
  destruct (nodup_b p2) eqn:N2; cbn [negb] in H; [|discriminate]. apply nodup_b_NoDup in N2.
  apply rbind_ok in H as ([s2 x2] & (h2 & X2 & F2)%optional_side_spec & H).
  apply rbind_ok in H as (_ & _ & [= <- <- <-]).
  split; [exact N1|]. split; [exact N2|]. exists h1, h2. split; [eapply ext_trans; eauto|]. split; [exact F1|].
  (* the second side ran from the state the first one left: same lookup *)
  destruct tin2 as [t|]; auto. destruct (a2 =? 0); auto. eapply follows_lk_ext; eauto.
Qed.

Lemma validate_path_spec : forall path seen cur mts fin toks,
  validate_path seen path cur = Ok (mts, fin, toks) ->
  NoDup (map p_addr path) /\ (forall p, In p path -> ~ In (p_addr p) seen) /\
  Forall (fun p => p_store_ok p = true /\ p_enabled p = true /\ p_long p <> p_short p) path /\
  mts = map p_mt path /\ chain path cur = Some fin /\
  (forall p, In p path -> In (p_index p) toks /\ In (p_long p) toks /\ In (p_short p) toks).
Proof.
  induction path as [|p rest IH]; intros seen cur mts fin toks H; cbn [validate_path] in H.
  - injection H as <- <- <-. cbn. repeat split; auto; try constructor; intros p [].
  - destruct (existsb (Z.eqb (p_addr p)) seen) eqn:Es; [discriminate|].
    destruct (p_store_ok p) eqn:Eo; cbn [negb] in H; [|discriminate].
    destruct (p_enabled p) eqn:Ee; cbn [negb] in H; [|discriminate].
    destruct (p_long p =? p_short p) eqn:Ep; [discriminate|]. apply Z.eqb_neq in Ep.
    apply rbind_ok in H as (nxt & En & H).
    apply rbind_ok in H as ([[m f] t] & (N & S & F & M & C & T)%IH & [= <- <- <-]).
    assert (Hns : ~ In (p_addr p) seen).
    { intro Hin. apply existsb_Zeqb_In in Hin. congruence. }
    split; [|split; [|split; [|split; [|split]]]].
    + cbn. constructor; auto. intro Hin. apply in_map_iff in Hin as (q & Hq & Hin).
      apply (S q Hin). left. auto.
    + intros q [<-|Hq]; auto. intro Hin. apply (S q Hq). right. auto.
    + constructor; auto.
    + cbn. congruence.
    + cbn [chain]. destruct (p_long p =? p_short p) eqn:E; [apply Z.eqb_eq in E; congruence|].
      destruct (cur =? p_long p); [now injection En as <-|]. destruct (cur =? p_short p); [now injection En as <-|discriminate].
    + intros q [<-|Hq].
      * cbn. tauto.
      * destruct (T q Hq) as (A & B & C'). cbn. tauto.
Qed.

Lemma dedup_In l : forall x, In x (dedup l) <-> In x l.
Proof.
  induction l; intro x; cbn; [tauto|].
  destruct (existsb (Z.eqb a) l) eqn:E.
  - rewrite IHl. split; auto. intros [<-|H]; auto. apply existsb_Zeqb_In. auto.
  - cbn. rewrite IHl. tauto.
Qed.

Lemma dedup_NoDup l : NoDup (dedup l).
Proof.
  induction l; cbn; [constructor|]. destruct (existsb (Z.eqb a) l) eqn:E; auto.
  constructor; auto. rewrite dedup_In. intro H. apply existsb_Zeqb_In in H. congruence.
Qed.

Theorem validate_and_init_spec cur_tokens plen slen paths tin1 tin2 tout1 tout2 m1 m2 toks :
  validate_and_init cur_tokens plen slen paths tin1 tin2 tout1 tout2 = Ok (m1, m2, toks) ->
  let q1 := firstn (Z.to_nat plen) paths in
  let q2 := firstn (Z.to_nat slen) (skipn (Z.to_nat plen) paths) in
  plen + slen <= MAX_STEPS /\ plen + slen <= Z.of_nat (length paths) /\
  NoDup (map p_addr q1) /\ NoDup (map p_addr q2) /\
  Forall (fun p => p_store_ok p = true /\ p_enabled p = true /\ p_long p <> p_short p) (q1 ++ q2) /\
  m1 = map p_mt q1 /\ m2 = map p_mt q2 /\
  chain q1 tin1 = Some tout1 /\ chain q2 tin2 = Some tout2 /\
  NoDup toks /\ Z.of_nat (length toks) <= MAX_TOKENS /\
  (forall t, In t cur_tokens -> In t toks) /\
  (forall p, In p (q1 ++ q2) -> In (p_index p) toks /\ In (p_long p) toks /\ In (p_short p) toks).
Proof.
  unfold validate_and_init. intro H.
  destruct (MAX_STEPS <? plen + slen) eqn:E1; [discriminate|]. apply Z.ltb_ge in E1.
  destruct (Z.of_nat (length paths) <? plen + slen) eqn:E2; [discriminate|]. apply Z.ltb_ge in E2.
  apply rbind_ok in H as ([[a f1] t1] & V1 & H). destruct (Z.eqb_spec f1 tout1) as [->|]; [|discriminate].
  apply rbind_ok in H as ([[b f2] t2] & V2 & H). destruct (Z.eqb_spec f2 tout2) as [->|]; [|discriminate].
  cbn [negb] in H.
  destruct (MAX_TOKENS <? Z.of_nat (length (dedup (cur_tokens ++ t1 ++ t2)))) eqn:E3; [discriminate|].
  apply Z.ltb_ge in E3. injection H as <- <- <-.
  apply validate_path_spec in V1 as (N1 & _ & A1 & M1 & C1 & T1).
  apply validate_path_spec in V2 as (N2 & _ & A2 & M2 & C2 & T2).
  assert (Hin : forall x, In x t1 \/ In x t2 -> In x (dedup (cur_tokens ++ t1 ++ t2))).
  { intros x Hx. apply dedup_In, in_or_app. right. apply in_or_app, Hx. }
  cbn zeta. repeat apply conj; auto.
  - apply Forall_app. auto.
  - apply dedup_NoDup.
  - intros t Ht. apply dedup_In. apply in_or_app. auto.
  - intros p [H|H]%in_app_or; [destruct (T1 p H) as (X & Y & Z)|destruct (T2 p H) as (X & Y & Z)];
      repeat split; apply Hin; auto.
Qed.
