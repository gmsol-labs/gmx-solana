(* C36 — byte level: the header and the account table survive encoding and decoding, so what
   load_instruction reads back is what load_and_init wrote. *)
From GV Require Import lib.Base lib.Checked C36.Model.
Open Scope Z_scope.

Lemma take_app (a b : list Z) n : length a = n -> take n (a ++ b) = (a, b).
Proof.
  intro H. unfold take. subst n. rewrite firstn_app, skipn_app, firstn_all, skipn_all.
  rewrite Nat.sub_diag. cbn. rewrite !app_nil_r. reflexivity.
Qed.

Lemma length_zeros n : length (zeros n) = n.
Proof. apply repeat_length. Qed.

Lemma length_le_bytes k n : length (le_bytes k n) = k.
Proof. revert n. induction k; intro n; cbn; auto. Qed.

Lemma length_le64 n : length (le64 n) = 8%nat.
Proof. apply length_le_bytes. Qed.

Lemma length_le16 n : length (le16 n) = 2%nat.
Proof. reflexivity. Qed.

Lemma of_le16_le16 n : 0 <= n < 65536 -> of_le16 (le16 n) = n.
Proof.
  intro H. unfold of_le16, le16. cbn [nth].
  rewrite (Z.mod_small (n / 256) 256).
  - pose proof (Z.div_mod n 256 ltac:(lia)). lia.
  - split; [apply Z.div_pos; lia|apply Z.div_lt_upper_bound; lia].
Qed.

Lemma of_le_le_bytes k : forall n, 0 <= n < 256 ^ Z.of_nat k -> of_le (le_bytes k n) = n.
Proof.
  induction k; intros n H.
  - cbn in *. lia.
  - cbn [le_bytes of_le]. rewrite IHk.
    + pose proof (Z.div_mod n 256 ltac:(lia)). lia.
    + rewrite Nat2Z.inj_succ, Z.pow_succ_r in H by lia.
      split; [apply Z.div_pos; lia|apply Z.div_lt_upper_bound; lia].
Qed.

Lemma of_le64s_le64 n : - 2 ^ 63 <= n < 2 ^ 63 -> of_le64s (le64 n) = n.
Proof.
  intro H. unfold of_le64s, le64.
  rewrite of_le_le_bytes.
  2:{ change (256 ^ Z.of_nat 8) with (2 ^ 64). apply Z.mod_pos_bound. lia. }
  destruct (Z_lt_dec n 0).
  - replace (n mod 2 ^ 64) with (n + 2 ^ 64).
    + destruct (n + 2 ^ 64 <? 2 ^ 63) eqn:E; [apply Z.ltb_lt in E; lia|lia].
    + apply Z.mod_unique with (q := -1); [left; lia | lia].
  - rewrite Z.mod_small by lia.
    destruct (n <? 2 ^ 63) eqn:E; [lia|apply Z.ltb_ge in E; lia].
Qed.

Lemma key_eqb_eq a : forall b, key_eqb a b = true <-> a = b.
Proof.
  induction a; intros [|y s]; cbn; split; intro H; try discriminate; auto.
  - apply Bool.andb_true_iff in H as [H1 H2]. apply Z.eqb_eq in H1. apply IHa in H2. congruence.
  - injection H as <- <-. rewrite Z.eqb_refl. cbn. apply IHa. auto.
Qed.

Lemma key_eqb_refl a : key_eqb a a = true.
Proof. apply key_eqb_eq. auto. Qed.

Definition header_wf (h : header) : Prop :=
  length (h_executor h) = 32%nat /\ length (h_program h) = 32%nat /\
  length (h_rent_receiver h) = 32%nat /\ length (h_approver h) = 32%nat /\
  0 <= h_num_accounts h < 65536 /\ 0 <= h_data_len h < 65536 /\
  - 2 ^ 63 <= h_approved_at h < 2 ^ 63.

Lemma length_encode_header h : header_wf h -> length (encode_header h) = HEADER_LEN.
Proof.
  intros (H1 & H2 & H3 & H4 & _). unfold encode_header, HEADER_LEN.
  rewrite !app_length, !length_zeros, length_le64, !length_le16, H1, H2, H3, H4. reflexivity.
Qed.

Lemma decode_encode_header h : header_wf h -> decode_header (encode_header h) = h.
Proof.
  intros (H1 & H2 & H3 & H4 & H5 & H6 & H7). unfold decode_header, encode_header.
  repeat rewrite take_app by (assumption || apply length_zeros || apply length_le64 || reflexivity).
  cbn [nth]. rewrite of_le64s_le64, !of_le16_le16 by auto. destruct h; reflexivity.
Qed.

Lemma testbit_flags s w : Z.testbit (flags_byte s w) 0 = s /\ Z.testbit (flags_byte s w) 1 = w.
Proof. destruct s, w; cbn; auto. Qed.

Definition keys_wf (accts : list (list Z * bool)) : Prop := Forall (fun a => length (fst a) = 32%nat) accts.

Lemma init_accounts_cons wallet signers idx k w r ab :
  init_accounts wallet signers idx ((k, w) :: r) = Ok ab ->
  (existsb (Z.eqb idx) signers = true -> key_eqb wallet k = true) /\
  exists rest, init_accounts wallet signers (idx + 1) r = Ok rest /\
               ab = flags_byte (existsb (Z.eqb idx) signers) w :: k ++ rest.
Proof.
  cbn [init_accounts]. intro H. destruct (existsb (Z.eqb idx) signers); cbn [andb] in H.
  - destruct (key_eqb wallet k); cbn [negb] in H; [|discriminate].
    apply rbind_ok in H as (rest & E & [= <-]). eauto.
  - apply rbind_ok in H as (rest & E & [= <-]). split; [discriminate|eauto].
Qed.

Lemma init_accounts_length wallet signers : forall accts idx ab,
  keys_wf accts -> init_accounts wallet signers idx accts = Ok ab ->
  length ab = (ACCOUNT_LEN * length accts)%nat.
Proof.
  induction accts as [|[k w] r IH]; intros idx ab Hk H; [injection H as <-; reflexivity|].
  apply init_accounts_cons in H as (_ & rest & E & ->). inversion Hk as [|? ? H2 H3]; subst. cbn in H2.
  cbn [length]. rewrite app_length, (IH _ _ H3 E), H2. unfold ACCOUNT_LEN. lia.
Qed.

Lemma firstn_32 (k X : list Z) : length k = 32%nat -> firstn 32 (k ++ X) = k.
Proof.
  intro H. rewrite firstn_app, H, Nat.sub_diag, firstn_all2 by lia. cbn. apply app_nil_r.
Qed.

Lemma skipn_33 f (k X : list Z) : length k = 32%nat -> skipn ACCOUNT_LEN (f :: k ++ X) = X.
Proof.
  intro H. change (f :: k ++ X) with ((f :: k) ++ X). rewrite skipn_app.
  rewrite skipn_all2 by (cbn [length]; unfold ACCOUNT_LEN; lia).
  cbn [length]. rewrite H. reflexivity.
Qed.

Lemma dec_init_accounts wallet signers : forall accts idx ab rest,
  keys_wf accts -> init_accounts wallet signers idx accts = Ok ab ->
  dec_accounts (length accts) (ab ++ rest) = wanted_accounts signers idx accts.
Proof.
  induction accts as [|[k w] r IH]; intros idx ab rest Hk H; [reflexivity|].
  apply init_accounts_cons in H as (_ & ab' & E & ->). inversion Hk as [|? ? H2 H3]; subst. cbn in H2.
  cbn [length dec_accounts wanted_accounts app hd tl].
  destruct (testbit_flags (existsb (Z.eqb idx) signers) w) as [-> ->].
  rewrite <- app_assoc. rewrite (firstn_32 k _ H2), (skipn_33 _ k _ H2).
  f_equal. apply IH; auto.
Qed.

Lemma init_accounts_signers wallet signers : forall accts idx ab,
  init_accounts wallet signers idx accts = Ok ab ->
  Forall (fun m => m_signer m = true -> m_key m = wallet) (wanted_accounts signers idx accts).
Proof.
  induction accts as [|[k w] r IH]; intros idx ab H; [constructor|].
  apply init_accounts_cons in H as (Hs & rest & E & _).
  constructor; [|exact (IH _ _ E)]. cbn. intro Hm. symmetry. apply key_eqb_eq, Hs, Hm.
Qed.

(* some position idx + i that [signers] lists holds a key other than the wallet (the failure test of
   init_accounts, as a boolean) *)
Fixpoint bad_signer (wallet signers : list Z) (idx : Z) (accts : list (list Z * bool)) : bool :=
  match accts with
  | [] => false
  | (k, _) :: r => (existsb (Z.eqb idx) signers && negb (key_eqb wallet k)) || bad_signer wallet signers (idx + 1) r
  end.

Lemma rbind_fails_iff {A B} (a : res A) (f : A -> res B) :
  (forall x, exists y, f x = Ok y) -> (exists e, rbind a f = Err e) <-> (exists e, a = Err e).
Proof.
  intros T. split; intros [e H]; [|exists e; apply rbind_err; auto].
  apply rbind_err in H as [H|(x & _ & H)]; [eauto|]. destruct (T x) as [y E]. congruence.
Qed.

Lemma init_accounts_fails_iff wallet signers : forall accts idx,
  (exists e, init_accounts wallet signers idx accts = Err e) <-> bad_signer wallet signers idx accts = true.
Proof.
  induction accts as [|[k w] r IH]; intros idx; cbn.
  - split; [intros [e H]; discriminate|discriminate].
  - destruct (existsb (Z.eqb idx) signers && negb (key_eqb wallet k)); cbn.
    + split; eauto.
    + rewrite rbind_fails_iff by eauto. apply IH.
Qed.

Lemma len_app {A} (a b : list A) : len (a ++ b) = len a + len b.
Proof. unfold len. rewrite app_length. lia. Qed.

Lemma load_instruction_image disc h data ab :
  length disc = 8%nat -> header_wf h ->
  h_data_len h = len data -> len ab = h_num_accounts h * Z.of_nat ACCOUNT_LEN ->
  load_instruction (disc ++ encode_header h ++ data ++ ab) = Ok (h, data, ab).
Proof.
  intros Hd Hw Hdl Hna. unfold load_instruction.
  pose proof (length_encode_header h Hw) as Hl.
  assert (Hlen : len (disc ++ encode_header h ++ data ++ ab) = 8 + Z.of_nat HEADER_LEN + len data + len ab).
  { rewrite !len_app. unfold len. rewrite Hd, Hl. lia. }
  destruct (Z.ltb_spec (len (disc ++ encode_header h ++ data ++ ab)) (8 + Z.of_nat HEADER_LEN)); [unfold len in *; lia|].
  rewrite (take_app disc _ 8 Hd), (take_app (encode_header h) _ HEADER_LEN Hl), (decode_encode_header h Hw).
  destruct (Z.ltb_spec (len (data ++ ab)) (h_data_len h)) as [E2|]; [rewrite len_app in E2; unfold len in *; lia|].
  rewrite (take_app data ab (Z.to_nat (h_data_len h))) by (rewrite Hdl; unfold len; lia).
  destruct (Z.ltb_spec (len ab) (h_num_accounts h * Z.of_nat ACCOUNT_LEN)); [lia|reflexivity].
Qed.

Lemma load_and_init_ok disc executor bump rr program data accts signers wallet bytes :
  load_and_init disc executor bump rr program data accts signers wallet = Ok bytes ->
  exists ab, init_accounts wallet signers 0 accts = Ok ab /\ len data <= 65535 /\ len accts <= 65535 /\
    bytes = disc ++ encode_header (mkHeader 0 0 bump 0 executor program (len accts) (len data) rr (zeros 32))
                 ++ data ++ ab.
Proof.
  unfold load_and_init. intro H.
  destruct ((65535 <? len data) || (65535 <? len accts)) eqn:El; [discriminate|].
  apply Bool.orb_false_iff in El as [El1 El2]. apply Z.ltb_ge in El1, El2.
  apply rbind_ok in H as (ab & Ei & [= <-]). exists ab. auto.
Qed.

Theorem roundtrip disc executor bump rr program data accts signers wallet bytes :
  length disc = 8%nat -> length executor = 32%nat -> length rr = 32%nat -> length program = 32%nat ->
  keys_wf accts ->
  load_and_init disc executor bump rr program data accts signers wallet = Ok bytes ->
  exists x,
    load_instruction bytes = Ok x /\
    to_instruction false wallet x = mkInstr program (wanted_accounts signers 0 accts) data /\
    Forall (fun m => m_signer m = true -> m_key m = wallet) (i_accounts (to_instruction false wallet x)).
Proof.
  intros Hd He Hr Hp Hk H.
  apply load_and_init_ok in H as (a & Ei & El1 & El2 & ->).
  set (h := mkHeader 0 0 bump 0 executor program (len accts) (len data) rr (zeros 32)).
  assert (Hw : header_wf h).
  { unfold header_wf, h. cbn. unfold len in *. repeat split; auto; lia. }
  pose proof (init_accounts_length _ _ _ _ _ Hk Ei) as Hal.
  assert (Eto : to_instruction false wallet (h, data, a) = mkInstr program (wanted_accounts signers 0 accts) data).
  { unfold to_instruction, h. cbn [h_num_accounts h_program]. unfold len. rewrite Nat2Z.id.
    rewrite <- (app_nil_r a). rewrite (dec_init_accounts _ _ _ _ _ [] Hk Ei). reflexivity. }
  exists (h, data, a). split; [|split; [exact Eto|rewrite Eto; exact (init_accounts_signers _ _ _ _ _ Ei)]].
  apply load_instruction_image; auto. unfold h, len. cbn [h_num_accounts]. rewrite Hal. unfold ACCOUNT_LEN. lia.
Qed.

Theorem load_and_init_rejects disc executor bump rr program data accts signers wallet :
  len data <= 65535 -> len accts <= 65535 ->
  ((exists e, load_and_init disc executor bump rr program data accts signers wallet = Err e)
   <-> bad_signer wallet signers 0 accts = true).
Proof.
  intros H1 H2. unfold load_and_init.
  destruct ((65535 <? len data) || (65535 <? len accts)) eqn:El.
  { apply Bool.orb_true_iff in El as [El|El]; apply Z.ltb_lt in El; lia. }
  rewrite rbind_fails_iff by eauto. apply init_accounts_fails_iff.
Qed.

Lemma mark_wallet_spec wallet m :
  m_key (mark_wallet wallet m) = m_key m /\ m_writable (mark_wallet wallet m) = m_writable m /\
  m_signer (mark_wallet wallet m) = (m_signer m || key_eqb (m_key m) wallet).
Proof.
  unfold mark_wallet. destruct (key_eqb (m_key m) wallet); cbn; repeat split; auto.
  - symmetry. apply Bool.orb_true_r.
  - symmetry. apply Bool.orb_false_r.
Qed.

Theorem approve_keeps_instruction disc h data ab approver now h' wallet mark :
  length disc = 8%nat -> header_wf h -> length approver = 32%nat -> - 2 ^ 63 <= now < 2 ^ 63 ->
  h_data_len h = len data -> len ab = h_num_accounts h * Z.of_nat ACCOUNT_LEN ->
  approve_header h approver now = Ok h' ->
  load_instruction (disc ++ encode_header h' ++ data ++ ab) = Ok (h', data, ab) /\
  to_instruction mark wallet (h', data, ab) = to_instruction mark wallet (h, data, ab) /\
  Z.testbit (h_flags h') 0 = true /\ h_approved_at h' = now /\ h_approver h' = approver /\
  Z.testbit (h_flags h) 0 = false /\ h_approver h = zeros 32 /\ approver <> zeros 32.
Proof.
  intros Hd Hw Ha Hn Hdl Hna H. unfold approve_header in H.
  destruct (Z.testbit (h_flags h) 0) eqn:Ef; [discriminate|].
  destruct (key_eqb (h_approver h) (zeros 32)) eqn:Ek; cbn [negb] in H; [|discriminate].
  destruct (key_eqb approver (zeros 32)) eqn:Ea; [discriminate|]. injection H as <-.
  apply key_eqb_eq in Ek.
  destruct Hw as (W1 & W2 & W3 & W4 & W5 & W6 & W7).
  split; [|split].
  - apply load_instruction_image; auto. unfold header_wf. cbn. repeat split; auto; lia.
  - reflexivity.
  - cbn [h_flags h_approved_at h_approver].
    split. { rewrite Z.lor_spec. apply Bool.orb_true_r. }
    split; [reflexivity|]. split; [reflexivity|]. split; [reflexivity|]. split; [exact Ek|].
    intro Hc. rewrite Hc, key_eqb_refl in Ea. discriminate.
Qed.
