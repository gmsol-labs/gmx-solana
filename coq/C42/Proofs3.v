(* C42 — Bellman-Ford as implemented: the (distances, predecessors) pair it returns. *)
From GV Require Import lib.Base lib.Checked C42.Model C42.Proofs1 C42.Proofs2.
Open Scope Z_scope.

Section BFState.
  Variable g : graph.
  Variable s : Z.
  Variable k : Z.                       (* max_steps *)
  Let n := Z.of_nat (length (g_toks g)).
  Hypothesis Hs : 0 <= s < n.
  Hypothesis Hwf : forall e, In e (g_edges g) -> 0 <= e_src e < n /\ 0 <= e_dst e < n.

  Definition lenst (st : state) : Prop := lend g (dist st) /\ Z.of_nat (length (pred st)) = n.

  Definition no_pred (st : state) : Prop := forall j, getd (pred st) j = None.

  (* what makes p an acceptable predecessor entry for node j at distance d *)
  Definition pred_ok (st : state) (j d : Z) (p : option (Z * Z)) : Prop :=
    match p with
    | None => j = s
    | Some (i, m) => exists e w a, In e (g_edges g) /\ e_src e = i /\ e_dst e = j /\ e_mkt e = m /\
                                   e_cost e = Some w /\ getd (dist st) i = Some a /\ a + w <= d
    end.

  Definition set_node (st : state) (j d : Z) (p : option (Z * Z)) : state :=
    mkState (setd (dist st) j (Some d)) (setd (pred st) j p).

  Lemma set_node_lenst st j d p : lenst st -> lenst (set_node st j d p).
  Proof. intros [H1 H2]. split; cbn; [unfold lend|]; rewrite setd_length; assumption. Qed.

  Lemma set_node_dist st j d p x : lenst st -> 0 <= j < n ->
    getd (dist (set_node st j d p)) x = if x =? j then Some d else getd (dist st) x.
  Proof. intros [H _] Hj. apply getd_setd. unfold lend in H. rewrite H. exact Hj. Qed.

  Lemma set_node_pred st j d p x : lenst st -> 0 <= j < n ->
    getd (pred (set_node st j d p)) x = if x =? j then p else getd (pred st) x.
  Proof. intros [_ H] Hj. apply getd_setd. rewrite H. exact Hj. Qed.

  Lemma set_node_dle st j d p : lenst st -> 0 <= j < n ->
    (forall b, getd (dist st) j = Some b -> d < b) -> dle (dist st) (dist (set_node st j d p)).
  Proof.
    intros [H _] Hj Hlt. unfold lend in H. apply dle_setd; [rewrite H; exact Hj|].
    intros b Hb. specialize (Hlt b Hb). lia.
  Qed.

  (* Both searches write a node only with a distance strictly below its entry, so no distance ever
     rises and the inequalities of the other predecessor entries survive (also that of a self-loop). *)
  Lemma set_node_good st j d p : lenst st -> 0 <= j < n -> good g s st ->
    (forall b, getd (dist st) j = Some b -> d < b) -> pred_ok st j d p ->
    good g s (set_node st j d p).
  Proof.
    intros Hl Hj [Hpe Hrp] Hlt Hp. pose proof (set_node_dle st j d p Hl Hj Hlt) as Hdle.
    split.
    - intros j' i m Hj'. rewrite set_node_pred in Hj' by assumption.
      destruct (Z.eqb_spec j' j) as [->|Hne].
      + subst p. destruct Hp as [e [w [a [Hin [Hsrc [Hdst [Hm [Hw [Ha Haw]]]]]]]]].
        destruct (Hdle _ _ Ha) as [a' [Ha' Hle]].
        exists e, w, a', d. rewrite (set_node_dist st j d _ j), Z.eqb_refl by assumption.
        repeat split; auto. lia.
      + destruct (Hpe _ _ _ Hj') as [e [w [a [b [Hin [Hsrc [Hdst [Hm [Hw [Ha [Hb Hab]]]]]]]]]]].
        destruct (Hdle _ _ Ha) as [a' [Ha' Hle]].
        exists e, w, a', b. rewrite (set_node_dist st j d p j') by assumption.
        replace (j' =? j) with false by lia. repeat split; auto. lia.
    - intros j' a Hj'. rewrite set_node_dist in Hj' by assumption. rewrite set_node_pred by assumption.
      destruct (Z.eqb_spec j' j) as [->|Hne].
      + destruct p as [[i m]|]; [right; discriminate | left; exact Hp].
      + eapply Hrp; eassumption.
  Qed.

  Lemma relax_lenst steps st u e : lenst st -> lenst (fst (relax k steps (st, u) e)).
  Proof.
    intros [H1 H2]. unfold relax. destruct (relaxable (dist st) e); [|split; assumption].
    unfold lenst. cbn [fst dist pred]. split.
    - unfold lend in *. rewrite setd_length. exact H1.
    - destruct (steps <=? k); [rewrite setd_length|]; exact H2.
  Qed.

  Lemma relax_pred_late steps st u e : k < steps -> pred (fst (relax k steps (st, u) e)) = pred st.
  Proof.
    intros H. unfold relax. destruct (relaxable (dist st) e); [|reflexivity]. cbn [fst pred].
    rewrite (proj2 (Z.leb_gt steps k) H). reflexivity.
  Qed.

  Lemma relax_good steps st u e : steps <= k -> lenst st -> In e (g_edges g) ->
    good g s st -> good g s (fst (relax k steps (st, u) e)).
  Proof.
    intros Hk Hl Hin Hg. unfold relax.
    destruct (relaxable (dist st) e) as [nd|] eqn:E; [|exact Hg].
    destruct (relaxable_some _ _ _ E) as [w [di [Hw [Hd [Hnd Hlt]]]]].
    replace (steps <=? k) with true by lia. cbn [fst].
    apply set_node_good; [exact Hl | apply Hwf; exact Hin | exact Hg | exact Hlt |].
    exists e, w, di. repeat split; auto. lia.
  Qed.

  Lemma round_lenst steps st : lenst st -> lenst (fst (bf_round g k steps st)).
  Proof.
    intros H. apply (fold_left_inv (relax k steps) (fun acc => lenst (fst acc))); [|exact H].
    intros [st0 u] e _. apply relax_lenst.
  Qed.

  Lemma round_pred_late steps st : k < steps -> pred (fst (bf_round g k steps st)) = pred st.
  Proof.
    intros H. apply (fold_left_inv (relax k steps) (fun acc => pred (fst acc) = pred st)); [|reflexivity].
    intros [st0 u] e _ E. rewrite relax_pred_late; assumption.
  Qed.

  Lemma round_good steps st : steps <= k -> lenst st -> good g s st -> good g s (fst (bf_round g k steps st)).
  Proof.
    intros Hk Hl Hg.
    apply (fold_left_inv (relax k steps) (fun acc => lenst (fst acc) /\ good g s (fst acc))); [|split; assumption].
    intros [st0 u] e Hin [A B]. split; [apply relax_lenst; exact A|].
    apply relax_good; auto. apply (edge_order_incl g Hwf). exact Hin.
  Qed.

  (* While no distances are cached, rounds are within max_steps and the pair is good (with
     max_steps = 0 no predecessor is ever written).  Distances are cached at the end of round
     max_steps: with the predecessors, frozen from then on, they form a good pair, and later
     rounds only lower the live distances below them. *)
  Definition pred_inv (steps : Z) (st : state) (cached : option (list (option Z))) : Prop :=
    match cached with
    | None => (steps <= k /\ good g s st) \/ (k < 1 /\ no_pred st)
    | Some c => k < steps /\ good g s (mkState c (pred st)) /\ opt g s k c /\
                dle c (dist st) /\ dle (d0 g s) c
    end.

  Definition loop_inv (steps : Z) (st : state) (cached : option (list (option Z))) : Prop :=
    lenst st /\ dle (d0 g s) (dist st) /\ real g s (dist st) /\ opt g s (steps - 1) (dist st) /\
    pred_inv steps st cached.

  Lemma round_inv steps st cached : 1 <= steps -> loop_inv steps st cached ->
    opt g s steps (dist (fst (bf_round g k steps st))) /\ loop_inv steps (fst (bf_round g k steps st)) cached.
  Proof.
    intros Hst [Hl [Hd [Hr [Ho Hm]]]].
    destruct (fold_relax_d g s Hwf (edge_order g) (dist st) (edge_order_incl g Hwf) (proj1 Hl)) as [_ [Hdd Hrr]].
    pose proof (round_opt g s Hwf (steps - 1) (dist st) ltac:(lia) (proj1 Hl) Ho) as Ho'.
    rewrite <- (fold_relax_dist k steps _ st false) in Hdd, Hrr, Ho'. replace (steps - 1 + 1) with steps in Ho' by lia.
    pose proof (round_pred_late steps st) as Hpl.
    split; [exact Ho'|]. split; [apply round_lenst; exact Hl|].
    split; [eapply dle_trans; eassumption|]. split; [auto|].
    split; [apply (opt_le g s steps); [exact Ho' | lia]|].
    destruct cached as [c|].
    - destruct Hm as [A [B [C [D E]]]]. cbn. rewrite (Hpl A).
      split; [exact A|]. split; [exact B|]. split; [exact C|]. split; [eapply dle_trans; eassumption | exact E].
    - destruct Hm as [[A B] | [A B]]; [left; split; [exact A | apply round_good; assumption] | right].
      split; [exact A|]. intros j. rewrite Hpl by lia. apply B.
  Qed.

  Lemma bf_loop_inv fuel : forall steps st cached, 1 <= steps -> loop_inv steps st cached ->
    exists steps', loop_inv steps' (fst (bf_loop fuel g k steps st cached)) (snd (bf_loop fuel g k steps st cached)).
  Proof.
    induction fuel as [|f IH]; intros steps st cached Hst Hinv; [exists steps; exact Hinv|].
    cbn [bf_loop]. generalize (round_inv steps st cached Hst Hinv).
    destruct (bf_round g k steps st) as [st' upd]. cbn [fst]. intros [Ho' Hinv'].
    destruct upd; cbn [negb fst snd]; [|exists steps; exact Hinv'].
    destruct Hinv' as [Hl' [Hd' [Hr' [_ Hm']]]].
    apply IH; [lia|]. split; [exact Hl'|]. split; [exact Hd'|]. split; [exact Hr'|].
    split; [replace (steps + 1 - 1) with steps by lia; exact Ho'|].
    destruct (Z.eqb_spec steps k) as [Ek|Ek].
    - (* steps = max_steps: this round's distances are the cached ones *)
      destruct cached as [c|]; [destruct Hm'; lia|].
      destruct Hm' as [[_ B] | [A _]]; [|lia].
      split; [lia|]. split; [destruct st'; exact B|]. split; [rewrite <- Ek; exact Ho'|].
      split; [apply dle_refl | exact Hd'].
    - destruct cached as [c|].
      + destruct Hm' as [A B]. split; [lia | exact B].
      + destruct Hm' as [[A B] | AB]; [left; split; [lia | exact B] | right; exact AB].
  Qed.

  Lemma init_lenst : lenst (init_state g s).
  Proof. split; cbn; [unfold lend|]; rewrite ?setd_length, repeat_length; reflexivity. Qed.

  Lemma init_good : good g s (init_state g s).
  Proof.
    split.
    - intros j i m H. cbn in H. rewrite getd_repeat_none in H. discriminate.
    - intros j a H. change (dist (init_state g s)) with (d0 g s) in H. rewrite (d0_get g s Hs) in H.
      destruct (Z.eqb_spec j s); [auto | discriminate].
  Qed.

  Lemma init_inv : loop_inv 1 (init_state g s) None.
  Proof.
    split; [apply init_lenst|]. split; [apply dle_refl|]. split; [apply (d0_real g s Hs)|].
    split; [apply (d0_opt0 g s Hs)|].
    destruct (Z_le_gt_dec 1 k); [left; split; [lia | apply init_good] | right; split; [lia|]].
    intros j. apply getd_repeat_none.
  Qed.

  Theorem bellman_ford_result source res :
    index_of source (g_toks g) = Some s ->
    bellman_ford g k source = Ok res ->
    (good g s res \/ (k < 1 /\ no_pred res)) /\ getd (dist res) s = Some 0 /\ opt g s k (dist res).
  Proof.
    intros Hix H. unfold bellman_ford in H. rewrite Hix in H.
    destruct (bf_loop_inv (Z.to_nat (node_count g - 1)) 1 _ None ltac:(lia) init_inv)
      as [steps [Hl [Hd [Hr [_ Hm]]]]].
    destruct (bf_loop (Z.to_nat (node_count g - 1)) g k 1 (init_state g s) None) as [st cached].
    cbn [fst snd] in *.
    destruct (has_negative_cycle g (dist st)) eqn:Enc; [discriminate|].
    inversion H; subst res. clear H.
    pose proof (no_negative_cycle_feasible g Hwf _ Enc) as Hf.
    destruct cached as [c|]; cbn [dist].
    - destruct Hm as [_ [B [C [D E]]]]. split; [left; exact B|]. split; [|exact C].
      exact (source_zero g s Hs c _ E D Hr Hf).
    - split; [|split; [exact (source_zero g s Hs _ _ Hd (dle_refl _) Hr Hf) | apply (feasible_opt g s Hs); assumption]].
      destruct Hm as [[_ A] | A]; [left; destruct st; exact A | right; exact A].
  Qed.
End BFState.
