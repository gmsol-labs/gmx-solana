(* C10 — the position price impact of going from one open-interest state to another and back never nets
   more than one (USD) unit: same-side round trips <= 1, cross-over round trips <= 0.  This is about the
   model of PoolDelta::price_impact with both prices = 1 (PS/Actions.v: pool_delta_impact) and the
   fixed-point power of C01 (whole exponents). *)
From GV Require Import lib.Base lib.DivLemmas C01.Model C01.Proofs PS.Model PS.Lemmas PS.Actions.
Open Scope Z_scope.

Section P.
  Variable w : Z.
  Hypothesis Hw : 1 <= w.
  Variable unit : Z.
  Hypothesis Hunit : 0 < unit.

  Notation aef := (apply_exponent_factor w unit).

  (* PS.Actions.apply_factors_r only renames the errors of apply_factors: floor(x^e * f / unit) *)
  Lemma apply_factors_r_val v f e g : 0 <= f -> apply_factors_r w unit v f e = Ok g ->
    exists P, aef v e = Some P /\ 0 <= P /\ g = P * f / unit.
  Proof.
    intros Hf H. apply (apply_factors_ok w Hw unit Hunit); [exact Hf|]. unfold apply_factors_r in H.
    destruct (apply_factors w unit v f e) as [x|e']; [exact H|]. destruct e' as [|[]|]; discriminate.
  Qed.

  Definition ip_ok (ip : impact_params) : Prop := 0 <= ip_pos ip /\ 0 <= ip_neg ip /\ 0 <= ip_exp ip.

  Lemma adjusted_le ip : ip_ok ip -> 0 <= fst (adjusted_factors ip) <= snd (adjusted_factors ip).
  Proof. intros (A & B & _). unfold adjusted_factors. destruct (ip_neg ip <? ip_pos ip) eqn:E; cbn; lia. Qed.

  Lemma signed_delta_val a b pos r : signed_delta w a b pos = Ok r ->
    r = if pos then Z.abs (a - b) else - Z.abs (a - b).
  Proof.
    intros H. unfold signed_delta in H. bind_ok H as d Ed. apply rsigned_ok in Ed. destruct Ed as [_ ->].
    destruct pos; [injection H as <-; reflexivity|]. ok_inj H. apply sneg_some in H. lia.
  Qed.

  (* with A >= B the positive leg, at the smaller factor, gains at most one unit more than the negative leg loses *)
  Lemma floor_round_trip A B f1 f2 : 0 <= B <= A -> 0 <= f1 <= f2 ->
    Z.abs (A * f1 / unit - B * f1 / unit) - Z.abs (B * f2 / unit - A * f2 / unit) <= 1.
  Proof.
    intros HAB Hf. pose proof (div_diff_mono A B f1 f2 unit Hunit HAB Hf) as H.
    assert (H1 : B * f1 / unit <= A * f1 / unit) by (apply div_mono_num; [exact Hunit|nia]).
    assert (H2 : B * f2 / unit <= A * f2 / unit) by (apply div_mono_num; [exact Hunit|nia]).
    revert H H1 H2. generalize (A * f1 / unit) (B * f1 / unit) (A * f2 / unit) (B * f2 / unit). clear. lia.
  Qed.

  Lemma same_side_val i n ip r : ip_ok ip -> 0 <= i -> 0 <= n ->
    same_side_impact w unit i n ip = Ok r ->
    exists Pi Pn, aef i (ip_exp ip) = Some Pi /\ aef n (ip_exp ip) = Some Pn /\ 0 <= Pi /\ 0 <= Pn /\
      r = if n <? i then Z.abs (Pi * fst (adjusted_factors ip) / unit - Pn * fst (adjusted_factors ip) / unit)
          else - Z.abs (Pi * snd (adjusted_factors ip) / unit - Pn * snd (adjusted_factors ip) / unit).
  Proof.
    intros Hip Hi Hn H. pose proof (adjusted_le ip Hip) as Hf. destruct Hip as (_ & _ & He).
    unfold same_side_impact in H. cbv zeta in H.
    assert (Hf0 : 0 <= if n <? i then fst (adjusted_factors ip) else snd (adjusted_factors ip)) by (destruct (n <? i); lia).
    bind_ok H as a A1. apply apply_factors_r_val in A1; [|assumption]. destruct A1 as (Pi & EPi & NPi & ->).
    bind_ok H as b B1. apply apply_factors_r_val in B1; [|assumption]. destruct B1 as (Pn & EPn & NPn & ->).
    apply signed_delta_val in H.
    exists Pi, Pn. repeat (split; [assumption|]). rewrite H. destruct (n <? i); reflexivity.
  Qed.

  Lemma same_side_round_trip i n ip r1 r2 : ip_ok ip -> 0 <= i -> 0 <= n ->
    same_side_impact w unit i n ip = Ok r1 -> same_side_impact w unit n i ip = Ok r2 -> r1 + r2 <= 1.
  Proof.
    intros Hip Hi Hn H1 H2. pose proof (adjusted_le ip Hip) as Hf.
    apply same_side_val in H1; [|assumption..]. destruct H1 as (Pi & Pn & EPi & EPn & NPi & NPn & ->).
    apply same_side_val in H2; [|assumption..]. destruct H2 as (Pn' & Pi' & EPn' & EPi' & _ & _ & ->).
    rewrite EPn in EPn'. injection EPn' as <-. rewrite EPi in EPi'. injection EPi' as <-.
    destruct (Z.lt_trichotomy n i) as [L|[E|L]].
    - rewrite (proj2 (Z.ltb_lt n i) L), (proj2 (Z.ltb_ge i n)) by lia.
      apply floor_round_trip; [|exact Hf]. split; [exact NPn|]. exact (apply_exponent_factor_mono w Hw unit Hunit n i _ _ _ (conj Hn (Z.lt_le_incl _ _ L)) EPn EPi).
    - subst n. rewrite Z.ltb_irrefl. rewrite EPi in EPn. injection EPn as <-. rewrite Z.sub_diag. cbn. lia.
    - rewrite (proj2 (Z.ltb_lt i n) L), (proj2 (Z.ltb_ge n i)) by lia. rewrite Z.add_comm.
      apply floor_round_trip; [|exact Hf]. split; [exact NPi|]. exact (apply_exponent_factor_mono w Hw unit Hunit i n _ _ _ (conj Hi (Z.lt_le_incl _ _ L)) EPi EPn).
  Qed.

  (* crossing over, the impact is the plain difference: positive factor on the old imbalance, negative on the new *)
  Lemma cross_val i n ip r : ip_ok ip -> 0 <= i -> 0 <= n ->
    cross_impact w unit i n ip = Ok r ->
    exists Pi Pn, aef i (ip_exp ip) = Some Pi /\ aef n (ip_exp ip) = Some Pn /\ 0 <= Pi /\ 0 <= Pn /\
      r = Pi * fst (adjusted_factors ip) / unit - Pn * snd (adjusted_factors ip) / unit.
  Proof.
    intros Hip Hi Hn H. pose proof (adjusted_le ip Hip) as Hf. destruct Hip as (_ & _ & He).
    unfold cross_impact in H. cbv zeta in H.
    bind_ok H as a A1. apply apply_factors_r_val in A1; [|lia]. destruct A1 as (Pi & EPi & NPi & ->).
    bind_ok H as b B1. apply apply_factors_r_val in B1; [|lia]. destruct B1 as (Pn & EPn & NPn & ->).
    apply signed_delta_val in H.
    exists Pi, Pn. repeat (split; [assumption|]). revert H.
    generalize (Pi * fst (adjusted_factors ip) / unit) (Pn * snd (adjusted_factors ip) / unit). clear. intros a b ->.
    destruct (Z.ltb_spec b a); lia.
  Qed.

  Lemma cross_round_trip i n ip r1 r2 : ip_ok ip -> 0 <= i -> 0 <= n ->
    cross_impact w unit i n ip = Ok r1 -> cross_impact w unit n i ip = Ok r2 -> r1 + r2 <= 0.
  Proof.
    intros Hip Hi Hn H1 H2. pose proof (adjusted_le ip Hip) as Hf.
    apply cross_val in H1; [|assumption..]. destruct H1 as (Pi & Pn & EPi & EPn & NPi & NPn & ->).
    apply cross_val in H2; [|assumption..]. destruct H2 as (Pn' & Pi' & EPn' & EPi' & _ & _ & ->).
    rewrite EPn in EPn'. injection EPn' as <-. rewrite EPi in EPi'. injection EPi' as <-.
    assert (A : Pi * fst (adjusted_factors ip) / unit <= Pi * snd (adjusted_factors ip) / unit) by (apply div_mono_num; [exact Hunit|nia]).
    assert (B : Pn * fst (adjusted_factors ip) / unit <= Pn * snd (adjusted_factors ip) / unit) by (apply div_mono_num; [exact Hunit|nia]).
    revert A B. generalize (Pi * fst (adjusted_factors ip) / unit) (Pi * snd (adjusted_factors ip) / unit)
                           (Pn * fst (adjusted_factors ip) / unit) (Pn * snd (adjusted_factors ip) / unit). clear. lia.
  Qed.

  Theorem impact_round_trip cl cs dl ds ip i1 c1 i2 c2 :
    ip_ok ip -> 0 <= cl < 2 ^ w -> 0 <= cs < 2 ^ w ->
    pool_delta_impact w unit cl cs dl ds ip = Ok (i1, c1) ->
    pool_delta_impact w unit (cl + dl) (cs + ds) (- dl) (- ds) ip = Ok (i2, c2) ->
    i1 + i2 <= 1.
  Proof.
    intros Hip Hcl Hcs H1 H2. unfold pool_delta_impact in H1, H2.
    bind_ok H1 as nl E1. apply add_with_signed_exact in E1; [|lia..]. destruct E1 as [-> R1].
    bind_ok H1 as ns E2. apply add_with_signed_exact in E2; [|lia..]. destruct E2 as [-> R2].
    bind_ok H2 as nl' E3. apply add_with_signed_exact in E3; [|lia..]. destruct E3 as [-> R3].
    bind_ok H2 as ns' E4. apply add_with_signed_exact in E4; [|lia..]. destruct E4 as [-> R4].
    replace (cl + dl + - dl) with cl in H2 by lia. replace (cs + ds + - ds) with cs in H2 by lia.
    bind_ok H1 as v1 F1. injection H1 as <- _. bind_ok H2 as v2 F2. injection H2 as <- _.
    replace (Bool.eqb (cl + dl <=? cs + ds) (cl <=? cs)) with (Bool.eqb (cl <=? cs) (cl + dl <=? cs + ds)) in F2
      by (destruct (cl <=? cs), (cl + dl <=? cs + ds); reflexivity).
    destruct (Bool.eqb (cl <=? cs) (cl + dl <=? cs + ds)).
    - apply (same_side_round_trip _ _ _ _ _ Hip) with (3 := F1) (4 := F2); lia.
    - assert (X : v1 + v2 <= 0) by (apply (cross_round_trip _ _ _ _ _ Hip) with (3 := F1) (4 := F2); lia). lia.
  Qed.
End P.
