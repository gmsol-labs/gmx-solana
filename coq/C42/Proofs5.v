(* C42 — index_of; graphs built from a market list are well formed; no market twice on a walk
   without repeated nodes. *)
From GV Require Import lib.Base lib.Checked C42.Model C42.Proofs1.
Open Scope Z_scope.

Lemma index_of_from_some i x l r : index_of_from i x l = Some r ->
  i <= r /\ nth_error l (Z.to_nat (r - i)) = Some x.
Proof.
  revert i. induction l as [|y l IH]; intros i H; [discriminate|]. cbn in H.
  destruct (Z.eqb_spec x y) as [->|_].
  - inversion H; subst. rewrite Z.sub_diag. split; [lia | reflexivity].
  - apply IH in H. destruct H as [H1 H2]. split; [lia|].
    replace (Z.to_nat (r - i)) with (S (Z.to_nat (r - (i + 1)))) by lia. exact H2.
Qed.

Lemma index_of_from_in i x l : In x l -> exists r, index_of_from i x l = Some r.
Proof.
  revert i. induction l as [|y l IH]; intros i H; [destruct H|]. cbn.
  destruct (x =? y) eqn:E; [eexists; reflexivity|].
  apply Z.eqb_neq in E. destruct H as [H|H]; [congruence | apply IH; exact H].
Qed.

Lemma index_of_some x l r : index_of x l = Some r -> 0 <= r /\ nth_error l (Z.to_nat r) = Some x.
Proof. intros H. apply index_of_from_some in H. rewrite Z.sub_0_r in H. exact H. Qed.

Lemma index_of_range x l r : index_of x l = Some r -> 0 <= r < Z.of_nat (length l).
Proof.
  intros H. apply index_of_some in H. destruct H as [H0 H].
  assert (Z.to_nat r < length l)%nat by (apply nth_error_Some; congruence). lia.
Qed.

Lemma index_of_inj l x y r : index_of x l = Some r -> index_of y l = Some r -> x = y.
Proof. intros Hx Hy. apply index_of_some in Hx, Hy. destruct Hx, Hy. congruence. Qed.

Lemma ix_range toks t : In t toks -> 0 <= ix toks t < Z.of_nat (length toks).
Proof.
  intros H. unfold ix, index_of. destruct (index_of_from_in 0 t toks H) as [r Hr]. rewrite Hr.
  apply (index_of_range t). exact Hr.
Qed.

Lemma add_tok_incl toks t x : In x toks -> In x (add_tok toks t).
Proof. unfold add_tok. destruct (memZ t toks); [auto | intros; apply in_or_app; auto]. Qed.

Lemma add_tok_in toks t : In t (add_tok toks t).
Proof.
  unfold add_tok. destruct (memZ t toks) eqn:E; [apply memZ_in; exact E|].
  apply in_or_app. right. left. reflexivity.
Qed.

Lemma tokens_fold_incl ms : forall toks x, In x toks ->
  In x (fold_left (fun toks (m : market) => match m with (l, s, _, _) => add_tok (add_tok toks l) s end) ms toks).
Proof.
  induction ms as [|[[[l s] cl] cs] ms IH]; intros toks x H; [exact H|]. cbn [fold_left].
  apply IH. apply add_tok_incl. apply add_tok_incl. exact H.
Qed.

Lemma tokens_of_in ms l s cl cs : In (l, s, cl, cs) ms -> In l (tokens_of ms) /\ In s (tokens_of ms).
Proof.
  unfold tokens_of. generalize (@nil Z). induction ms as [|m ms IH]; intros toks H; [destruct H|].
  cbn [fold_left]. destruct H as [H|H].
  - subst m. split; apply tokens_fold_incl; [apply add_tok_incl|]; apply add_tok_in.
  - destruct m as [[[l' s'] cl'] cs']. apply IH. exact H.
Qed.

(* every edge is one of the two directions of the market it names *)
Definition edge_of_market (toks : list Z) (ms : list market) (e : edge) : Prop :=
  exists l s cl cs, nth_error ms (Z.to_nat (e_mkt e)) = Some (l, s, cl, cs) /\ 0 <= e_mkt e /\
    ((e_src e = ix toks l /\ e_dst e = ix toks s /\ e_cost e = cl) \/
     (e_src e = ix toks s /\ e_dst e = ix toks l /\ e_cost e = cs)).

(* [pre]: the markets already passed; the ids handed out are positions in pre ++ ms *)
Lemma edges_from_spec toks ms : forall pre e, In e (edges_from (Z.of_nat (length pre)) toks ms) ->
  edge_of_market toks (pre ++ ms) e.
Proof.
  induction ms as [|[[[l s] cl] cs] ms IH]; intros pre e H; [destruct H|].
  cbn [edges_from] in H. destruct H as [H | [H | H]].
  - subst e. exists l, s, cl, cs. cbn. rewrite Nat2Z.id, nth_error_app2, Nat.sub_diag by lia.
    split; [reflexivity|]. split; [lia|]. left. auto.
  - subst e. exists l, s, cl, cs. cbn. rewrite Nat2Z.id, nth_error_app2, Nat.sub_diag by lia.
    split; [reflexivity|]. split; [lia|]. right. auto.
  - change (pre ++ (l, s, cl, cs) :: ms) with (pre ++ [(l, s, cl, cs)] ++ ms). rewrite app_assoc.
    apply IH. rewrite app_length, Nat2Z.inj_add. exact H.
Qed.

Lemma build_edges ms e : In e (g_edges (build ms)) -> edge_of_market (tokens_of ms) ms e.
Proof. exact (edges_from_spec _ ms [] e). Qed.

Lemma build_wf ms e : In e (g_edges (build ms)) ->
  0 <= e_src e < Z.of_nat (length (g_toks (build ms))) /\ 0 <= e_dst e < Z.of_nat (length (g_toks (build ms))).
Proof.
  intros H. destruct (build_edges ms e H) as [l [s [cl [cs [Hn [_ Hd]]]]]].
  apply nth_error_In in Hn. destruct (tokens_of_in _ _ _ _ _ Hn) as [Hl Hs]. cbn [build g_toks].
  pose proof (ix_range _ _ Hl). pose proof (ix_range _ _ Hs).
  destruct Hd as [[-> [-> _]] | [-> [-> _]]]; auto.
Qed.

(* two edges naming the same market join the same pair of nodes *)
Definition mkt_pair (g : graph) : Prop :=
  forall e e', In e (g_edges g) -> In e' (g_edges g) -> e_mkt e = e_mkt e' ->
    (e_src e = e_src e' /\ e_dst e = e_dst e') \/ (e_src e = e_dst e' /\ e_dst e = e_src e').

Lemma build_mkt_pair ms : mkt_pair (build ms).
Proof.
  intros e e' H H' E.
  destruct (build_edges ms e H) as [l [s [cl [cs [Hn [_ Hd]]]]]].
  destruct (build_edges ms e' H') as [l' [s' [cl' [cs' [Hn' [_ Hd']]]]]].
  rewrite E in Hn. rewrite Hn in Hn'. inversion Hn'; subst.
  destruct Hd as [[A [B _]] | [A [B _]]], Hd' as [[A' [B' _]] | [A' [B' _]]]; rewrite A, B, A', B'; auto.
Qed.

Lemma gwalk_nodes g u v es : gwalk g u v es ->
  In v (walk_nodes u es) /\
  (forall e, In e es -> In (e_src e) (walk_nodes u es) /\ In (e_dst e) (walk_nodes u es)).
Proof.
  induction 1 as [u | u i es e Hw [IH1 IH2] Hin Hsrc Hc].
  - split; [left; reflexivity | intros e []].
  - rewrite walk_nodes_snoc. split; [apply in_or_app; right; left; reflexivity|].
    intros e0 H0. apply in_app_or in H0. destruct H0 as [H0 | [H0 | []]].
    + destruct (IH2 _ H0) as [A B]. split; apply in_or_app; left; assumption.
    + subst e0. split; apply in_or_app; [left; rewrite Hsrc; exact IH1 | right; left; reflexivity].
Qed.

Lemma gwalk_nodup_markets g u v es : mkt_pair g -> gwalk g u v es ->
  NoDup (walk_nodes u es) -> NoDup (map e_mkt es).
Proof.
  intros Hmp Hw. induction Hw as [u | u i es e Hw IH Hin Hsrc Hc]; intros Hnd; [constructor|].
  rewrite walk_nodes_snoc, NoDup_snoc in Hnd. destruct Hnd as [Hnd Hnew].
  rewrite map_app. apply NoDup_snoc. split; [apply IH; exact Hnd|].
  (* an earlier edge of the same market would have the new node e_dst e as one of its ends *)
  intros Hm. apply in_map_iff in Hm. destruct Hm as [e' [Em He']].
  destruct (proj2 (gwalk_nodes _ _ _ _ Hw) _ He') as [A B].
  destruct (Hmp e' e (gwalk_edges_in _ _ _ _ Hw _ He') Hin Em) as [[_ X] | [X _]];
    [rewrite X in B | rewrite X in A]; contradiction.
Qed.
