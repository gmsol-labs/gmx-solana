From GV Require Import lib.Base lib.Checked gen.C19Tables C19.Policy C19.Model.
From Coq Require Import String.
Open Scope string_scope.
Open Scope Z_scope.

Lemma filter_nil_forall {A} (f : A -> bool) (l : list A) :
  filter f l = [] -> forall x, In x l -> f x = false.
Proof. exact (lib.Checked.filter_nil_forall f l). Qed.

Definition qualified (i : instr) : string := i_prog i ++ "::" ++ i_name i.

(* instructions whose source does not implement the policy (or that have no policy row) *)
Lemma none_unguarded : map qualified (filter (fun i => negb (instr_ok i)) instructions) = [].
Proof. vm_compute. reflexivity. Qed.

Lemma every_instruction_ok : forall i, In i instructions -> instr_ok i = true.
Proof. exact (none_fail _ _ (map_eq_nil _ _ none_unguarded)). Qed.

Lemma instr_ok_guarded i : instr_ok i = true ->
  exists p, lookup_policy (i_prog i) (i_name i) policy_table = Some p /\ guard_matches i p = true.
Proof.
  unfold instr_ok. destruct (lookup_policy (i_prog i) (i_name i) policy_table) as [p|]; [|discriminate].
  intros H. exists p. split; [reflexivity|exact H].
Qed.

Definition stale_rows : list string :=
  map (fun r => fst (fst r) ++ "::" ++ snd (fst r))
      (filter (fun r => negb (existsb (fun i => String.eqb (i_prog i) (fst (fst r)) && String.eqb (i_name i) (snd (fst r))) instructions))
              policy_table).
Lemma no_stale_rows : stale_rows = [].
Proof. vm_compute. reflexivity. Qed.

Fixpoint dups (l : list string) : list string :=
  match l with [] => [] | x :: r => if mem x r then x :: dups r else dups r end.
Definition duplicate_rows : list string := dups (map (fun r => fst (fst r) ++ "::" ++ snd (fst r)) policy_table).
Lemma no_duplicate_rows : duplicate_rows = [].
Proof. vm_compute. reflexivity. Qed.
Definition duplicate_instructions : list string := dups (map qualified instructions).
Lemma no_duplicate_instructions : duplicate_instructions = [].
Proof. vm_compute. reflexivity. Qed.

Lemma no_doc_mismatch : map qualified (filter (fun i => negb (doc_consistent i)) instructions) = [].
Proof. vm_compute. reflexivity. Qed.

Lemma every_instruction_documented : forall i, In i instructions -> doc_consistent i = true.
Proof. exact (none_fail _ _ (map_eq_nil _ _ no_doc_mismatch)). Qed.

Section DispatchFacts.
  Context {State : Type}.
  Variable is_admin : State -> Z -> bool.
  Variable has_role : State -> Z -> string -> option bool.
  Notation guard_ok := (guard_ok is_admin has_role).
  Notation exec := (exec is_admin has_role).

  Lemma reject_unchanged : forall g signed accounts_ok body (st : State) who,
    guard_ok g st who = false -> exec g signed accounts_ok body st who = (st, false).
  Proof. intros g signed accounts_ok body st who H. unfold Model.exec. rewrite H, Bool.andb_false_r. reflexivity. Qed.

  Lemma unsigned_rejected : forall g accounts_ok body (st : State) who,
    exec g false accounts_ok body st who = (st, false).
  Proof. reflexivity. Qed.

  Lemma failure_unchanged : forall g signed accounts_ok body (st : State) who st',
    exec g signed accounts_ok body st who = (st', false) -> st' = st.
  Proof.
    intros g signed aok body st who st' H. unfold Model.exec in H.
    destruct (signed && aok && guard_ok g st who); [destruct (body st)|]; inversion H; reflexivity.
  Qed.

  Lemma success_needs_guard : forall g signed accounts_ok body (st : State) who st',
    exec g signed accounts_ok body st who = (st', true) -> signed = true /\ guard_ok g st who = true.
  Proof.
    intros g signed aok body st who st' H. unfold Model.exec in H.
    destruct signed, aok, (guard_ok g st who); cbn in H; try discriminate. split; reflexivity.
  Qed.

  Lemma any_role_sound : forall st who rs, any_role has_role st who rs = true -> exists r, In r rs /\ has_role st who r = Some true.
  Proof.
    induction rs as [|r rs IH]; cbn; [discriminate|].
    destruct (has_role st who r) as [[|]|] eqn:E; intros H; try discriminate.
    - exists r. split; [left; reflexivity|exact E].
    - destruct (IH H) as [r' [Hin Hr]]. exists r'. split; [right; exact Hin|exact Hr].
  Qed.

  Lemma guard_ok_meaning : forall g (st : State) who, guard_ok g st who = true ->
    match g with
    | GNone => True
    | GAdmin | GCpiAdmin => is_admin st who = true
    | GRole r | GCpiRole r => has_role st who r = Some true
    | GAny rs => exists r, In r rs /\ has_role st who r = Some true
    end.
  Proof.
    intros g st who H. destruct g; cbn in *; try exact I; try exact H.
    - destruct (has_role st who r) as [[|]|]; try discriminate. reflexivity.
    - apply any_role_sound. exact H.
    - destruct (has_role st who r) as [[|]|]; try discriminate. reflexivity.
  Qed.
End DispatchFacts.
