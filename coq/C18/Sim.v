(* C18 — every RoleStore operation simulates the abstract operation. *)
From stdpp Require Import gmap.
From GV Require lib.Base C34.Model C34.Proofs C34.Refine C35.Model C18.Model C18.Proofs.
Import GV.lib.Base(res, Ok, Err, rbind, of_opt).
Import GV.C34.Model GV.C34.Proofs GV.C34.Refine GV.C35.Model GV.C18.Model GV.C18.Proofs.
Open Scope Z_scope.

Local Notation R s := (abs (roles s)).
Local Notation M s := (abs (members s)).

Lemma update_meta_sim s A k md md' : sim s A → R s !! k = Some md → rm_index md' = rm_index md →
  ∃ m', set_value rmeta0 (roles s) k md' = Ok (m', Some md) ∧
        sim (mkrs m' (members s)) (mkA (<[k := meta_view md']> (ar A)) (ag A)).
Proof.
  intros S Ek Ei. pose proof S as (W & _).
  destruct (set_value_refines rmeta0 MAX_ROLES (roles s) k md' (rwf_roles s W)) as (m' & E & W' & A').
  rewrite Ek in E, A'. exists m'. split; [done|]. apply (sim_set_role s A k md' m' S); [by rewrite Ek|done|done].
Qed.

Lemma enable_sim s A r : sim s A →
  ∃ s', enable_role s r = Ok (s', snd (a_enable A r)) ∧ sim s' (fst (a_enable A r)) ∧
        (∀ e, snd (a_enable A r) = Err e → s' = s).
Proof.
  intros S. pose proof S as (W & _). pose proof (rwf_roles s W) as Wr.
  unfold enable_role, a_enable.
  rewrite (get_is_lookup rmeta0 MAX_ROLES _ _ Wr), (sim_role_lookup s A _ S). cbn [rbind].
  destruct (R s !! r_key r) as [md|] eqn:Ek; cbn [base.fmap option_fmap option_map meta_view].
  - rewrite name_check_ok. destruct (name_ok (rm_name md) (r_name r)); [|by exists s].
    destruct (is_enabled md) eqn:En; [by exists s|].
    destruct (update_meta_sim s A (r_key r) md (mkmeta (rm_name md) ROLE_ENABLED (rm_index md)) S Ek eq_refl)
      as (m' & E & S').
    rewrite E. eexists. split; [reflexivity|]. split; [exact S'|by intros e [=]].
  - assert (Ln : len (roles s) = Z.of_nat (size (R s))) by (symmetry; apply (abs_size rmeta0 MAX_ROLES _ Wr)).
    rewrite Ln. pose proof (roles_size_le s W) as Le.
    destruct (Z.ltb_spec 255 (Z.of_nat (size (R s)))); [lia|].
    unfold meta_new. destruct (str_to_bytes NAME_LEN (r_name r)) as [nb|e]; [|by exists s].
    rewrite (sim_roles_size s A S).
    set (md' := mkmeta nb ROLE_ENABLED (Z.of_nat (size (R s)))).
    case_decide as F; rewrite <- Ln in F.
    + rewrite (full_insert_fails_unchanged rmeta0 MAX_ROLES (roles s) (r_key r) md' true Wr Ek F).
      exists s. by destruct s.
    + destruct (insert_new_refines rmeta0 MAX_ROLES cap_roles (roles s) (r_key r) md' Wr Ek) as (m' & E & W' & A');
        [unfold len in F; lia|].
      rewrite E. eexists. split; [reflexivity|]. split; [|by intros e [=]].
      apply (sim_set_role s A (r_key r) md' m' S); [by rewrite Ek|done|done].
Qed.

Lemma disable_sim s A r : sim s A →
  ∃ s', disable_role s r = Ok (s', snd (a_disable A r)) ∧ sim s' (fst (a_disable A r)) ∧
        (∀ e, snd (a_disable A r) = Err e → s' = s).
Proof.
  intros S. pose proof S as (W & _). pose proof (rwf_roles s W) as Wr.
  unfold disable_role, a_disable.
  rewrite (get_is_lookup rmeta0 MAX_ROLES _ _ Wr), (sim_role_lookup s A _ S). cbn [rbind].
  destruct (R s !! r_key r) as [md|] eqn:Ek; cbn [base.fmap option_fmap option_map meta_view]; [|by exists s].
  rewrite name_check_ok. destruct (name_ok (rm_name md) (r_name r)); [|by exists s].
  destruct (is_enabled md) eqn:En; [|by exists s].
  destruct (update_meta_sim s A (r_key r) md (mkmeta (rm_name md) 0 (rm_index md)) S Ek eq_refl) as (m' & E & S').
  rewrite E. eexists. split; [reflexivity|]. split; [exact S'|by intros e [=]].
Qed.

Lemma has_sim s A a r : sim s A → has_role s a r = Ok (a_has A a r).
Proof.
  intros S. pose proof S as (W & _). pose proof (rwf_members s W) as Wm.
  unfold has_role, a_has.
  rewrite (get_is_lookup 0 MAX_MEMBERS _ _ Wm). cbn [rbind].
  pose proof (sim_members s A a S) as Hm. pose proof (grants_of s A a (r_key r) S) as Hg. unfold bits in Hg.
  destruct (M s !! a) as [v|] eqn:Ea; simpl in Hg.
  - rewrite decide_True by (apply Hm; eauto).
    rewrite (enabled_role_index_lookup s r W), (status_sim s A r S). cbn [rbind].
    destruct (R s !! r_key r) as [md|] eqn:Ek; [|done].
    destruct (name_ok (rm_name md) (r_name r)); [|done].
    destruct (is_enabled md); [|done].
    pose proof (index_lt_32 s _ md W Ek) as Hi.
    rewrite bit_get_ok by lia. cbn [rbind]. do 2 f_equal.
    destruct (Z.testbit v (rm_index md)) eqn:B; symmetry.
    + apply bool_decide_eq_true, Hg. eauto.
    + apply bool_decide_eq_false. intros (? & [= <-] & ?)%Hg. congruence.
  - rewrite decide_False; [done|]. intros H. apply Hm in H. by destruct H.
Qed.

Lemma grant_sim s A a r : sim s A →
  ∃ s', grant s a r = Ok (s', snd (a_grant A a r)) ∧ sim s' (fst (a_grant A a r)) ∧
        (∀ e, snd (a_grant A a r) = Err e → s' = s).
Proof.
  intros S. pose proof S as (W & _). pose proof (rwf_members s W) as Wm.
  unfold grant, a_grant.
  rewrite (enabled_role_index_lookup s r W), (status_sim s A r S). cbn [rbind].
  destruct (R s !! r_key r) as [md|] eqn:Ek; [|by exists s].
  destruct (name_ok (rm_name md) (r_name r)); [|by exists s].
  destruct (is_enabled md); [|by exists s].
  pose proof (index_lt_32 s _ md W Ek) as Hi.
  rewrite (get_is_lookup 0 MAX_MEMBERS _ _ Wm). cbn [rbind].
  pose proof (sim_members s A a S) as Hm. pose proof (grants_of s A a (r_key r) S) as Hg. rewrite Ek in Hg.
  pose proof (sim_flip_bit s A a (r_key r) md true) as NEW. cbn zeta in NEW.
  rewrite decide_False in NEW.
  2:{ intros Z0. pose proof (Z.setbit_eq (bits s a) (rm_index md)) as B. rewrite Z0, Z.bits_0 in B. lia. }
  unfold bits in Hg, NEW. destruct (M s !! a) as [v|] eqn:Ea; simpl in Hg, NEW.
  - rewrite bit_get_ok by lia. cbn [rbind]. destruct (Z.testbit v (rm_index md)) eqn:B.
    + rewrite decide_True by (apply Hg; eauto). by exists s.
    + rewrite decide_False by (intros (? & [= <-] & ?)%Hg; congruence).
      rewrite decide_True by (apply Hm; eauto).
      rewrite bit_set_ok by lia. cbn [rbind].
      destruct (set_value_refines 0 MAX_MEMBERS (members s) a (Z.setbit v (rm_index md)) Wm) as (m' & E & W' & A').
      rewrite Ea in E, A'. rewrite E. eexists. split; [reflexivity|]. split; [by apply NEW|by intros e [=]].
  - rewrite decide_False by (intros (? & _ & B)%Hg; by rewrite Z.bits_0 in B).
    rewrite decide_False by (intros H; apply Hm in H; by destruct H).
    rewrite bit_set_ok by lia. cbn [rbind].
    rewrite (sim_members_size s A S), (abs_size 0 MAX_MEMBERS _ Wm).
    case_decide as F.
    + rewrite (full_insert_fails_unchanged 0 MAX_MEMBERS (members s) a _ true Wm Ea F). exists s. by destruct s.
    + destruct (insert_new_refines 0 MAX_MEMBERS cap_members (members s) a (Z.setbit 0 (rm_index md)) Wm Ea)
        as (m' & E & W' & A'); [lia|].
      rewrite E. eexists. split; [reflexivity|]. split; [by apply NEW|by intros e [=]].
Qed.

Lemma revoke_sim s A a r : sim s A →
  ∃ s', revoke s a r = Ok (s', snd (a_revoke A a r)) ∧ sim s' (fst (a_revoke A a r)) ∧
        (∀ e, snd (a_revoke A a r) = Err e → s' = s).
Proof.
  intros S. pose proof S as (W & _). pose proof (rwf_members s W) as Wm.
  unfold revoke, a_revoke.
  rewrite (role_index_lookup s r W), (status_sim s A r S). cbn [rbind].
  destruct (R s !! r_key r) as [md|] eqn:Ek; [|by exists s].
  destruct (name_ok (rm_name md) (r_name r)); [|by exists s].
  pose proof (index_lt_32 s _ md W Ek) as Hi.
  rewrite (get_is_lookup 0 MAX_MEMBERS _ _ Wm). cbn [rbind].
  pose proof (sim_members s A a S) as Hm. pose proof (grants_of s A a (r_key r) S) as Hg. rewrite Ek in Hg.
  pose proof (sim_flip_bit s A a (r_key r) md false) as NEW. cbn zeta in NEW.
  unfold bits in Hg, NEW. destruct (M s !! a) as [v|] eqn:Ea; simpl in Hg, NEW.
  2:{ rewrite decide_False; [by exists s|]. intros H. apply Hm in H. by destruct H. }
  rewrite decide_True by (apply Hm; eauto).
  rewrite bit_get_ok by lia. cbn [rbind]. destruct (Z.testbit v (rm_index md)) eqn:B.
  2:{ rewrite decide_False by (intros (? & [= <-] & ?)%Hg; congruence). by exists s. }
  rewrite decide_True by (apply Hg; eauto).
  rewrite bit_set_ok by lia. cbn [rbind].
  set (v' := Z.clearbit v (rm_index md)) in *.
  destruct (set_value_refines 0 MAX_MEMBERS (members s) a v' Wm) as (m1 & E1 & W1 & A1).
  rewrite Ea in E1, A1. rewrite E1. cbn [rbind fst].
  destruct (Z.eqb_spec v' 0) as [Z0|NZ].
  - (* last role revoked: the membership is removed *)
    destruct (remove_refines 0 MAX_MEMBERS cap_members m1 a W1) as (m2 & E2 & W2 & A2).
    rewrite E2. cbn [rbind fst]. eexists. split; [reflexivity|]. split; [|by intros e [=]].
    apply NEW; [done|done|done|]. rewrite decide_True by done. rewrite A2, A1. apply delete_insert_delete.
  - eexists. split; [reflexivity|]. split; [|by intros e [=]].
    apply NEW; [done|done|done|]. by rewrite decide_False.
Qed.
