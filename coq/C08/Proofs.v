(* C08 — the token ledger (macc = ledger pools + collateral sums): what the pool updates, the fees, the funding
   amounts of a position and an increase do to it. *)
From GV Require Import lib.Base lib.DivLemmas C01.Model C01.Proofs PS.Model PS.Lemmas PS.Actions PS.Frame C07.Proofs.
Open Scope Z_scope.

(* accounted holdings of token t: liquidity + swap impact + claimable fees + collateral sums *)
Definition macc (m : market) (t : bool) : Z :=
  amount (m_primary m) t + amount (m_swap_impact m) t + amount (m_fee m) t + amount (m_cs_long m) t + amount (m_cs_short m) t.
(* the same without the collateral sums *)
Definition lacc (m : market) (t : bool) : Z :=
  amount (m_primary m) t + amount (m_swap_impact m) t + amount (m_fee m) t.
Definition csacc (m : market) (t : bool) : Z := amount (m_cs_long m) t + amount (m_cs_short m) t.

Definition on (t t' : bool) (v : Z) : Z := if Bool.eqb t t' then v else 0.

Lemma on_0 t t' : on t t' 0 = 0.
Proof. unfold on. destruct (Bool.eqb t t'); reflexivity. Qed.

Lemma macc_split m t : macc m t = lacc m t + csacc m t.
Proof. unfold macc, lacc, csacc. lia. Qed.

Lemma amount_on p p' l t d :
  amount p' l = amount p l + d -> amount p' (negb l) = amount p (negb l) -> amount p' t = amount p t + on l t d.
Proof. unfold on. destruct l, t; cbn; intros; lia. Qed.

(* what update_total_borrowing and update_open_interest leave alone: the configuration, the ledger pools, the
   collateral sums and the indices a position snapshots (borrowing factor, funding indices) *)
Definition oi_frame (m : market) :=
  (m_cfg m, m_primary m, m_swap_impact m, m_fee m, m_cs_long m, m_cs_short m,
   m_bf m, m_fa_long m, m_fa_short m, m_cfa_long m, m_cfa_short m).

Lemma oi_frame_acc m m' : oi_frame m' = oi_frame m -> forall t, lacc m' t = lacc m t /\ csacc m' t = csacc m t.
Proof. unfold oi_frame, lacc, csacc. intros H t. injection H as _ -> -> -> -> -> _ _ _ _ _. split; reflexivity. Qed.

Lemma moved_csacc m m' l c du dt dc : moved m m' l c du dt dc -> forall t, csacc m' t = csacc m t + on c t dc.
Proof.
  intros (_ & _ & _ & H) t. pose proof (H true t) as A. pose proof (H false t) as B. unfold cs_amt, cs_pool, hit in A, B.
  unfold csacc, on. destruct l, c, t; cbn in *; lia.
Qed.

Lemma view_csacc m m' : view m' = view m -> forall t, csacc m' t = csacc m t.
Proof. intros V t. destruct (view_amts _ _ V) as (_ & _ & _ & H). exact (f_equal2 Z.add (H true t) (H false t)). Qed.

Section P.
  Variable w : Z.
  Hypothesis Hw : 1 <= w.
  Variable unit : Z.

  Lemma apply_delta_acc m l d m' : apply_delta w m l d = Ok m' -> forall t, lacc m' t = lacc m t + on l t d.
  Proof.
    unfold apply_delta. intros H t. bind_ok H as pp E. apply pool_apply_spec in E. destruct E as (A1 & A2 & _).
    pose proof (amount_on _ _ _ t _ A1 A2) as A.
    destruct (m_vi_swap m); [bind_ok H as v' E2|]; injection H as <-; unfold lacc; cbn; lia.
  Qed.

  Lemma apply_fee_delta_acc m l d m' : apply_fee_delta w m l d = Ok m' -> forall t, lacc m' t = lacc m t + on l t d.
  Proof.
    unfold apply_fee_delta. intros H t. bind_ok H as pp E. apply pool_apply_spec in E. destruct E as (A1 & A2 & _).
    pose proof (amount_on _ _ _ t _ A1 A2) as A. injection H as <-. unfold lacc; cbn; lia.
  Qed.

  Lemma apply_impact_delta_acc m d m' : apply_impact_delta w m d = Ok m' -> forall t, lacc m' t = lacc m t.
  Proof. unfold apply_impact_delta. intros H t. bind_ok H as pp E. injection H as <-. reflexivity. Qed.

  Lemma update_total_borrowing_frame p m a b m' : update_total_borrowing w unit p m a b = Ok m' -> oi_frame m' = oi_frame m.
  Proof. unfold update_total_borrowing. intros H. ok_all H; injection H as <-; reflexivity. Qed.

  Lemma apply_delta_to_oi_frame m l c d m' : apply_delta_to_oi w m l c d = Ok m' -> oi_frame m' = oi_frame m.
  Proof. unfold apply_delta_to_oi. intros H. ok_all H; injection H as <-; destruct l; reflexivity. Qed.

  Lemma update_open_interest_frame p m a b m' : update_open_interest w p m a b = Ok m' -> oi_frame m' = oi_frame m.
  Proof.
    unfold update_open_interest. intros H. destruct (a =? 0); [injection H as <-; reflexivity|].
    bind_ok H as m1 E1. bind_ok H as t E2. injection H as <-. apply apply_delta_to_oi_frame in E1. rewrite <- E1.
    destruct (is_long p); reflexivity.
  Qed.

  Lemma set_cs_acc m l cs c d :
    amount cs c = amount (cs_pool m l) c + d -> amount cs (negb c) = amount (cs_pool m l) (negb c) ->
    forall t, lacc (set_cs m l cs) t = lacc m t /\ csacc (set_cs m l cs) t = csacc m t + on c t d.
  Proof.
    intros A1 A2 t. pose proof (amount_on _ _ _ t _ A1 A2) as A.
    destruct l; split; try reflexivity; unfold csacc; cbn in *; lia.
  Qed.

  (* pool part + receiver part = total cost excluding funding *)
  Lemma fees_split f fr fp te :
    fees_for_receiver w f = Ok fr -> fees_for_pool w f = Ok fp -> fees_total_excl_funding w f = Ok te ->
    fr + fp = te /\ 0 <= fr /\ 0 <= fp.
  Proof.
    unfold fees_for_receiver, fees_for_pool, fees_total_excl_funding. intros H1 H2 H3.
    bind_ok H1 as t1 E1. apply uadd_some in E1. destruct E1 as [R1 ->].
    bind_ok H2 as bp E2. apply usub_some in E2. destruct E2 as [R2 ->].
    bind_ok H2 as t2 E3. apply uadd_some in E3. destruct E3 as [R3 ->].
    bind_ok H3 as t3 E4. apply uadd_some in E4. destruct E4 as [R4 ->].
    bind_ok H3 as t4 E5. apply uadd_some in E5. destruct E5 as [R5 ->].
    destruct (f_liq f) as [[[lv la] lr]|].
    - ok_inj H1. apply uadd_some in H1. destruct H1 as [R6 ->].
      bind_ok H2 as lp E6. apply usub_some in E6. destruct E6 as [R7 ->].
      ok_inj H2. apply uadd_some in H2. destruct H2 as [R8 ->].
      ok_inj H3. apply uadd_some in H3. destruct H3 as [R9 ->]. lia.
    - injection H1 as <-. injection H2 as <-. injection H3 as <-. lia.
  Qed.

  (* unpack_to_funding_amount_delta: the share size * (latest - pv) / (adj * unit), rounded up or down *)
  Lemma unpack_funding_val adj latest pv size ru r : 0 <= size ->
    unpack_funding w unit adj latest pv size ru = Some r ->
    0 <= latest - pv /\ 0 < adj * unit /\
    r = if ru then (size * (latest - pv) + adj * unit - 1) / (adj * unit) else size * (latest - pv) / (adj * unit).
  Proof using Hw.
    intros Hs H. unfold unpack_funding in H.
    destruct (usub w latest pv) as [d|] eqn:E1; [|discriminate]. cbn in H. apply usub_some in E1. destruct E1 as [R1 ->].
    destruct (umul w adj unit) as [a|] eqn:E2; [|discriminate]. cbn in H. apply umul_some in E2. destruct E2 as [R2 ->].
    split; [lia|]. destruct ru.
    - apply mul_div_ceil_exact in H; [|lia..]. destruct H as (Hd & Hc & _). split; [lia|]. symmetry. apply ceil_unique; lia.
    - apply mul_div_exact in H; [|lia..]. destruct H as (Hd & -> & _). split; [lia|reflexivity].
  Qed.

  Lemma unpack_funding_nonneg adj latest pv size ru r :
    0 <= size -> unpack_funding w unit adj latest pv size ru = Some r -> 0 <= r.
  Proof using Hw.
    intros Hs H. apply unpack_funding_val in H; [|exact Hs]. destruct H as (Hd & HA & ->).
    pose proof (Z.mul_nonneg_nonneg _ _ Hs Hd). destruct ru; apply div_nonneg; lia.
  Qed.

  Lemma unpack_funding_zero adj latest pv size ru r :
    0 <= size -> size * (latest - pv) = 0 -> unpack_funding w unit adj latest pv size ru = Some r -> r = 0.
  Proof using Hw.
    intros Hs Hz H. apply unpack_funding_val in H; [|exact Hs]. destruct H as (_ & HA & ->). rewrite Hz.
    destruct ru; [apply Z.div_small; lia|apply Z.div_0_l; lia].
  Qed.

  Lemma position_fees_funding p m cp sd change liq fs :
    position_fees w unit p m cp sd change liq = Ok fs ->
    pending_funding_fees w unit p m = Ok (f_fund fs, f_claim_l fs, f_claim_s fs).
  Proof.
    unfold position_fees. intros H.
    bind_ok H as lq E0. bind_ok H as u E1. bind_ok H as fv E2. bind_ok H as fa E3. bind_ok H as fr E4.
    bind_ok H as fpool E5. bind_ok H as bv E6. bind_ok H as ba E7. bind_ok H as paid E8. bind_ok H as br E9.
    bind_ok H as ff E10. injection H as <-. destruct ff as [[a cl] cs]. exact E10.
  Qed.

  Lemma ppi_side p q m sd : is_long p = is_long q -> position_price_impact w unit p m sd = position_price_impact w unit q m sd.
  Proof. intros E. unfold position_price_impact. rewrite E. reflexivity. Qed.

  (* ledger of an increase: the collateral token gains the deposit minus the funding fee (which stays in the
     vault as funding residual); the other token is untouched *)
  Theorem ledger_increase p m pr ci sd acc p1 m' rep :
    increase w unit p m pr ci sd acc = Ok (p1, m', rep) ->
    forall t, macc m' t = macc m t + on (coll_long p) t (ci - f_fund (ir_fees rep)).
  Proof using Hw.
    intros H t.
    destruct (increase_inv w Hw unit _ _ _ _ _ _ _ _ _ H)
      as (change & tc & fr & fpl & m1 & m2 & cs & m4 & m5 & _ & (_ & Etc & Ecd & _) & (Efr & E8 & Efp & E11 & E12 & E15 & E17 & E21) & _).
    cbv zeta in *.
    destruct (increase_spec w Hw unit _ _ _ _ _ _ _ _ _ H) as (_ & _ & _ & _ & _ & _ & _ & _ & _ & M).
    unfold fees_total in Etc. bind_ok Etc as te Ete. ok_inj Etc. apply uadd_some in Etc. destruct Etc as [_ ->].
    destruct (fees_split _ _ _ _ Efr Efp Ete) as (Hsum & _ & _). apply pool_apply_spec in E12.
    destruct (set_cs_acc m2 (is_long p) cs (coll_long p) _ (proj1 E12) (proj1 (proj2 E12)) t) as [L3 _].
    rewrite !macc_split, (moved_csacc _ _ _ _ _ _ _ M), (proj1 (oi_frame_acc _ _ (update_open_interest_frame _ _ _ _ _ E21) t)),
      (proj1 (oi_frame_acc _ _ (update_total_borrowing_frame _ _ _ _ _ E17) t)), (apply_impact_delta_acc _ _ _ E15 t), L3,
      (apply_delta_acc _ _ _ _ E11 t), (apply_fee_delta_acc _ _ _ _ E8 t), Ecd.
    unfold on. destruct (Bool.eqb (coll_long p) t); lia.
  Qed.
End P.
