(* C36 — the timelock protocol: how one buffer can evolve, what only grows, and the invariant that ties
   the approval and execution logs to the buffers; the property lemmas are its projections. *)
From GV Require Import lib.Base lib.Checked C36.Model.
Open Scope Z_scope.

Lemma nth_set_nth_eq l : forall n a x, nth_error l n = Some x -> nth_error (set_nth l n a) n = Some a.
Proof. induction l; intros [|n] b x H; cbn in *; try discriminate; eauto. Qed.

Lemma nth_set_nth_neq l : forall n m a, n <> m -> nth_error (set_nth l n a) m = nth_error l m.
Proof. induction l; intros [|n] [|m] b H; cbn in *; try congruence; auto. Qed.

Definition getl (l : list buffer) (id : Z) : option buffer :=
  if id <? 0 then None else nth_error l (Z.to_nat id).

Lemma get_getl w id : get w id = getl (w_bufs w) id.
Proof. reflexivity. Qed.

Lemma getl_nonneg l id b : getl l id = Some b -> 0 <= id.
Proof. unfold getl. destruct (id <? 0) eqn:E; [discriminate|]. apply Z.ltb_ge in E. auto. Qed.

Lemma getl_set l id nb x id' : getl l id = Some x ->
  getl (set_nth l (Z.to_nat id) nb) id' = if id' =? id then Some nb else getl l id'.
Proof.
  intro Hx. pose proof (getl_nonneg _ _ _ Hx) as Hid. unfold getl in *.
  destruct (Z.eqb_spec id' id) as [->|Hne].
  - destruct (id <? 0); [discriminate|]. eapply nth_set_nth_eq; eauto.
  - destruct (Z.ltb_spec id' 0); [reflexivity|]. apply nth_set_nth_neq. intro Hc. apply Z2Nat.inj in Hc; lia.
Qed.

Lemma getl_set_inv l id nb x id' b : getl l id = Some x ->
  getl (set_nth l (Z.to_nat id) nb) id' = Some b -> getl l id' = Some b \/ (id' = id /\ b = nb).
Proof.
  intros Hx Hg. rewrite (getl_set _ _ _ _ _ Hx) in Hg.
  destruct (Z.eqb_spec id' id); [right; split; congruence|left; exact Hg].
Qed.

Lemma get_written w id x nb d r n a e c : get w id = Some x ->
  get (mkWorld (set_nth (w_bufs w) (Z.to_nat id) nb) d r n a e c) id = Some nb.
Proof. intro Hx. rewrite get_getl. cbn [w_bufs]. rewrite (getl_set _ _ _ _ _ Hx), Z.eqb_refl. reflexivity. Qed.

Lemma getl_app l a id : getl (l ++ [a]) id = if id =? len l then Some a else getl l id.
Proof.
  unfold getl, len. destruct (Z.eqb_spec id (Z.of_nat (length l))) as [->|Hne].
  - destruct (Z.ltb_spec (Z.of_nat (length l)) 0); [lia|].
    rewrite Nat2Z.id, nth_error_app2, Nat.sub_diag by lia. reflexivity.
  - destruct (Z.ltb_spec id 0); [reflexivity|].
    destruct (Nat.lt_ge_cases (Z.to_nat id) (length l)); [apply nth_error_app1; assumption|].
    rewrite !(proj2 (nth_error_None _ _)); [reflexivity|lia|rewrite app_length; cbn; lia].
Qed.

Lemma getl_lt l id x : getl l id = Some x -> id < len l.
Proof.
  unfold getl, len. destruct (id <? 0) eqn:E; [discriminate|]. apply Z.ltb_ge in E. intro H.
  assert (Z.to_nat id < length l)%nat by (apply nth_error_Some; congruence). lia.
Qed.

Lemma live_ok w id b : live w id = Ok b -> get w id = Some b /\ b_open b = true.
Proof.
  unfold live. destruct (get w id) as [x|]; [|discriminate].
  destruct (b_open x) eqn:Eo; [|discriminate]. intros [= <-]. auto.
Qed.

Lemma step_create_inv w c r ix w' :
  step w (TCreate c r ix) = Ok w' ->
  has_role (w_roles w) c ROLE_KEEPER = true /\
  w' = mkWorld (w_bufs w ++ [mkBuf true r ix false 0 0 0]) (w_delay w) (w_roles w) (w_now w)
               (w_approvals w) (w_execs w) ((len (w_bufs w), ix) :: w_created w).
Proof.
  cbn [step]. destruct (has_role (w_roles w) c ROLE_KEEPER); cbn [negb]; [|discriminate].
  intros [= <-]. auto.
Qed.

Lemma step_approve_inv w c role id w' :
  step w (TApprove c role id) = Ok w' ->
  exists b, get w id = Some b /\ b_open b = true /\ b_role b = role /\
    has_role (w_roles w) c (timelocked role) = true /\ b_approved b = false /\ b_approver b = 0 /\ c <> 0 /\
    w' = mkWorld (set_nth (w_bufs w) (Z.to_nat id) (mkBuf true (b_role b) (b_ix b) true c (w_now w) (b_napprove b + 1)))
                 (w_delay w) (w_roles w) (w_now w)
                 (mkApproval id c (w_now w) (w_delay w) (has_role (w_roles w) c (timelocked (b_role b))) :: w_approvals w)
                 (w_execs w) (w_created w).
Proof.
  cbn [step]. intro H. apply rbind_ok in H as (b & Hl & H). apply live_ok in Hl as [Hg Ho].
  destruct (Z.eqb_spec (b_role b) role) as [Er|]; cbn [negb] in H; [|discriminate].
  destruct (has_role (w_roles w) c (timelocked role)) eqn:Eh; cbn [negb] in H; [|discriminate].
  destruct (b_approved b) eqn:Ea; [discriminate|].
  destruct (Z.eqb_spec (b_approver b) 0) as [Ep|]; cbn [negb] in H; [|discriminate].
  destruct (Z.eqb_spec c 0) as [|Ec]; [discriminate|].
  injection H as <-. exists b. repeat split; auto.
Qed.

Lemma step_cancel_inv w c id w' :
  step w (TCancel c id) = Ok w' ->
  exists b, has_role (w_roles w) c ROLE_ADMIN = true /\ get w id = Some b /\ b_open b = true /\
    w' = with_bufs w (set_nth (w_bufs w) (Z.to_nat id)
           (mkBuf false (b_role b) (b_ix b) (b_approved b) (b_approver b) (b_approved_at b) (b_napprove b))).
Proof.
  cbn [step]. intro H. apply rbind_ok in H as (b & Hl & H). apply live_ok in Hl as [Hg Ho].
  destruct (has_role (w_roles w) c ROLE_ADMIN) eqn:Eh; cbn [negb] in H; [|discriminate].
  injection H as <-. exists b. auto.
Qed.

Lemma step_execute_inv w c id w' :
  step w (TExecute c id) = Ok w' ->
  exists b, has_role (w_roles w) c ROLE_KEEPER = true /\ get w id = Some b /\ b_open b = true /\
    b_approver b <> 0 /\ has_role (w_roles w) (b_approver b) (timelocked (b_role b)) = true /\
    b_approved b = true /\ executable_at (b_approved_at b) (w_delay w) <= w_now w /\
    w' = mkWorld (set_nth (w_bufs w) (Z.to_nat id)
                   (mkBuf false (b_role b) (b_ix b) (b_approved b) (b_approver b) (b_approved_at b) (b_napprove b)))
                 (w_delay w) (w_roles w) (w_now w) (w_approvals w)
                 (mkExec id (b_ix b) (b_role b) (b_approver b) (b_approved_at b) (w_now w) (w_delay w)
                         (has_role (w_roles w) (b_approver b) (timelocked (b_role b))) :: w_execs w)
                 (w_created w).
Proof.
  cbn [step]. intro H. apply rbind_ok in H as (b & Hl & H). apply live_ok in Hl as [Hg Ho].
  destruct (has_role (w_roles w) c ROLE_KEEPER) eqn:Eh; cbn [negb] in H; [|discriminate].
  destruct (Z.eqb_spec (b_approver b) 0) as [|Ep]; [discriminate|].
  destruct (is_member (w_roles w) (b_approver b)); cbn [negb] in H; [|discriminate].
  destruct (has_role (w_roles w) (b_approver b) (timelocked (b_role b))) eqn:Er; cbn [negb] in H; [|discriminate].
  destruct (is_executable (b_approved b) (b_approved_at b) (w_delay w) (w_now w)) eqn:Ee; cbn [negb] in H; [|discriminate].
  apply andb_prop in Ee as [Ea Et]. apply Z.leb_le in Et.
  injection H as <-. exists b. rewrite Er. repeat split; auto.
Qed.

Lemma increase_delay_ok d delta d' : increase_delay d delta = Ok d' -> d' = d + delta /\ 0 < delta /\ d' <= U32_MAX.
Proof.
  unfold increase_delay. destruct (Z.ltb_spec delta 0); [discriminate|]. cbn [orb].
  destruct (U32_MAX <? delta); [discriminate|]. destruct (Z.eqb_spec delta 0); [discriminate|].
  destruct (Z.ltb_spec U32_MAX (d + delta)); [discriminate|]. intros [= <-]. lia.
Qed.

Lemma step_increase_delay_inv w c delta w' :
  step w (TIncreaseDelay c delta) = Ok w' ->
  has_role (w_roles w) c ROLE_ADMIN = true /\ 0 < delta /\ w_delay w + delta <= U32_MAX /\
  w' = mkWorld (w_bufs w) (w_delay w + delta) (w_roles w) (w_now w) (w_approvals w) (w_execs w) (w_created w).
Proof.
  cbn [step]. destruct (has_role (w_roles w) c ROLE_ADMIN); cbn [negb]; [|discriminate]. intro H.
  apply rbind_ok in H as (d & Hd & [= <-]). apply increase_delay_ok in Hd as (-> & ? & ?). auto.
Qed.

(* "quiet": the four instructions that write no buffer and no log; delay and clock can only grow *)
Lemma step_quiet w o w' : step w o = Ok w' ->
  match o with
  | TIncreaseDelay _ _ | TGrant _ _ | TRevoke _ _ | TTick _ =>
      w_bufs w' = w_bufs w /\ w_approvals w' = w_approvals w /\ w_execs w' = w_execs w /\
      w_created w' = w_created w /\ w_delay w <= w_delay w' /\ w_now w <= w_now w' /\
      (w_delay w <= U32_MAX -> w_delay w' <= U32_MAX)
  | _ => True
  end.
Proof.
  intro H. destruct o; try exact I; cbn [step] in H.
  - apply step_increase_delay_inv in H as (_ & ? & ? & ->).
    cbn [w_bufs w_approvals w_execs w_created w_delay w_now]. repeat split; try reflexivity; lia.
  - injection H as <-. cbn [w_bufs w_approvals w_execs w_created w_delay w_now]. repeat split; try reflexivity; lia.
  - injection H as <-. cbn [w_bufs w_approvals w_execs w_created w_delay w_now]. repeat split; try reflexivity; lia.
  - destruct (Z.ltb_spec dt 0); [discriminate|]. destruct (I64_MAX <? w_now w + dt); [discriminate|].
    injection H as <-. cbn [w_bufs w_approvals w_execs w_created w_delay w_now]. repeat split; try reflexivity; lia.
Qed.

Definition bevolves (b b' : buffer) : Prop :=
  b_role b' = b_role b /\ b_ix b' = b_ix b /\
  (b_open b = false -> b' = b) /\
  (b_approved b = true -> b_approved b' = true /\ b_approver b' = b_approver b /\
                          b_approved_at b' = b_approved_at b /\ b_napprove b' = b_napprove b) /\
  b_napprove b <= b_napprove b'.

Lemma bevolves_refl b : bevolves b b.
Proof. unfold bevolves. repeat split; auto; lia. Qed.

Lemma bevolves_trans a b c : bevolves a b -> bevolves b c -> bevolves a c.
Proof.
  unfold bevolves. intros (R1 & I1 & O1 & A1 & N1) (R2 & I2 & O2 & A2 & N2).
  split; [congruence|]. split; [congruence|]. split; [|split; [|lia]].
  - intro Hc. pose proof (O1 Hc) as Hb. subst b. auto.
  - intro Ha. destruct (A1 Ha) as (X1 & X2 & X3 & X4). destruct (A2 X1) as (Y1 & Y2 & Y3 & Y4).
    repeat split; congruence.
Qed.

Lemma step_bevolves w o w' id b :
  step w o = Ok w' -> get w id = Some b -> exists b', get w' id = Some b' /\ bevolves b b'.
Proof.
  intros H Hg.
  assert (Hset : forall i x nb, get w i = Some x -> bevolves x nb ->
            exists b', getl (set_nth (w_bufs w) (Z.to_nat i) nb) id = Some b' /\ bevolves b b').
  { intros i x nb Hx E. rewrite (getl_set _ _ _ _ _ Hx).
    destruct (Z.eqb_spec id i) as [->|]; [|exists b; split; [exact Hg|apply bevolves_refl]].
    rewrite Hg in Hx. injection Hx as <-. eauto. }
  pose proof (step_quiet _ _ _ H) as Q. destruct o.
  5-8: exists b; split; [|apply bevolves_refl]; rewrite get_getl, (proj1 Q); exact Hg.
  - apply step_create_inv in H as (_ & ->). exists b. split; [|apply bevolves_refl].
    rewrite get_getl. cbn [w_bufs]. rewrite getl_app.
    destruct (Z.eqb_spec id (len (w_bufs w))); [apply getl_lt in Hg; lia|exact Hg].
  - apply step_approve_inv in H as (x & Hx & Ho & Hr & Hh & Ha & Hp & Hc & ->).
    apply (Hset _ _ _ Hx). unfold bevolves. cbn. repeat split; auto; try congruence; lia.
  - apply step_cancel_inv in H as (x & Hh & Hx & Ho & ->).
    apply (Hset _ _ _ Hx). unfold bevolves. cbn. repeat split; auto; try congruence; lia.
  - apply step_execute_inv in H as (x & Hh & Hx & Ho & Hp & Hr & Ha & Ht & ->).
    apply (Hset _ _ _ Hx). unfold bevolves. cbn. repeat split; auto; try congruence; lia.
Qed.

Lemma apply_bevolves w o id b :
  get w id = Some b -> exists b', get (apply w o) id = Some b' /\ bevolves b b'.
Proof.
  intro Hg. unfold apply. destruct (step w o) eqn:E.
  - eapply step_bevolves; eauto.
  - exists b. split; auto. apply bevolves_refl.
Qed.

Lemma run_bevolves ops : forall w id b,
  get w id = Some b -> exists b', get (run ops w) id = Some b' /\ bevolves b b'.
Proof.
  induction ops; intros w id b Hg; cbn.
  - exists b. split; auto. apply bevolves_refl.
  - destruct (apply_bevolves w a id b Hg) as (b1 & H1 & E1).
    destruct (IHops _ _ _ H1) as (b2 & H2 & E2).
    exists b2. split; auto. eapply bevolves_trans; eauto.
Qed.

Definition mono (w w' : world) : Prop :=
  w_delay w <= w_delay w' /\ w_now w <= w_now w' /\
  incl (w_approvals w) (w_approvals w') /\ incl (w_execs w) (w_execs w') /\ incl (w_created w) (w_created w').

Lemma mono_refl w : mono w w.
Proof. unfold mono. repeat split; try lia; apply incl_refl. Qed.

Lemma mono_trans a b c : mono a b -> mono b c -> mono a c.
Proof.
  unfold mono. intros (D1 & N1 & A1 & E1 & C1) (D2 & N2 & A2 & E2 & C2).
  repeat split; try lia; eapply incl_tran; eauto.
Qed.

Lemma step_mono w o w' : step w o = Ok w' -> mono w w'.
Proof.
  intro H. pose proof (step_quiet _ _ _ H) as Q. unfold mono. destruct o.
  5-8: destruct Q as (_ & -> & -> & -> & D & N & _); repeat split; try lia; apply incl_refl.
  - apply step_create_inv in H as (_ & ->). cbn. repeat split; try lia; try apply incl_refl. apply incl_tl, incl_refl.
  - apply step_approve_inv in H as (x & _ & _ & _ & _ & _ & _ & _ & ->).
    cbn. repeat split; try lia; try apply incl_refl. apply incl_tl, incl_refl.
  - apply step_cancel_inv in H as (x & _ & _ & _ & ->). cbn. repeat split; try lia; apply incl_refl.
  - apply step_execute_inv in H as (x & _ & _ & _ & _ & _ & _ & _ & ->).
    cbn. repeat split; try lia; try apply incl_refl. apply incl_tl, incl_refl.
Qed.

Definition buf_ok (w : world) (id : Z) (b : buffer) : Prop :=
  b_napprove b = (if b_approved b then 1 else 0) /\ In (id, b_ix b) (w_created w) /\
  (b_approved b = true ->
   exists a, In a (w_approvals w) /\ ap_id a = id /\ ap_by a = b_approver b /\ ap_at a = b_approved_at b).
Definition created_ok (w : world) (c : Z * Z) : Prop :=
  exists b, get w (fst c) = Some b /\ b_ix b = snd c.
Definition approval_ok (w : world) (a : approval) : Prop :=
  ap_held a = true /\ ap_delay a <= w_delay w /\ ap_at a <= w_now w /\
  exists b, get w (ap_id a) = Some b /\ b_approved b = true.
Definition exec_ok (w : world) (e : execution) : Prop :=
  ex_still_holds e = true /\
  (exists a, In a (w_approvals w) /\ ap_id a = ex_id e /\ ap_by a = ex_approver e /\
             ap_at a = ex_approved_at e /\ ap_held a = true /\ ap_delay a <= ex_delay e) /\
  executable_at (ex_approved_at e) (ex_delay e) <= ex_at e /\ ex_at e <= w_now w /\
  ex_delay e <= w_delay w /\
  In (ex_id e, ex_ix e) (w_created w) /\
  exists b, get w (ex_id e) = Some b /\ b_open b = false.

Record winv (w : world) : Prop := {
  wi_d : 0 <= w_delay w <= U32_MAX;
  wi_b : forall id b, get w id = Some b -> buf_ok w id b;
  wi_c : forall c, In c (w_created w) -> created_ok w c;
  wi_a : forall a, In a (w_approvals w) -> approval_ok w a;
  wi_a_nodup : NoDup (map ap_id (w_approvals w));
  wi_e : forall e, In e (w_execs w) -> exec_ok w e;
  wi_e_nodup : NoDup (map ex_id (w_execs w))
}.

Lemma winv_init delay roles now : 0 <= delay <= U32_MAX -> winv (init delay roles now).
Proof.
  intro H. split; cbn [init w_delay w_approvals w_execs w_created map];
    [exact H| |intros c []|intros a []|constructor|intros e []|constructor].
  intros id b Hg. unfold get in Hg. cbn in Hg. destruct (id <? 0); [discriminate|]. destruct (Z.to_nat id); discriminate.
Qed.

Lemma buf_ok_mono w w' id b : mono w w' -> buf_ok w id b -> buf_ok w' id b.
Proof.
  intros (_ & _ & A & _ & C) (N & Cr & Ap). split; [exact N|]. split; [apply C, Cr|].
  intro Hb. destruct (Ap Hb) as (a & Hin & Ha). exists a. split; [apply A, Hin|exact Ha].
Qed.

Lemma created_ok_step w o w' c : step w o = Ok w' -> created_ok w c -> created_ok w' c.
Proof.
  intros H (b & Hg & Hi). destruct (step_bevolves _ _ _ _ _ H Hg) as (b' & Hg' & (_ & I & _)).
  exists b'. split; [exact Hg'|congruence].
Qed.

Lemma approval_ok_step w o w' a : step w o = Ok w' -> approval_ok w a -> approval_ok w' a.
Proof.
  intros H (A1 & A2 & A3 & b & Hg & Hb). destruct (step_mono _ _ _ H) as (D & N & _).
  destruct (step_bevolves _ _ _ _ _ H Hg) as (b' & Hg' & (_ & _ & _ & A & _)).
  split; [exact A1|]. split; [lia|]. split; [lia|]. exists b'. split; [exact Hg'|apply (A Hb)].
Qed.

Lemma exec_ok_step w o w' e : step w o = Ok w' -> exec_ok w e -> exec_ok w' e.
Proof.
  intros H (E1 & (a & Hin & E2) & E3 & E4 & E5 & E6 & b & Hg & Hb).
  destruct (step_mono _ _ _ H) as (D & N & A & _ & C).
  destruct (step_bevolves _ _ _ _ _ H Hg) as (b' & Hg' & (_ & _ & O & _)). rewrite (O Hb) in Hg'.
  split; [exact E1|]. split; [exists a; split; [apply A, Hin|exact E2]|]. split; [exact E3|].
  split; [lia|]. split; [lia|]. split; [apply C, E6|]. exists b. auto.
Qed.

(* so after a step only the buffer written and the records appended need to be looked at *)
Lemma winv_step w o w' :
  winv w -> step w o = Ok w' -> w_delay w' <= U32_MAX ->
  (forall id b, get w' id = Some b -> get w id = Some b \/ buf_ok w' id b) ->
  (forall c, In c (w_created w') -> In c (w_created w) \/ created_ok w' c) ->
  (forall a, In a (w_approvals w') -> In a (w_approvals w) \/ approval_ok w' a) ->
  NoDup (map ap_id (w_approvals w')) ->
  (forall e, In e (w_execs w') -> In e (w_execs w) \/ exec_ok w' e) ->
  NoDup (map ex_id (w_execs w')) ->
  winv w'.
Proof.
  intros W H Hd Hb Hc Ha Hand He Hend. pose proof (step_mono _ _ _ H) as M. split; auto.
  - pose proof (wi_d _ W). destruct M. lia.
  - intros id b Hg. destruct (Hb _ _ Hg) as [Hg0|]; [|assumption]. exact (buf_ok_mono _ _ _ _ M (wi_b _ W _ _ Hg0)).
  - intros c Hin. destruct (Hc _ Hin) as [Hin0|]; [|assumption]. exact (created_ok_step _ _ _ _ H (wi_c _ W _ Hin0)).
  - intros a Hin. destruct (Ha _ Hin) as [Hin0|]; [|assumption]. exact (approval_ok_step _ _ _ _ H (wi_a _ W _ Hin0)).
  - intros e Hin. destruct (He _ Hin) as [Hin0|]; [|assumption]. exact (exec_ok_step _ _ _ _ H (wi_e _ W _ Hin0)).
Qed.

Lemma step_winv w o w' : winv w -> step w o = Ok w' -> winv w'.
Proof.
  intros W H. pose proof (step_quiet _ _ _ H) as Q. pose proof H as H0. destruct o.
  5-8: destruct Q as (Eb & Ea & Ee & Ec & _ & _ & Hu);
    apply (winv_step _ _ _ W H); rewrite ?Ea, ?Ee, ?Ec; auto;
      [apply Hu, (wi_d _ W)| |apply (wi_a_nodup _ W)|apply (wi_e_nodup _ W)];
    intros id b Hg; left; rewrite get_getl, Eb in Hg; exact Hg.
  - apply step_create_inv in H0 as (_ & ->).
    apply (winv_step _ _ _ W H); cbn [w_delay w_approvals w_execs w_created]; auto;
      try apply (wi_d _ W); try apply (wi_a_nodup _ W); try apply (wi_e_nodup _ W).
    + intros id b Hg. rewrite get_getl in Hg. cbn [w_bufs] in Hg. rewrite getl_app in Hg.
      destruct (Z.eqb_spec id (len (w_bufs w))) as [->|]; [right|left; exact Hg]. injection Hg as <-.
      split; [reflexivity|]. split; [left; reflexivity|discriminate].
    + intros c [<-|Hin]; [right|left; exact Hin]. eexists. cbn [fst snd].
      rewrite get_getl. cbn [w_bufs]. rewrite getl_app, Z.eqb_refl. split; reflexivity.
  - apply step_approve_inv in H0 as (x & Hx & Ho & <- & Hh & Hna & Hp & Hc & ->).
    destruct (wi_b _ W _ _ Hx) as (N & C & _). rewrite Hna in N.
    apply (winv_step _ _ _ W H); cbn [w_delay w_approvals w_execs w_created]; auto;
      try apply (wi_d _ W); try apply (wi_e_nodup _ W).
    + intros id' b Hg. apply (getl_set_inv _ _ _ _ _ _ Hx) in Hg as [Hg|[-> ->]]; [left; exact Hg|right].
      split; [cbn; lia|]. split; [exact C|]. intros _. eexists. split; [left; reflexivity|]. cbn. auto.
    + intros a [<-|Hin]; [right|left; exact Hin].
      split; [exact Hh|]. split; [cbn; lia|]. split; [cbn; lia|].
      eexists. split; [eapply get_written, Hx|reflexivity].
    + cbn [map ap_id]. constructor; [|apply (wi_a_nodup _ W)].
      intro Hin. apply in_map_iff in Hin as (a & Ha1 & Ha2).
      destruct (wi_a _ W _ Ha2) as (_ & _ & _ & b & Hg & Hb). rewrite Ha1, Hx in Hg. congruence.
  - apply step_cancel_inv in H0 as (x & Hh & Hx & Ho & ->).
    apply (winv_step _ _ _ W H); cbn [w_delay w_approvals w_execs w_created with_bufs]; auto;
      try apply (wi_d _ W); try apply (wi_a_nodup _ W); try apply (wi_e_nodup _ W).
    intros id' b Hg. apply (getl_set_inv _ _ _ _ _ _ Hx) in Hg as [Hg|[-> ->]]; [left; exact Hg|right]. exact (wi_b _ W _ _ Hx).
  - apply step_execute_inv in H0 as (x & Hh & Hx & Ho & Hp & Hr & Ha & Ht & ->).
    apply (winv_step _ _ _ W H); cbn [w_delay w_approvals w_execs w_created]; auto;
      try apply (wi_d _ W); try apply (wi_a_nodup _ W).
    + intros id' b Hg. apply (getl_set_inv _ _ _ _ _ _ Hx) in Hg as [Hg|[-> ->]]; [left; exact Hg|right]. exact (wi_b _ W _ _ Hx).
    + intros e [<-|Hin]; [right|left; exact Hin].
      destruct (wi_b _ W _ _ Hx) as (_ & C & A). destruct (A Ha) as (a & Hina & A1 & A2 & A3).
      destruct (wi_a _ W _ Hina) as (B1 & B2 & _).
      split; [exact Hr|]. split; [exists a; repeat split; auto|]. split; [exact Ht|].
      split; [cbn; lia|]. split; [cbn; lia|]. split; [exact C|].
      eexists. split; [eapply get_written, Hx|reflexivity].
    + cbn [map ex_id]. constructor; [|apply (wi_e_nodup _ W)].
      intro Hin. apply in_map_iff in Hin as (e & He1 & He2).
      destruct (wi_e _ W _ He2) as (_ & _ & _ & _ & _ & _ & b & Hg & Hb). rewrite He1, Hx in Hg. congruence.
Qed.

Lemma apply_winv w o : winv w -> winv (apply w o).
Proof. intro W. unfold apply. destruct (step w o) eqn:E; auto. eapply step_winv; eauto. Qed.

Lemma run_winv ops : forall w, winv w -> winv (run ops w).
Proof. intros w. apply fold_left_inv. intros a o _. apply apply_winv. Qed.

Lemma apply_mono w o : mono w (apply w o).
Proof. unfold apply. destruct (step w o) eqn:E; [eapply step_mono; eauto|apply mono_refl]. Qed.

Lemma run_mono ops : forall w, mono w (run ops w).
Proof.
  induction ops; intros w; cbn; [apply mono_refl|].
  eapply mono_trans; [apply apply_mono|apply IHops].
Qed.

Lemma run_app ops1 ops2 w : run (ops1 ++ ops2) w = run ops2 (run ops1 w).
Proof. unfold run. apply fold_left_app. Qed.

Lemma execute_requires delay roles now ops e :
  0 <= delay <= U32_MAX ->
  In e (w_execs (run ops (init delay roles now))) ->
  ex_still_holds e = true /\
  (exists a, In a (w_approvals (run ops (init delay roles now))) /\
             ap_id a = ex_id e /\ ap_by a = ex_approver e /\ ap_at a = ex_approved_at e /\
             ap_held a = true /\ ap_delay a <= ex_delay e) /\
  Z.min (ex_approved_at e + ex_delay e) I64_MAX <= ex_at e /\
  In (ex_id e, ex_ix e) (w_created (run ops (init delay roles now))).
Proof.
  intros Hd Hin. pose proof (run_winv ops _ (winv_init delay roles now Hd)) as W.
  destruct (wi_e _ W _ Hin) as (E1 & E2 & E3 & _ & _ & E6 & _). repeat split; auto.
Qed.

Lemma execute_step_checks w c id w' :
  step w (TExecute c id) = Ok w' ->
  exists b, get w id = Some b /\ b_open b = true /\ b_approved b = true /\ b_approver b <> 0 /\
    has_role (w_roles w) c ROLE_KEEPER = true /\
    has_role (w_roles w) (b_approver b) (timelocked (b_role b)) = true /\
    Z.min (b_approved_at b + w_delay w) I64_MAX <= w_now w /\
    (exists b', get w' id = Some b' /\ b_open b' = false /\ b_ix b' = b_ix b).
Proof.
  intro H. pose proof H as H0.
  apply step_execute_inv in H0 as (x & Hh & Hx & Ho & Hp & Hr & Ha & Ht & ->).
  exists x. repeat split; auto. eexists. split; [eapply get_written, Hx|split; reflexivity].
Qed.

Lemma approve_once delay roles now ops :
  0 <= delay <= U32_MAX ->
  let w := run ops (init delay roles now) in
  NoDup (map ap_id (w_approvals w)) /\
  (forall id b, get w id = Some b -> 0 <= b_napprove b <= 1 /\ (b_napprove b = 1 <-> b_approved b = true)).
Proof.
  intros Hd w. pose proof (run_winv ops _ (winv_init delay roles now Hd)) as W. split.
  - apply (wi_a_nodup _ W).
  - intros id b Hg. destruct (wi_b _ W _ _ Hg) as (Hn & _). destruct (b_approved b); split; try lia; split; intro; try lia; auto; discriminate.
Qed.

Lemma approve_twice_rejected w c role id w' c2 role2 :
  step w (TApprove c role id) = Ok w' -> exists e, step w' (TApprove c2 role2 id) = Err e.
Proof.
  intro H. apply step_approve_inv in H as (x & Hx & Ho & Hrl & Hh & Hna & Hp & Hc & ->).
  cbn [step]. unfold live. erewrite get_written by exact Hx. cbn [rbind b_open b_role b_approved].
  destruct (negb (b_role x =? role2)); [eauto|].
  cbn [w_roles]. destruct (negb (has_role (w_roles w) c2 (timelocked role2))); eauto.
Qed.

Lemma delay_monotone ops w : w_delay w <= w_delay (run ops w).
Proof. destruct (run_mono ops w) as (H & _). auto. Qed.

Lemma delay_strictly_increases w c delta w' :
  step w (TIncreaseDelay c delta) = Ok w' ->
  has_role (w_roles w) c ROLE_ADMIN = true /\ w_delay w' = w_delay w + delta /\ 0 < delta /\ w_delay w' <= U32_MAX.
Proof. intro H. apply step_increase_delay_inv in H as (? & ? & ? & ->). cbn. auto. Qed.

Lemma closed_is_final ops w id b :
  get w id = Some b -> b_open b = false -> get (run ops w) id = Some b.
Proof.
  intros Hg Hc. destruct (run_bevolves ops w id b Hg) as (b' & Hg' & (_ & _ & O & _)).
  rewrite (O Hc) in Hg'. auto.
Qed.

Lemma closed_rejects w id b o :
  get w id = Some b -> b_open b = false ->
  (exists c, o = TExecute c id) \/ (exists c r, o = TApprove c r id) \/ (exists c, o = TCancel c id) ->
  exists e, step w o = Err e.
Proof.
  intros Hg Hc [[c ->]|[[c [r ->]]|[c ->]]]; cbn [step]; unfold live; rewrite Hg, Hc; cbn [rbind]; eauto.
Qed.

Lemma closed_gone ops w id b :
  get w id = Some b -> b_open b = false ->
  get (run ops w) id = Some b /\
  (forall o, (exists c, o = TExecute c id) \/ (exists c r, o = TApprove c r id) \/ (exists c, o = TCancel c id) ->
             exists e, step (run ops w) o = Err e).
Proof.
  intros Hg Hc. pose proof (closed_is_final ops w id b Hg Hc) as H. split; [exact H|].
  intros o Ho. exact (closed_rejects _ _ _ _ H Hc Ho).
Qed.

Lemma cancel_or_execute_closes w o w' id :
  (exists c, o = TExecute c id) \/ (exists c, o = TCancel c id) ->
  step w o = Ok w' -> exists b', get w' id = Some b' /\ b_open b' = false.
Proof.
  intros [[c ->]|[c ->]] H.
  - apply execute_step_checks in H as (b & _ & _ & _ & _ & _ & _ & _ & b' & Hg & Ho & _). eauto.
  - apply step_cancel_inv in H as (x & Hh & Hx & Ho & ->).
    eexists. split; [eapply get_written, Hx|reflexivity].
Qed.

Lemma executed_once delay roles now ops :
  0 <= delay <= U32_MAX -> NoDup (map ex_id (w_execs (run ops (init delay roles now)))).
Proof.
  intro Hd. apply (wi_e_nodup _ (run_winv ops _ (winv_init delay roles now Hd))).
Qed.

Lemma ix_immutable ops w id b :
  get w id = Some b -> exists b', get (run ops w) id = Some b' /\ b_ix b' = b_ix b /\ b_role b' = b_role b.
Proof.
  intro Hg. destruct (run_bevolves ops w id b Hg) as (b' & Hg' & (R & I & _)). eauto.
Qed.

Lemma approval_immutable ops w id b :
  get w id = Some b -> b_approved b = true ->
  exists b', get (run ops w) id = Some b' /\ b_approved b' = true /\ b_approver b' = b_approver b /\
             b_approved_at b' = b_approved_at b.
Proof.
  intros Hg Ha. destruct (run_bevolves ops w id b Hg) as (b' & Hg' & (_ & _ & _ & A & _)).
  destruct (A Ha) as (X1 & X2 & X3 & _). eauto.
Qed.
