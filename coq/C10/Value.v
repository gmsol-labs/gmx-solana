(* C10 — value form of the CollateralProcessor waterfall: the USD value of what the trader holds
   (output, remaining collateral, claimable collateral for the user: collateral-token amounts at the collateral
   token's min price, pnl-token amounts at the pnl token's max price) after the waterfall is bounded by
   collateral value + pnl + impact - funding - fees, plus one base unit of the pnl token per payment. *)
From GV Require Import lib.Base C01.Model C01.Proofs PS.Model PS.Actions C08.Proofs C08.Waterfall.
Open Scope Z_scope.

Section P.
  Variable w : Z.
  Hypothesis Hw : 1 <= w.
  Variable pr : prices.
  Variable p : position.
  Notation cpm := (pmin (out_price pr p)).
  Notation ppm := (pmin (pnl_price pr p)).
  Notation ppx := (pmax (pnl_price pr p)).
  Hypothesis Hcp : 0 < cpm.
  Hypothesis Hpp : 0 < ppm.
  Hypothesis Hppx : ppm <= ppx.
  Hypothesis Hcx : cpm <= pmax (out_price pr p).

  (* value of the trader's buckets *)
  Definition phi (s : pstate) : Z := (st_out s + st_coll s + st_user_out s) * cpm + (st_sec s + st_user_sec s) * ppx.
  Definition no_user (s : pstate) : Prop := st_user_out s = 0 /\ st_user_sec s = 0.

  Lemma phi_nonneg s : nn s -> no_user s -> 0 <= phi s.
  Proof using Hcp Hpp Hppx. intros (A & B & C) (U1 & U2). unfold phi. rewrite U1, U2. nia. Qed.

  Lemma after_and r stp (Q1 Q2 : bool -> pstate -> Prop) :
    after r stp Q1 -> after r stp Q2 -> after r stp (fun c s => Q1 c s /\ Q2 c s).
  Proof. destruct r; cbn; intros H1 H2; try exact I; [split; assumption|]. destruct H1 as [E A], H2 as [_ B]. split; [exact E|split; assumption]. Qed.

  Lemma pays_phi s cost cont s' pc psec uc us :
    pays pr p s cost cont s' pc psec -> st_user_out s' = st_user_out s + uc -> st_user_sec s' = st_user_sec s + us ->
    phi s' = phi s - (pc - uc) * cpm - (psec - us) * ppx.
  Proof.
    intros (_ & _ & _ & B1 & B2 & _) U1 U2. unfold phi. rewrite U1, U2.
    replace (st_out s' + st_coll s') with (st_out s + st_coll s - pc) by lia. replace (st_sec s') with (st_sec s - psec) by lia. ring.
  Qed.

  (* a pay step that hands nothing to the user: when it completes, phi falls by the cost less one base unit of the
     pnl token (the remainder converted to pnl tokens rounding down); when it stops, nothing is left *)
  Lemma paid_value X s cost cont s' pc psec lc ls hs :
    no_user s -> phi s <= Z.max 0 X ->
    pays pr p s cost cont s' pc psec -> credited p s s' lc ls hs 0 0 ->
    nn s' /\ no_user s' /\ if cont then phi s' <= Z.max 0 (X - cost + ppm) else phi s' = 0.
  Proof.
    intros (U1 & U2) B P (_ & _ & _ & V1 & V2). pose proof (pays_phi _ _ _ _ _ _ _ _ P V1 V2) as E.
    destruct P as (N & P1 & P2 & _ & _ & _ & P6 & P7).
    split; [exact N|]. split; [split; lia|]. destruct cont.
    - specialize (P6 eq_refl). assert (psec * ppm <= psec * ppx) by nia. lia.
    - destruct (P7 eq_refl) as (Z1 & Z2 & Z3). unfold phi. rewrite Z1, Z2, Z3, V1, V2, U1, U2. lia.
  Qed.

  (* profit and positive impact are converted at the pnl token's max price *)
  Lemma gains_phi s s' a : gains p s s' a -> 0 <= a -> nn s -> no_user s ->
    nn s' /\ no_user s' /\ phi s' <= phi s + a * ppx /\ st_fees s' = st_fees s.
  Proof.
    intros ((_ & _ & _ & V1 & V2) & F & C & O & S) Ha (N1 & N2 & N3) (U1 & U2).
    assert (Hs : same_tokens p = true -> ppx = pmax (out_price pr p)).
    { unfold same_tokens, out_price, pnl_price. intros Es. apply Bool.eqb_prop in Es. rewrite Es. reflexivity. }
    unfold nn, no_user, phi. rewrite O, S, C, V1, V2, U1, U2.
    destruct (same_tokens p); [specialize (Hs eq_refl)|]; repeat split; try lia; try exact F. nia.
  Qed.

  Theorem process_costs_value m fs pnl piv diff ins st stp :
    0 <= coll p -> 0 <= f_fund fs -> 0 <= diff -> 0 < ppx ->
    process_costs w pr p m fs pnl piv diff ins = Ok (st, stp) ->
    phi st <= Z.max 0 (coll p * cpm + pnl + piv - f_fund fs * cpm + 4 * ppm) /\
    nn st /\ 0 <= st_user_out st /\ 0 <= st_user_sec st.
  Proof.
    intros Hc Hf Hd Hx H. destruct (process_costs_run w pr p _ _ _ _ _ _ _ _ H) as (s1 & s2 & E1 & E2 & Run). clear H.
    set (G := coll p * cpm + pnl + piv - f_fund fs * cpm + 4 * ppm).
    cut (ends (pay_steps w pr p s2 pnl piv diff) (fun _ s => phi s <= Z.max 0 G /\ nn s /\ 0 <= st_user_out s /\ 0 <= st_user_sec s)).
    { rewrite Run. destruct stp; exact (fun x => x). }
    assert (Stop : forall s, nn s -> no_user s -> phi s = 0 -> phi s <= Z.max 0 G /\ nn s /\ 0 <= st_user_out s /\ 0 <= st_user_sec s).
    { intros s N (U1 & U2) E. rewrite E, U1, U2. repeat split; try apply N; lia. }
    destruct (step_add_pnl_spec w pr p Hx _ _ _ E1) as (a1 & G1 & A1 & V1).
    destruct (step_add_impact_spec w pr p Hx _ _ _ E2) as (a2 & G2 & A2 & V2).
    destruct (gains_phi _ _ _ G1 A1) as (N1 & U1 & B1 & F1); [unfold nn; cbn; lia|split; reflexivity|].
    destruct (gains_phi _ _ _ G2 A2 N1 U1) as (N2 & U2 & B2 & F2).
    assert (B : phi s2 <= Z.max 0 (coll p * cpm + Z.max 0 pnl + Z.max 0 piv)) by (unfold phi in B1 at 2; cbn in B1; lia).
    assert (F : st_fees s2 = fs) by (rewrite F2, F1; reflexivity).
    clear E1 E2 Run G1 G2 A1 A2 V1 V2 N1 U1 B1 F1 B2 F2. subst fs.
    (* the four payments that hand nothing to the user: each lowers the bound by its cost less one pnl-token unit
       (each step has the shape explained in C08.Waterfall.process_costs_ledger: stopped here / goes on) *)
    unfold pay_steps.
    eapply ends_pbind; [exact (step_funding_spec w Hw pr p Hcp Hpp s2 N2 Hf)|..];
      intros s3 (pc & psec & P & C & F3); destruct (paid_value _ _ _ _ _ _ _ _ _ _ U2 B P C) as (N3 & U3 & B3);
      [exact (Stop _ N3 U3 B3)|].
    clear N2 U2 B P C F3.
    eapply ends_pbind; [apply (step_pnl_negative_spec w Hw pr p Hcp Hpp), N3|..];
      intros s4 (pc4 & ps4 & P & C & F4); destruct (paid_value _ _ _ _ _ _ _ _ _ _ U3 B3 P C) as (N4 & U4 & B4);
      [exact (Stop _ N4 U4 B4)|].
    clear N3 U3 B3 P C.
    eapply ends_pbind; [apply (step_fees_spec w Hw pr p Hcp Hpp), N4|..];
      intros s5 (ca & pc5 & ps5 & D & Eca & P & C & _); destruct (paid_value _ _ _ _ _ _ _ _ _ _ U4 B4 P C) as (N5 & U5 & B5);
      [exact (Stop _ N5 U5 B5)|].
    apply (fees_total_excl_nonneg w Hw) in Eca. pose proof (Z.mul_nonneg_nonneg _ _ Eca (Z.lt_le_incl _ _ Hcp)) as Hca.
    clear N4 U4 B4 P C F4.
    eapply ends_pbind; [apply (step_impact_negative_spec w Hw pr p Hcp Hpp), N5|..];
      intros s6 (pc6 & ps6 & P & C & _); destruct (paid_value _ _ _ _ _ _ _ _ _ _ U5 B5 P C) as (N6 & U6 & B6);
      [exact (Stop _ N6 U6 B6)|].
    clear N5 U5 B5 P C.
    (* price impact diff: what is paid becomes claimable for the user, the value is unchanged *)
    assert (B : phi s6 <= Z.max 0 G) by (unfold G; lia).
    pose proof (step_impact_diff_spec w Hw pr p Hcp Hpp s6 diff N6 Hd) as S7.
    destruct (step_impact_diff w pr p s6 diff) as [s7|k s7|]; [|destruct S7 as [_ S7]|exact I];
      destruct S7 as (pc7 & ps7 & P & C & _); cbv beta iota delta [ends]; pose proof C as (_ & _ & _ & V1 & V2);
      rewrite (pays_phi _ _ _ _ _ _ _ _ P V1 V2); destruct U6 as (U1 & U2), P as (N7 & P1 & P2 & _);
      (split; [lia|]); (split; [exact N7|]); lia.
  Qed.
End P.
