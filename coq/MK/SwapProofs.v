(* MK.SwapProofs — what a successful / failed swap does to the pools. *)
From GV Require Import lib.Base C01.Model C01.Proofs MK.Market MK.Swap MK.MarketProofs.
Open Scope Z_scope.

(* all fields a swap never writes *)
Definition same_rest (a b : mstate) : Prop :=
  value_to_amount_divisor a = value_to_amount_divisor b /\ funding_adj a = funding_adj b /\
  oi_long a = oi_long b /\ oi_short a = oi_short b /\ oit_long a = oit_long b /\ oit_short a = oit_short b /\
  position_impact a = position_impact b /\ borrowing_factor a = borrowing_factor b /\
  funding_factor_per_second a = funding_factor_per_second b /\
  fa_long a = fa_long b /\ fa_short a = fa_short b /\ cfa_long a = cfa_long b /\ cfa_short a = cfa_short b /\
  cs_long a = cs_long b /\ cs_short a = cs_short b /\ total_borrowing a = total_borrowing b /\
  now a = now b /\ clk_impact a = clk_impact b /\ clk_borrowing a = clk_borrowing b /\
  clk_funding a = clk_funding b /\ vi_positions a = vi_positions b.

Lemma same_rest_refl a : same_rest a a.
Proof. unfold same_rest. repeat split. Qed.
Lemma same_rest_trans a b c : same_rest a b -> same_rest b c -> same_rest a c.
Proof.
  unfold same_rest. intros H1 H2.
  do 20 (destruct H1 as [? H1]; destruct H2 as [? H2]; split; [congruence|]). congruence.
Qed.

Lemma same_rest_set_supply s v : same_rest s (set_supply s v).
Proof. repeat split. Qed.

Lemma same_rest_divisor a b : same_rest a b -> value_to_amount_divisor a = value_to_amount_divisor b.
Proof. unfold same_rest. tauto. Qed.
Lemma same_rest_oi a b : same_rest a b ->
  oi_long a = oi_long b /\ oi_short a = oi_short b /\ oit_long a = oit_long b /\ oit_short a = oit_short b.
Proof. unfold same_rest. tauto. Qed.
Lemma same_rest_impact a b : same_rest a b ->
  position_impact a = position_impact b /\ now a = now b /\ clk_impact a = clk_impact b.
Proof. unfold same_rest. tauto. Qed.
Lemma same_rest_borrowing a b : same_rest a b ->
  borrowing_factor a = borrowing_factor b /\ total_borrowing a = total_borrowing b /\
  now a = now b /\ clk_borrowing a = clk_borrowing b.
Proof. unfold same_rest. tauto. Qed.

Section P.
  Variable w : Z.
  Hypothesis Hw : 1 <= w.
  Variable unit : Z.
  Hypothesis Hunit : 0 < unit.
  Variable cfg : config.

  Notation in_range := (in_range w).
  Notation wf_pool := (wf_pool w).
  Notation wf_price := (wf_price w).

  (* the amounts of try_execute: token in, token out, pool amount out, impact amount, capped input *)
  Record amounts_ok (s : mstate) (il : bool) (pin pout : price) (after impact tin out pao pia cin : Z) : Prop := {
    am_nonneg : 0 <= tin /\ 0 <= pia /\ 0 <= cin /\ 0 <= pao;
    am_pmax_pos : 0 < pr_max pout;
    am_floor : pr_max pout * pao <= tin * pr_min pin < pr_max pout * pao + pr_max pout;
    am_pos : 0 < impact -> tin = after + cin /\ out = pao + pia /\
        pia <= pamount (swap_impact s) (negb il) /\ cin <= pamount (swap_impact s) il /\
        pia * pr_max pout + cin * pr_max pin <= impact;
    am_nonpos : impact <= 0 -> tin = after - pia /\ out = pao /\ cin = 0 /\ 0 < tin /\
        (impact = 0 -> pia = 0) /\
        (impact < 0 -> 0 < pr_min pin /\ pr_min pin * (pia - 1) < - impact <= pr_min pin * pia)
  }.

  Lemma swap_amounts_ok s il pin pout after impact tin out pao pia cin ip :
    wf_price pin -> wf_price pout -> wf_pool (swap_impact s) -> 0 <= after ->
    swap_amounts w s il pin pout after impact = Ok (tin, out, pao, pia, cin, ip) ->
    pamount ip il = pamount (swap_impact s) il + after - tin /\
    pamount ip (negb il) = pamount (swap_impact s) (negb il) + pao - out /\
    wf_pool ip /\ amounts_ok s il pin pout after impact tin out pao pia cin.
  Proof.
    intros Hpin Hpout Hip Haft H. unfold swap_amounts in H.
    pose proof Hpin as [[Hin0 _] [Hin1 _]]. pose proof Hpout as [[Hout0 _] [Hout1 _]].
    destruct (0 <? impact) eqn:Himp.
    - rinv H. rename E into Epay, E0 into Ecap, E1 into Enegpay, E2 into Enegcap, E3 into Epool, E4 into Econv, E5 into Eout.
      destruct x as [spa capped]. cbn [fst snd] in *.
      app swap_impact_amount_pos Epay.
      destruct Epay as (Hspa & Hc0 & Hmx & Hsum & _ & _).
      destruct x0 as [cdin tin']. cbn [fst snd] in *.
      assert (Hcd : 0 <= cdin <= pamount (swap_impact s) il /\ tin' = after + cdin /\ cdin * pr_max pin <= capped).
      { destruct (capped =? 0) eqn:C0.
        - injection Ecap as <- <-. destruct (pamount_range w _ il Hip). lia.
        - rinv Ecap. rename E0 into Epay2, E1 into Etin. app to_sig_ok E. destruct E as [-> _].
          destruct x0 as [a2 c2]. cbn [fst snd] in *.
          app swap_impact_amount_pos Epay2. destruct Epay2 as (Ha2 & Hc2 & Hmx2 & Hsum2 & _ & _).
          apply uadd_some in Etin. destruct Etin as [_ Etin]. injection Ecap as <- <-.
          rewrite Z.abs_eq in Etin by lia. nia. }
      apply sneg_some in Enegpay. destruct Enegpay as [_ ->]. apply sneg_some in Enegcap. destruct Enegcap as [_ ->].
      app pool_apply_both Epool. rewrite Bool.negb_involutive in Epool. destruct Epool as (I1 & I2 & I3).
      app mul_div_floor Econv. apply uadd_some in Eout. destruct Eout as [_ ->].
      injection H as <- <- <- <- <- <-.
      destruct Hcd as (Hcd1 & -> & Hcd2).
      rewrite (Z.abs_eq spa), (Z.abs_eq cdin) by lia.
      split; [lia|]. split; [lia|]. split; [exact (I3 Hip)|].
      constructor; repeat split; try lia; try nia.
    - rinv H. rename E into Epay, E0 into Enegpay, E1 into Epool, E2 into Etin, E3 into Econv. destruct x as [spa c]. cbn [fst snd] in *.
      app swap_impact_amount_nonpos Epay.
      destruct Epay as (Hspa & -> & Hz & Hn).
      apply sneg_some in Enegpay. destruct Enegpay as [_ ->].
      app pool_apply_one Epool. destruct Epool as (I1 & I2 & I3).
      apply usub_some in Etin. destruct Etin as [R2 ->].
      app mul_div_floor Econv.
      injection H as <- <- <- <- <- <-.
      rewrite (Z.abs_neq spa) in * by lia.
      assert (0 < pr_max pout).
      { (* a zero divisor would have made mul_div fail *) nia. }
      split; [lia|]. split; [lia|]. split; [exact (I3 Hip)|].
      constructor; repeat split; try lia; try nia.
  Qed.

  Notation wf_state := (wf_state w).
  Notation wf_prices := (wf_prices w).

  (* the virtual inventory for swaps, when present, moves exactly like the liquidity pool *)
  Definition vi_follows (a b : mstate) : Prop :=
    match vi_swaps a, vi_swaps b with
    | Some x, Some y =>
        p_long y - p_long x = p_long (primary b) - p_long (primary a) /\
        p_short y - p_short x = p_short (primary b) - p_short (primary a)
    | None, None => True
    | _, _ => False
    end.

  Lemma vi_follows_refl a : vi_follows a a.
  Proof. unfold vi_follows. destruct (vi_swaps a); [lia|exact I]. Qed.

  Lemma vi_follows_same a b : vi_swaps b = vi_swaps a -> primary b = primary a -> vi_follows a b.
  Proof. unfold vi_follows. intros -> ->. destruct (vi_swaps a); [lia|exact I]. Qed.

  Lemma vi_follows_trans a b c : vi_follows a b -> vi_follows b c -> vi_follows a c.
  Proof. unfold vi_follows. destruct (vi_swaps a), (vi_swaps b), (vi_swaps c); try tauto; lia. Qed.

  (* writing the virtual inventory [v] that [market_apply_delta] returned into a state [s1] that
     already has the new liquidity pool and still the old inventory of [s] *)
  Lemma commit_vi_ok s s1 v :
    vi_swaps s1 = vi_swaps s -> wf_opool w v -> vi_moved (primary s) (primary s1) (vi_swaps s) v ->
    let s2 := match v with Some vp => set_vi_swaps s1 (Some vp) | None => s1 end in
    primary s2 = primary s1 /\ swap_impact s2 = swap_impact s1 /\ fee s2 = fee s1 /\
    total_supply s2 = total_supply s1 /\ same_rest s1 s2 /\ vi_follows s s2 /\ wf_opool w (vi_swaps s2).
  Proof.
    unfold vi_follows, vi_moved. intros EV Hv M. destruct v as [vp|]; cbn.
    - repeat split; assumption || apply Hv.
    - rewrite EV. destruct (vi_swaps s); [contradiction|]. repeat split.
  Qed.

  Record swap_facts (s s' : mstate) (il : bool) (amount : Z) (ps : prices) (r : swap_report) (t : swap_trace) : Prop := {
    sf_hold_in : holdings s' il = holdings s il + amount;
    sf_hold_out : holdings s' (negb il) = holdings s (negb il) - sr_out r;
    sf_supply : total_supply s' = total_supply s;
    sf_rest : same_rest s s';
    sf_vi : vi_follows s s';
    sf_wf : wf_state s';
    sf_fee_in : pamount (fee s') il = pamount (fee s) il + f_receiver (sr_fees r);
    sf_fee_out : pamount (fee s') (negb il) = pamount (fee s) (negb il);
    sf_prim_in : pamount (primary s') il = pamount (primary s) il + st_token_in t + f_pool (sr_fees r);
    sf_prim_out : pamount (primary s') (negb il) = pamount (primary s) (negb il) - st_pool_out t;
    sf_imp_in : pamount (swap_impact s') il = pamount (swap_impact s) il + st_after_fees t - st_token_in t;
    sf_imp_out : pamount (swap_impact s') (negb il) = pamount (swap_impact s) (negb il) + st_pool_out t - sr_out r;
    sf_amount_pos : 0 < amount;
    sf_out_nonneg : 0 <= sr_out r;
    sf_after_nonneg : 0 <= st_after_fees t;
    sf_fpool_nonneg : 0 <= f_pool (sr_fees r);
    sf_recv_nonneg : 0 <= f_receiver (sr_fees r);
    sf_fee_split : st_after_fees t + f_receiver (sr_fees r) + f_pool (sr_fees r) = amount;
    sf_amounts : amounts_ok s il (side_price ps il) (side_price ps (negb il)) (st_after_fees t) (sr_impact_value r)
                   (st_token_in t) (sr_out r) (st_pool_out t) (sr_impact_amount r) (st_capped_in t)
  }.

  Theorem swap_exec_trace_ok s il amount ps s' r t :
    wf_state s -> wf_prices ps -> in_range amount ->
    swap_exec_trace w unit cfg s il amount ps = Ok (s', r, t) ->
    swap_facts s s' il amount ps r t.
  Proof.
    intros Hs Hps Ha H. unfold swap_exec_trace in H.
    destruct Hs as (Hsup & Hprim & Himpp & Hfee & Hvi).
    pose proof (side_price_wf w ps il Hps) as Hpin. pose proof (side_price_wf w ps (negb il) Hps) as Hpout.
    (* E..E5 are reassign_values and the pool delta, E6 the impact; the inversion stops at the amounts' [let] *)
    rinv H. clear E E0 E1 E2 E3 E4 E5 E6.
    rename E7 into Efees, E8 into Erecv, E9 into Efeepool, x9 into cf, E10 into Eamounts.
    destruct x6 as [impv bc], x7 as [after fs], x10 as [[[[[tin out] pao] pia] cin] ip]. cbn [fst snd] in *.
    app apply_fees_ok Efees. destruct Efees as (Fsum & Faft & Fpool & _ & _ & [Rrecv _]).
    app to_sig_ok Erecv. destruct Erecv as [-> _].
    app pool_apply_one Efeepool. destruct Efeepool as (C1 & C2 & C3).
    app swap_amounts_ok Eamounts.
    destruct Eamounts as (A1 & A2 & A3 & Am). pose proof Am as [(A4 & A5 & _ & A7) _ _ A10 A11].
    (* the liquidity delta; E3..E5 are the validations *)
    rinv H. clear E3 E4 E5. rename E into Esum, E0 into Esig, E1 into Eopp, E2 into Eliq.
    destruct x9 as [l v]. cbn [fst snd] in *.
    apply uadd_some in Esum. destruct Esum as [_ ->]. app to_sig_ok Esig. destruct Esig as [-> _].
    app to_opp_ok Eopp. destruct Eopp as [-> _].
    app market_apply_delta_ok Eliq. destruct Eliq as (L & Hv & M).
    app pool_apply_both L. destruct L as (L1 & L2 & L3).
    (* the Cache written over the old market, then the virtual inventory *)
    set (s1 := set_fee (set_swap_impact (set_primary s l) ip) cf) in *.
    destruct (commit_vi_ok s s1 v eq_refl Hv M) as (G1 & G2 & G3 & G4 & G5 & G6 & G7).
    injection H as <- <- <-.
    assert (0 <= out) by (destruct (Z_lt_le_dec 0 impv) as [P|P]; [destruct (A10 P)|destruct (A11 P)]; lia).
    destruct Ha as [Ha _].
    constructor; cbn [sr_out sr_impact_value sr_impact_amount sr_fees st_after_fees st_token_in st_capped_in st_pool_out];
      unfold holdings; rewrite ?G1, ?G2, ?G3, ?G4; cbn [s1 primary swap_impact fee total_supply set_fee set_swap_impact set_primary];
      try exact G6; try exact Am; try lia.
    - (* [s1] has the unwritten fields of [s] *) exact G5.
    - unfold MarketProofs.wf_state. rewrite G1, G2, G3, G4. auto 6.
  Qed.

  Lemma swap_exec_trace_parts s il amount ps s' r t :
    swap_exec_trace w unit cfg s il amount ps = Ok (s', r, t) ->
    exists d bc,
      swap_impact_value w unit cfg s d true = Ok (sr_impact_value r, bc) /\
      apply_fees w unit (c_swap_fee cfg) bc amount = Some (st_after_fees t, sr_fees r).
  Proof.
    intros H. unfold swap_exec_trace in H. rinv H.
    destruct x6 as [impv bc], x7 as [after fs], x10 as [[[[[tin out] pao] pia] cin] ip]. cbn [fst snd] in *.
    rinv H. injection H as <- <- <-. cbn. eauto.
  Qed.

  Lemma apply_factors_e_zero v e x : apply_factors_e w unit v 0 e = Ok x -> x = 0.
  Proof.
    unfold apply_factors_e. destruct (apply_factors w unit v 0 e) as [y|] eqn:E; [|discriminate]. intros [= <-].
    app apply_factors_ok E. destruct E as (X & _ & _ & ->). rewrite Z.mul_0_r. apply Z.div_0_l. lia.
  Qed.

  Lemma price_impact_zero_factors ip d v bc : ip_positive ip = 0 -> ip_negative ip = 0 ->
    price_impact w unit ip d = Ok (v, bc) -> v = 0.
  Proof.
    intros Hp Hn H. unfold price_impact in H. rinv H. injection H as <- _.
    assert (Hadj : adjusted_factors ip = (0, 0)) by (unfold adjusted_factors; rewrite Hp, Hn; reflexivity).
    assert (Hsd : forall hp y, signed_delta w hp 0 0 = Ok y -> y = 0).
    { intros hp y Hy. unfold signed_delta in Hy. rinv Hy; app to_sig_ok E0; destruct E0 as [-> _]; cbn in *.
      - congruence.
      - apply sneg_some in Hy. lia. }
    destruct (pd_same_side d).
    - unfold impact_same_side in E. rewrite Hadj in E. cbn [fst snd] in E.
      replace (if pd_next d <? pd_initial d then 0 else 0) with 0 in E by (destruct (pd_next d <? pd_initial d); reflexivity).
      rinv E. apply apply_factors_e_zero in E0. apply apply_factors_e_zero in E1. subst. eapply Hsd; eassumption.
    - unfold impact_cross_over in E. rewrite Hadj in E. cbn [fst snd] in E.
      rinv E. apply apply_factors_e_zero in E0. apply apply_factors_e_zero in E1. subst. eapply Hsd; eassumption.
  Qed.

  Lemma swap_impact_value_zero_factors s d include_vi v bc :
    ip_positive (c_swap_impact cfg) = 0 -> ip_negative (c_swap_impact cfg) = 0 ->
    swap_impact_value w unit cfg s d include_vi = Ok (v, bc) -> v = 0.
  Proof.
    intros Hp Hn H. unfold swap_impact_value in H.
    destruct (price_impact w unit (c_swap_impact cfg) d) as [[v0 b0]|] eqn:E; cbn [rbind] in H; [|discriminate].
    apply (price_impact_zero_factors _ _ _ _ Hp Hn) in E. subst v0. cbn [fst] in H.
    replace (0 <? 0) with false in H by reflexivity. cbn in H. injection H as <- _. reflexivity.
  Qed.
End P.
