(* C23 — action lifecycle.  Over every history of create / execute / close / cancel-if-no-position: terminal states
   are absorbing and reached by exactly one transition; who may close what, and that a close returns all escrow
   and lamports; a failed execution cancels without touching escrow or market. *)
From GV Require Import lib.Base C23.Model C23.Proofs.
Open Scope Z_scope.

(* ActionState / ActionHeader: transitions start at Pending only *)
Theorem c23_completed_only_from_pending : forall s s',
  st_completed s = Some s' <-> (s = Pending /\ s' = Completed).
Proof. intros [] s'; cbn; split; try discriminate; try (now intros [[=] _]); [now intros [= <-]|now intros [_ ->]]. Qed.

Theorem c23_cancelled_only_from_pending : forall s s',
  st_cancelled s = Some s' <-> (s = Pending /\ s' = Cancelled).
Proof. intros [] s'; cbn; split; try discriminate; try (now intros [[=] _]); [now intros [= <-]|now intros [_ ->]]. Qed.

Theorem c23_header_transitions : forall b b',
  (hdr_completed b = Ok b' -> b = 0 /\ b' = 1) /\ (hdr_cancelled b = Ok b' -> b = 0 /\ b' = 2).
Proof. intros; split; [apply hdr_completed_ok | apply hdr_cancelled_ok]. Qed.

Theorem c23_terminal_absorbing : forall ops1 ops2 id a,
  get (run ops1 w0) id = Some a -> byte_terminal (a_state a) = true ->
  exists a', get (run (ops1 ++ ops2) w0) id = Some a' /\ a_state a' = a_state a /\
             a_done a' = a_done a /\ a_cancel a' = a_cancel a.
Proof.
  intros ops1 ops2 id a Hg Ht. destruct (terminal_absorbing ops2 _ id a Hg Ht) as (a' & Hg' & Hs & _).
  rewrite <- run_app in Hg'. exists a'. split; [exact Hg'|]. split; [exact Hs|].
  apply reachable_ainv in Hg as [_ D C], Hg' as [_ D' C']. rewrite Hs in *. lia.
Qed.

Theorem c23_exactly_once : forall ops id a,
  get (run ops w0) id = Some a ->
  a_done a + a_cancel a = ind (byte_terminal (a_state a)) /\
  (a_done a = 1 <-> a_state a = 1) /\ (a_cancel a = 1 <-> a_state a = 2) /\
  0 <= a_done a <= 1 /\ 0 <= a_cancel a <= 1.
Proof. exact exactly_once. Qed.

Theorem c23_transition_counters_monotone : forall ops1 ops2 id a,
  get (run ops1 w0) id = Some a ->
  exists a', get (run (ops1 ++ ops2) w0) id = Some a' /\ a_done a <= a_done a' /\ a_cancel a <= a_cancel a'.
Proof.
  intros ops1 ops2 id a Hg. rewrite run_app.
  destruct (run_evolves ops2 _ id a Hg) as (a' & Hg' & (_ & _ & D & C & _)). eauto.
Qed.

Theorem c23_closed_is_final : forall ops w id a,
  get w id = Some a -> a_open a = false -> get (run ops w) id = Some a.
Proof.
  intros ops w id a Hg Hc. destruct (run_evolves ops w id a Hg) as (a' & Hg' & (_ & _ & _ & _ & O)).
  now rewrite (O Hc) in Hg'.
Qed.

(* any successful close instruction: the caller is the owner, or holds the keeper role and the
   action is terminal, or (GLV shift only) holds the role and is the shift's funder *)
Theorem c23_close_rules : forall w caller r id ce ao a1 a2 w' a,
  step w (Close caller r id ce ao a1 a2) = Ok w' -> get w id = Some a ->
  a_open a = true /\
  (caller = a_owner a \/
   (r = true /\ (byte_terminal (a_state a) = true \/ (a_kind a = 6 /\ caller = a_funder a)))).
Proof. exact close_rules. Qed.

(* pending close: owner only (or the funder of a GLV shift), and everything comes back *)
Theorem c23_pending_close_owner_only_full_refund : forall ops caller r id ce ao a1 a2 w' a a',
  step (run ops w0) (Close caller r id ce ao a1 a2) = Ok w' ->
  get (run ops w0) id = Some a -> get w' id = Some a' ->
  a_state a = 0 -> a_open a' = false ->
  (caller = a_owner a \/ (a_kind a = 6 /\ caller = a_funder a /\ r = true)) /\
  a_paid1 a' = a_funded1 a /\ a_paid2 a' = a_funded2 a /\ a_paid_lamports a' = a_lamports_in a /\
  a_fee_paid a = 0.
Proof. exact pending_close_full_refund. Qed.

(* every close that removes the account delivers all escrowed tokens and all lamports *)
Theorem c23_close_refund : forall w caller r id ce ao a1 a2 w' a a',
  step w (Close caller r id ce ao a1 a2) = Ok w' -> get w id = Some a -> get w' id = Some a' ->
  a_open a' = false ->
  a_paid1 a' = a_paid1 a + a_esc1 a /\ a_paid2 a' = a_paid2 a + a_esc2 a /\
  a_paid_out a' = a_paid_out a + a_esc_out a /\ a_paid_lamports a' = a_paid_lamports a + a_lamports a /\
  a_esc1 a' = 0 /\ a_esc2 a' = 0 /\ a_esc_out a' = 0 /\ a_lamports a' = 0 /\ a_state a' = a_state a.
Proof. exact close_refund. Qed.

Theorem c23_close_frame : forall w caller r id ce ao a1 a2 w',
  step w (Close caller r id ce ao a1 a2) = Ok w' ->
  w_bal1 w' = w_bal1 w /\ w_bal2 w' = w_bal2 w /\ w_rev w' = w_rev w /\
  forall id', id' <> id -> get w' id' = get w id'.
Proof. exact close_frame. Qed.

Theorem c23_execute_rules : forall w k kp id oc throw fee out w' a,
  step w (Execute k kp id oc throw fee out) = Ok w' -> get w id = Some a ->
  k = true /\ a_open a = true /\ a_state a = 0.
Proof. exact execute_rules. Qed.

(* a failed execution that does not abort the transaction cancels the action, gives the escrow
   back untouched and leaves the market (balances and revision) and all other actions as they were *)
Theorem c23_failed_execution_cancels_without_market_change : forall w k kp id oc throw fee out w' a,
  step w (Execute k kp id oc throw fee out) = Ok w' -> get w id = Some a ->
  oc <> ExOk ->
  exists a',
    get w' id = Some a' /\ a_state a = 0 /\ a_state a' = 2 /\ throw = false /\
    a_cancel a' = a_cancel a + 1 /\ a_done a' = a_done a /\
    a_esc1 a' = a_esc1 a /\ a_esc2 a' = a_esc2 a /\ a_esc_out a' = a_esc_out a /\
    a_lamports a - a_lamports a' = execution_lamports (a_max_exec a) fee /\
    w_bal1 w' = w_bal1 w /\ w_bal2 w' = w_bal2 w /\ w_rev w' = w_rev w /\
    forall id', id' <> id -> get w' id' = get w id'.
Proof. exact failed_execution. Qed.

(* hard failures (throw_on_execution_error) and all other errors change nothing at all *)
Theorem c23_hard_failure_is_noop : forall w k kp id oc fee out,
  oc <> ExOk -> apply w (Execute k kp id oc true fee out) = w.
Proof.
  intros. unfold apply. now destruct (hard_failure_errors w k kp id oc fee out H) as [e ->].
Qed.

Theorem c23_successful_execution_completes : forall w k kp id throw fee out w' a,
  step w (Execute k kp id ExOk throw fee out) = Ok w' -> get w id = Some a ->
  exists a',
    get w' id = Some a' /\ a_state a = 0 /\ a_state a' = 1 /\ a_done a' = a_done a + 1 /\
    a_esc1 a' = a_esc1 a - a_in1 a /\ a_esc2 a' = a_esc2 a - a_in2 a /\
    w_bal1 w' = w_bal1 w + a_in1 a /\ w_bal2 w' = w_bal2 w + a_in2 a.
Proof.
  intros w k kp id throw fee out w' a
    (b & d & st & x & -> & Hgb & Ho & _ & _ & _ & _ & Hd & Hs & -> & _ & ->)%step_execute_inv Hg.
  rewrite Hg in Hgb. injection Hgb as <-. injection Hd as <-.
  apply hdr_completed_ok in Hs as [Hs0 ->].
  eexists. split; [rewrite get_with_market; eapply get_put_eq; eauto|]. cbn. repeat split; auto.
Qed.

Theorem c23_escrow_accounting : forall ops id a,
  get (run ops w0) id = Some a ->
  a_funded1 a = a_esc1 a + a_paid1 a + (if a_state a =? 1 then a_in1 a else 0) /\
  a_funded2 a = a_esc2 a + a_paid2 a + (if a_state a =? 1 then a_in2 a else 0) /\
  a_lamports_in a = a_lamports a + a_fee_paid a + a_paid_lamports a /\
  0 <= a_fee_paid a <= a_max_exec a * (a_done a + a_cancel a) /\
  (a_open a = false -> a_esc1 a = 0 /\ a_esc2 a = 0 /\ a_esc_out a = 0 /\ a_lamports a = 0).
Proof. intros ops id a []%reachable_ainv. auto. Qed.

Theorem c23_market_accounting : forall ops,
  w_bal1 (run ops w0) = sum_of consumed1 (w_actions (run ops w0)) /\
  w_bal2 (run ops w0) = sum_of consumed2 (w_actions (run ops w0)).
Proof. intros ops. pose proof (run_winv ops w0 winv_w0) as []. auto. Qed.

(* non-vacuity *)
Definition demo : list op :=
  [ Create 100 200 0 500 70 200000 800;                       (* deposit by 100 *)
    Create 101 200 6 0 0 0 1200;                              (* GLV shift funded by keeper 200 *)
    Execute true 200 0 ExFail false 250000 0;                 (* soft failure: cancelled *)
    Close 300 false 0 true true true true;                    (* stranger: rejected *)
    Close 200 true 0 true true true true;                     (* keeper closes the cancelled deposit *)
    Close 200 true 1 true true true true ].                   (* funder closes the pending GLV shift *)

Example c23_demo_final :
  map (fun a => (a_open a, a_state a, a_paid1 a, a_paid2 a, a_fee_paid a)) (w_actions (run demo w0))
  = [ (false, 2, 500, 70, 200000); (false, 0, 0, 0, 0) ] /\
  w_bal1 (run demo w0) = 0 /\ w_rev (run demo w0) = 0.
Proof. vm_compute. repeat split. Qed.

Example c23_demo_completed :
  let w := run [ Create 100 200 3 500 0 300000 800; Execute true 200 0 ExOk false 1000 42;
                 Execute true 200 0 ExOk false 1000 42; CancelIfNoPosition true 0;
                 Close 100 false 0 true true true true ] w0 in
  map (fun a => (a_open a, a_state a, a_done a, a_cancel a, a_paid_out a, a_paid1 a)) (w_actions w)
  = [ (false, 1, 1, 0, 42, 0) ] /\ w_bal1 w = 500 /\ w_rev w = 1.
Proof. vm_compute. repeat split. Qed.
