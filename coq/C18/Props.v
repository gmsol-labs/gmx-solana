(* C18 — role membership behaves like a set of grants gated by enabled roles.

   Concrete side: [rstore] = the two fixed maps of RoleStore (C34 model), bitmaps over role
   indices, name check through the C35 model.  Abstract side ([astate]): [ar] = role key ->
   (stored name, enabled), [ag] = set of (address, role key) grants, with the operations
   [a_enable / a_disable / a_grant / a_revoke / a_has] (C18/Proofs.v).  [sim s A] = representation
   invariant + "A is the abstraction of s".  *)
From stdpp Require Import gmap.
From GV Require lib.Base C34.Model C34.Refine C35.Model C18.Model C18.Proofs C18.Sim C18.Hist.
Import GV.lib.Base(res, Ok, Err, rbind, of_opt).
Import GV.C34.Model GV.C34.Refine GV.C35.Model GV.C18.Model GV.C18.Proofs GV.C18.Sim GV.C18.Hist.
Open Scope Z_scope.

Local Notation M s := (abs (members s)).

Theorem c18_init : sim rstore0 (mkA ∅ ∅).
Proof. exact sim_zero. Qed.

(* REFINEMENT for arbitrary operation sequences (enable, disable, grant, revoke, has_role):
   the RoleStore never panics and returns exactly the results of the abstract machine,
   error codes included; the invariant is kept *)
Theorem c18_roles_refine : forall ops s A, sim s A ->
  exists s', rrun ops s = Ok (fst (arun ops A), s') /\ sim s' (snd (arun ops A)).
Proof. exact run_sim. Qed.

(* an address holds a role exactly when the role is enabled (and its stored name reads back
   as the requested name) and the grant is in the grant set *)
Theorem c18_holds_iff : forall s A a r, sim s A ->
  has_role s a r = Ok (Ok true) <->
  exists nm, ar A !! r_key r = Some (nm, true) /\ name_ok nm (r_name r) = true /\ (a, r_key r) ∈ ag A.
Proof.
  intros s A a r S. rewrite (has_sim s A a r S). unfold a_has, a_status. split.
  - case_decide as Hm; [|done].
    destruct (ar A !! r_key r) as [[nm en]|] eqn:E; [|done].
    destruct (name_ok nm (r_name r)) eqn:N; [|done]. destruct en; [|done].
    intros [= B]. apply bool_decide_eq_true in B. by exists nm.
  - intros (nm & E & N & G). rewrite decide_True by (by eapply grant_is_member).
    rewrite E, N. do 2 f_equal. by apply bool_decide_eq_true.
Qed.

(* every operation: result = abstract result; FAILURE WITHOUT SIDE EFFECT: when the result is
   an error the concrete store is unchanged (and the abstract state trivially so) *)
Theorem c18_enable : forall s A r, sim s A ->
  exists s', enable_role s r = Ok (s', snd (a_enable A r)) /\ sim s' (fst (a_enable A r)) /\
             (forall e, snd (a_enable A r) = Err e -> s' = s).
Proof. exact enable_sim. Qed.
Theorem c18_disable : forall s A r, sim s A ->
  exists s', disable_role s r = Ok (s', snd (a_disable A r)) /\ sim s' (fst (a_disable A r)) /\
             (forall e, snd (a_disable A r) = Err e -> s' = s).
Proof. exact disable_sim. Qed.
Theorem c18_grant : forall s A a r, sim s A ->
  exists s', grant s a r = Ok (s', snd (a_grant A a r)) /\ sim s' (fst (a_grant A a r)) /\
             (forall e, snd (a_grant A a r) = Err e -> s' = s).
Proof. exact grant_sim. Qed.
Theorem c18_revoke : forall s A a r, sim s A ->
  exists s', revoke s a r = Ok (s', snd (a_revoke A a r)) /\ sim s' (fst (a_revoke A a r)) /\
             (forall e, snd (a_revoke A a r) = Err e -> s' = s).
Proof. exact revoke_sim. Qed.

(* the three failures named by the property *)
Theorem c18_grant_held_fails : forall A a r nm, ar A !! r_key r = Some (nm, true) ->
  name_ok nm (r_name r) = true -> (a, r_key r) ∈ ag A -> a_grant A a r = (A, Err EC_PRE).
Proof.
  intros A a r nm E N G. unfold a_grant, a_status. rewrite E, N. by rewrite decide_True.
Qed.
Theorem c18_revoke_absent_fails : forall A a r, (a, r_key r) ∉ ag A ->
  exists e, a_revoke A a r = (A, Err e).
Proof.
  intros A a r G. unfold a_revoke, a_status.
  destruct (ar A !! r_key r) as [[nm en]|]; [|by eexists].
  destruct (name_ok nm (r_name r)); [|by eexists].
  case_decide; [|by eexists]. rewrite decide_False by done. by eexists.
Qed.
Theorem c18_enable_enabled_fails : forall A r nm, ar A !! r_key r = Some (nm, true) ->
  exists e, a_enable A r = (A, Err e).
Proof.
  intros A r nm E. unfold a_enable. rewrite E. destruct (name_ok nm (r_name r)); by eexists.
Qed.

(* capacities: the 33rd role and the 65th member are refused, nothing changes *)
Theorem c18_roles_capacity : forall s A r nb, sim s A -> ar A !! r_key r = None ->
  str_to_bytes NAME_LEN (r_name r) = Ok nb -> MAX_ROLES <= Z.of_nat (size (ar A)) ->
  enable_role s r = Ok (s, Err EC_FULL).
Proof.
  intros s A r nb S E N F. destruct (enable_sim s A r S) as (s' & Es & _ & U).
  unfold a_enable in *. rewrite E, N in *. rewrite decide_True in * by done.
  cbn [snd fail] in *. by rewrite (U _ eq_refl) in Es.
Qed.
Theorem c18_members_capacity : forall s A a r nm, sim s A ->
  ar A !! r_key r = Some (nm, true) -> name_ok nm (r_name r) = true ->
  a ∉ amembers A -> MAX_MEMBERS <= Z.of_nat (size (amembers A)) ->
  grant s a r = Ok (s, Err EC_FULL).
Proof.
  intros s A a r nm S E N Nm F. destruct (grant_sim s A a r S) as (s' & Es & _ & U).
  assert (Ng : (a, r_key r) ∉ ag A) by (intros H; apply Nm; by eapply grant_is_member).
  unfold a_grant, a_status in *. rewrite E, N in *.
  rewrite decide_False in * by done. rewrite decide_False in * by done. rewrite decide_True in * by done.
  cbn [snd fail] in *. by rewrite (U _ eq_refl) in Es.
Qed.

(* members = addresses with at least one grant: after the last role is revoked the address
   is no longer stored, and the counters are the abstract sizes *)
Theorem c18_revoke_last_drops_member : forall s A a, sim s A -> (forall k, (a, k) ∉ ag A) ->
  role_value s a = Ok None /\ forall r, has_role s a r = Ok (Err EC_DENIED).
Proof.
  intros s A a S N. pose proof S as (W & _).
  assert (Nm : a ∉ amembers A).
  { unfold amembers. rewrite elem_of_map. intros ([a' k] & -> & H). by apply (N k). }
  split.
  - unfold role_value. rewrite (get_is_lookup 0 MAX_MEMBERS _ _ (rwf_members s W)).
    destruct (M s !! a) eqn:E; [|done]. exfalso. apply Nm. apply (sim_members s A a S). eauto.
  - intros r. rewrite (has_sim s A a r S). unfold a_has. by rewrite decide_False.
Qed.
Theorem c18_counts : forall s A, sim s A ->
  num_roles s = Z.of_nat (size (ar A)) /\ num_members s = Z.of_nat (size (amembers A)).
Proof.
  intros s A S. pose proof S as (W & _). unfold num_roles, num_members, len. split.
  - by rewrite (sim_roles_size s A S), (abs_size rmeta0 MAX_ROLES _ (rwf_roles s W)).
  - by rewrite (sim_members_size s A S), (abs_size 0 MAX_MEMBERS _ (rwf_members s W)).
Qed.

(* RESTART RULE: while the cached slot differs from the sysvar, Store::has_role ignores the
   requested role: Ok(true) exactly for holders of RESTART_ADMIN, an error for everyone else;
   otherwise it is RoleStore::has_role *)
Theorem c18_restart_only_restart_admin : forall ra st cur a r A, sim (st_roles st) A ->
  store_has_role ra st cur a r =
    Ok (if has_restarted st cur then
          match a_has A a ra with Ok true => Ok true | Ok false => Err EC_OUTDATED | Err c => Err c end
        else a_has A a r).
Proof.
  intros ra st cur a r A S. unfold store_has_role. destruct (has_restarted st cur).
  - rewrite (has_sim _ A a ra S). cbn [rbind]. by destruct (a_has A a ra) as [[|]|].
  - by rewrite (has_sim _ A a r S).
Qed.

Theorem c18_admin : forall ra st cur a A, sim (st_roles st) A ->
  has_admin_role ra st cur a =
    Ok (if st_authority st =? a then Ok true
        else if has_restarted st cur then a_has A a ra else Ok false).
Proof.
  intros ra st cur a A S. unfold has_admin_role. destruct (st_authority st =? a); [done|].
  destruct (has_restarted st cur); [|done]. by rewrite (has_sim _ A a ra S).
Qed.

Theorem c18_authority_always_admin : forall ra st cur,
  has_admin_role ra st cur (st_authority st) = Ok (Ok true).
Proof. exact authority_always_admin. Qed.

(* non-vacuity: a concrete history through the model *)
Example c18_ex :
  let r1 := mkrole 5 [82; 49] in let r2 := mkrole 3 [82; 50] in
  match rrun [REnable r1; REnable r2; RGrant 7 r1; RGrant 7 r1; RHas 7 r1; RDisable r1; RHas 7 r1;
              RRevoke 7 r1; RHas 7 r2; REnable r1; RHas 7 r1] rstore0 with
  | Ok (outs, s) => outs = [RetUnit (Ok tt); RetUnit (Ok tt); RetUnit (Ok tt); RetUnit (Err EC_PRE);
                            RetBool (Ok true); RetUnit (Ok tt); RetBool (Err EC_PRE); RetUnit (Ok tt);
                            RetBool (Err EC_DENIED); RetUnit (Ok tt); RetBool (Err EC_DENIED)]
                    /\ num_members s = 0 /\ num_roles s = 2
  | Err _ => False
  end.
Proof. vm_compute. repeat split; reflexivity. Qed.
