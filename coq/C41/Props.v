(* C41 — property theorems.  Model (C41/Model.v): TransactionGroup::add / validate_one / optimize,
   TransactionGroupOptions::optimizable / optimize, ParallelGroup::optimize, AtomicGroup::merge,
   instructions_with_options, transaction_size(_after_merge), transaction_size_with_luts, and a
   hand model [real_size] of the serialized v0 transaction (trusted, tied to bincode by the
   differential check).  tg : list pg is the content of a TransactionGroup. *)
From GV Require Import lib.Base C41.Model C41.Proofs C41.Proofs2.
Open Scope Z_scope.

(* no instruction is dropped, duplicated or reordered (whole flattened sequence, any input) *)
Theorem c41_optimize_preserves_instruction_sequence : forall o ts allow tg,
  tg_ixs (tg_optimize o ts allow tg) = tg_ixs tg.
Proof.
  intros o ts allow tg. rewrite !tg_ixs_groups. apply (merges_ixs o ts allow), tg_optimize_merges.
Qed.

(* an atomic group is never split: its instructions stay one contiguous block of one final group *)
Theorem c41_atomic_never_split : forall o ts allow tg g,
  In g (tg_groups tg) -> a_ixs g <> [] ->
  exists f, In f (tg_groups (tg_optimize o ts allow tg)) /\
            exists pre post, a_ixs f = pre ++ a_ixs g ++ post.
Proof.
  intros o ts allow tg g Hg Hne. apply (merges_contains _ _ _ _ _ _ (tg_optimize_merges o ts allow tg) Hne).
  exists g. split; [exact Hg | apply contains_self].
Qed.

(* every final group is made of original groups by merges that `optimizable` admitted ... *)
Theorem c41_final_groups_made : forall o ts allow tg f,
  In f (tg_groups (tg_optimize o ts allow tg)) ->
  exists parts, Made o ts allow (tg_groups tg) f parts.
Proof.
  intros o ts allow tg. apply (merges_closed _ _ _ _ _ (tg_optimize_merges o ts allow tg)).
  - intros x y Ho [px Hx] [py Hy]. exists (px ++ py). apply M_merge; assumption.
  - intros g Hg. exists [g]. apply M_orig, Hg.
Qed.

(* ... which means: its instructions are those of its parts in order, parts are original groups,
   several parts => every part (and the result) is mergeable; without permission to change the
   payer all parts share the final payer; the final payer is the first part's payer *)
Theorem c41_made_spec : forall o ts allow S f parts, Made o ts allow S f parts ->
  a_ixs f = flat_ixs parts /\ (forall p, In p parts -> In p S) /\
  ((2 <= length parts)%nat -> a_merge f = true /\ forall p, In p parts -> a_merge p = true) /\
  (allow = false -> forall p, In p parts -> a_payer p = a_payer f) /\
  (exists p r, parts = p :: r /\ a_payer f = a_payer p).
Proof.
  intros o ts allow S f parts H. split; [eapply made_ixs; eassumption|].
  split; [eapply made_parts_orig; eassumption|].
  split; [eapply made_several_mergeable; eassumption|].
  split; [eapply made_payer; eassumption | eapply made_payer_first; eassumption].
Qed.

(* the same at the level of parallel groups: a final parallel group is the optimized form of one
   original group or a merge of SINGLE groups whose parallel groups all allowed merging; its flag
   is the first source's flag *)
Theorem c41_final_parallel_groups_made : forall o ts allow tg p,
  In p (tg_optimize o ts allow tg) -> p = DEFAULT_PG \/ exists srcs, PMade o ts allow tg p srcs.
Proof. exact tg_optimize_pmade. Qed.

Theorem c41_pmade_flags : forall o ts allow T P srcs, PMade o ts allow T P srcs ->
  (exists s r, srcs = s :: r /\ p_merge P = p_merge s) /\
  ((2 <= length srcs)%nat -> forall s, In s srcs -> p_merge s = true).
Proof.
  intros o ts allow T P srcs H.
  split; [exact (pmade_first _ _ _ _ _ _ H) | exact (pmade_several_mergeable _ _ _ _ _ _ H)].
Qed.

(* limits: everything `add` lets in passed validate_one, and after optimize every group still
   respects max_instructions_per_tx and its estimated size — measured on exactly the instruction
   list the transaction is built from (compute budget + configured memo) — is within
   max_transaction_size *)
Theorem c41_limits_respected : forall o ts allow adds f,
  In f (tg_groups (tg_optimize o ts allow (fst (tg_add_all o ts adds)))) ->
  ag_len f <= o_max_ix o /\ group_size true (o_memo o) ts f <= o_max_size o.
Proof.
  intros o ts allow adds. apply (merges_closed _ _ _ _ _ (tg_optimize_merges o ts allow _) (within o ts)).
  - intros x y Ho _ _. apply (within_merge o ts allow), Ho.
  - intros g Hg. apply validate_within, (tg_add_all_valid o ts adds g Hg).
Qed.

(* estimate vs serialized size: the estimate is exactly the size of the serialized transaction
   ([real_size], the hand model tied to bincode), for every payer, instruction list and tables *)
Theorem c41_estimate_eq_real : forall payer l ts, estimate payer l ts = real_size payer l ts.
Proof. exact estimate_eq_real. Qed.

(* hence every final group's serialized transaction is within max_transaction_size *)
Theorem c41_real_size_within_limit : forall o ts allow adds f,
  In f (tg_groups (tg_optimize o ts allow (fst (tg_add_all o ts adds)))) ->
  real_size (a_payer f) (ixs_with_options true (o_memo o) f) ts <= o_max_size o.
Proof.
  intros o ts allow adds f Hf. rewrite <- estimate_eq_real.
  apply (c41_limits_respected o ts allow adds f Hf).
Qed.

(* with 128 read-only keys served by one table the compact-u16 length takes two bytes,
   and the estimate counts them *)
Example c41_ex_compact_u16_counted :
  estimate 1 [mkIx 1 100 (map (fun k => mkAcct (2000 + Z.of_nat k) false false) (seq 0 128)) 4]
             [(700, map (fun k => 2000 + Z.of_nat k) (seq 0 150))]
  = real_size 1 [mkIx 1 100 (map (fun k => mkAcct (2000 + Z.of_nat k) false false) (seq 0 128)) 4]
              [(700, map (fun k => 2000 + Z.of_nat k) (seq 0 150))].
Proof. vm_compute. reflexivity. Qed.

(* validate_one measures with the configured memo, and rejects a group that fits only without it *)
Example c41_ex_memo_counted :
  validate_one (mkOpts 400 14 (Some 150)) [] (mkAg 1 [mkIx 1 100 [mkAcct 2 false true] 60] true) = false.
Proof. vm_compute. reflexivity. Qed.

(* non-vacuity: merges do happen, at both levels *)
Example c41_ex_merge :
  map (fun p => map (fun g => (a_payer g, map i_id (a_ixs g))) (p_groups p))
      (tg_optimize (mkOpts 1232 14 None) [] false
         [mkPg [mkAg 1 [mkIx 1 100 [mkAcct 2 false true] 8] true] true;
          mkPg [mkAg 1 [mkIx 2 100 [mkAcct 3 false true] 8] true; mkAg 1 [mkIx 3 100 [] 8] true] true;
          mkPg [mkAg 2 [mkIx 4 100 [] 8] true] true])
  = [[(1, [1; 2; 3])]; [(2, [4])]].
Proof. vm_compute. reflexivity. Qed.
