(* C36 — timelock: the executed instruction is exactly the buffered one (byte level), and the protocol
   around it (approval by role, delay, single execution). *)
From GV Require Import lib.Base C36.Model C36.Proofs.
Open Scope Z_scope.

(* Whatever load_and_init_instruction writes into the (exactly sized, zeroed) buffer account, reading it
   back with load_instruction + to_instruction(false) — what execute_instruction passes to invoke_signed —
   gives the requested program id, data, and every account key with its writable flag and with
   signer = "index was listed in `signers`"; and every account marked signer is the executor wallet. *)
Theorem c36_stored_instruction_roundtrip :
  forall disc executor bump rr program data accts signers wallet bytes,
  length disc = 8%nat -> length executor = 32%nat -> length rr = 32%nat -> length program = 32%nat ->
  keys_wf accts ->
  load_and_init disc executor bump rr program data accts signers wallet = Ok bytes ->
  exists x,
    load_instruction bytes = Ok x /\
    to_instruction false wallet x = mkInstr program (wanted_accounts signers 0 accts) data /\
    Forall (fun m => m_signer m = true -> m_key m = wallet) (i_accounts (to_instruction false wallet x)).
Proof. exact roundtrip. Qed.

(* creation is refused exactly when a listed signer index points at an account that is not the wallet *)
Theorem c36_non_wallet_signer_rejected :
  forall disc executor bump rr program data accts signers wallet,
  len data <= 65535 -> len accts <= 65535 ->
  ((exists e, load_and_init disc executor bump rr program data accts signers wallet = Err e)
   <-> bad_signer wallet signers 0 accts = true).
Proof. exact load_and_init_rejects. Qed.

Theorem c36_header_roundtrip : forall h, header_wf h ->
  decode_header (encode_header h) = h /\ length (encode_header h) = HEADER_LEN.
Proof. intros h H. split; [apply decode_encode_header|apply length_encode_header]; auto. Qed.

(* approval changes the Approved flag, the timestamp and the approver, nothing else *)
Theorem c36_approve_keeps_instruction :
  forall disc h data ab approver now h' wallet mark,
  length disc = 8%nat -> header_wf h -> length approver = 32%nat -> - 2 ^ 63 <= now < 2 ^ 63 ->
  h_data_len h = len data -> len ab = h_num_accounts h * Z.of_nat ACCOUNT_LEN ->
  approve_header h approver now = Ok h' ->
  load_instruction (disc ++ encode_header h' ++ data ++ ab) = Ok (h', data, ab) /\
  to_instruction mark wallet (h', data, ab) = to_instruction mark wallet (h, data, ab) /\
  Z.testbit (h_flags h') 0 = true /\ h_approved_at h' = now /\ h_approver h' = approver /\
  Z.testbit (h_flags h) 0 = false /\ h_approver h = zeros 32 /\ approver <> zeros 32.
Proof. exact approve_keeps_instruction. Qed.

(* the optional marking (client side) can only add the signer flag to wallet accounts *)
Theorem c36_mark_wallet_only : forall wallet m,
  m_key (mark_wallet wallet m) = m_key m /\ m_writable (mark_wallet wallet m) = m_writable m /\
  m_signer (mark_wallet wallet m) = (m_signer m || key_eqb (m_key m) wallet).
Proof. exact mark_wallet_spec. Qed.

(* every execution that ever happened was approved by a holder of the timelocked role who still held it
   at execution time, happened no earlier than approval time + the delay in force at execution (which is
   at least the delay in force at approval), and ran the instruction that was created under that id *)
Theorem c36_execute_requires_approved_role_delay : forall delay roles now ops e,
  0 <= delay <= U32_MAX ->
  In e (w_execs (run ops (init delay roles now))) ->
  ex_still_holds e = true /\
  (exists a, In a (w_approvals (run ops (init delay roles now))) /\
             ap_id a = ex_id e /\ ap_by a = ex_approver e /\ ap_at a = ex_approved_at e /\
             ap_held a = true /\ ap_delay a <= ex_delay e) /\
  Z.min (ex_approved_at e + ex_delay e) I64_MAX <= ex_at e /\
  In (ex_id e, ex_ix e) (w_created (run ops (init delay roles now))).
Proof. exact execute_requires. Qed.

(* the moment of execution itself: role of the approver checked on the current role table, delay on the
   current clock and the current configuration *)
Theorem c36_execute_step_checks : forall w c id w',
  step w (TExecute c id) = Ok w' ->
  exists b, get w id = Some b /\ b_open b = true /\ b_approved b = true /\ b_approver b <> 0 /\
    has_role (w_roles w) c ROLE_KEEPER = true /\
    has_role (w_roles w) (b_approver b) (timelocked (b_role b)) = true /\
    Z.min (b_approved_at b + w_delay w) I64_MAX <= w_now w /\
    (exists b', get w' id = Some b' /\ b_open b' = false /\ b_ix b' = b_ix b).
Proof. exact execute_step_checks. Qed.

Theorem c36_approve_at_most_once : forall delay roles now ops,
  0 <= delay <= U32_MAX ->
  let w := run ops (init delay roles now) in
  NoDup (map ap_id (w_approvals w)) /\
  (forall id b, get w id = Some b -> 0 <= b_napprove b <= 1 /\ (b_napprove b = 1 <-> b_approved b = true)).
Proof. exact approve_once. Qed.

Theorem c36_second_approval_rejected : forall w c role id w' c2 role2,
  step w (TApprove c role id) = Ok w' -> exists e, step w' (TApprove c2 role2 id) = Err e.
Proof. exact approve_twice_rejected. Qed.

Theorem c36_approval_immutable : forall ops w id b,
  get w id = Some b -> b_approved b = true ->
  exists b', get (run ops w) id = Some b' /\ b_approved b' = true /\ b_approver b' = b_approver b /\
             b_approved_at b' = b_approved_at b.
Proof. exact approval_immutable. Qed.

Theorem c36_delay_monotone : forall ops w, w_delay w <= w_delay (run ops w).
Proof. exact delay_monotone. Qed.

Theorem c36_delay_only_increases : forall w c delta w',
  step w (TIncreaseDelay c delta) = Ok w' ->
  has_role (w_roles w) c ROLE_ADMIN = true /\ w_delay w' = w_delay w + delta /\ 0 < delta /\ w_delay w' <= U32_MAX.
Proof. exact delay_strictly_increases. Qed.

(* executed or cancelled buffers are gone: closed for ever, unchanged, and nothing runs on them *)
Theorem c36_executed_or_cancelled_gone : forall ops w id b,
  get w id = Some b -> b_open b = false ->
  get (run ops w) id = Some b /\
  (forall o, (exists c, o = TExecute c id) \/ (exists c r, o = TApprove c r id) \/ (exists c, o = TCancel c id) ->
             exists e, step (run ops w) o = Err e).
Proof. exact closed_gone. Qed.

Theorem c36_execute_and_cancel_close : forall w o w' id,
  (exists c, o = TExecute c id) \/ (exists c, o = TCancel c id) ->
  step w o = Ok w' -> exists b', get w' id = Some b' /\ b_open b' = false.
Proof. exact cancel_or_execute_closes. Qed.

Theorem c36_executed_at_most_once : forall delay roles now ops,
  0 <= delay <= U32_MAX -> NoDup (map ex_id (w_execs (run ops (init delay roles now)))).
Proof. exact executed_once. Qed.

Theorem c36_instruction_immutable : forall ops w id b,
  get w id = Some b -> exists b', get (run ops w) id = Some b' /\ b_ix b' = b_ix b /\ b_role b' = b_role b.
Proof. exact ix_immutable. Qed.

Definition k (b : Z) : list Z := repeat b 32.

Definition demo_bytes : list Z :=
  match load_and_init [1;2;3;4;5;6;7;8] (k 9) 254 (k 7) (k 5) [10; 20; 30]
                      [(k 1, true); (k 2, false); (k 1, false)] [2; 0] (k 1) with
  | Ok b => b | Err _ => [] end.

Example c36_roundtrip_demo :
  len demo_bytes = 8 + 224 + 3 + 99 /\
  match load_instruction demo_bytes with
  | Ok x => to_instruction false (k 1) x =
            mkInstr (k 5) [mkMeta (k 1) true true; mkMeta (k 2) false false; mkMeta (k 1) true false] [10; 20; 30]
  | Err _ => False
  end.
Proof. vm_compute. split; reflexivity. Qed.

Example c36_bad_signer_demo :
  load_and_init [1;2;3;4;5;6;7;8] (k 9) 254 (k 7) (k 5) [] [(k 1, true); (k 2, false)] [1] (k 1) = Err 1.
Proof. reflexivity. Qed.

Definition demo_roles : list (Z * Z) := [(1, 1); (2, 2); (3, 100)].
Definition demo : list op :=
  [ TCreate 2 0 77; TExecute 2 0; TApprove 3 0 0; TApprove 3 0 0; TExecute 2 0; TTick 59; TExecute 2 0;
    TIncreaseDelay 1 40; TTick 1; TExecute 2 0; TTick 40; TRevoke 3 100; TExecute 2 0; TGrant 3 100;
    TExecute 2 0; TExecute 2 0 ].

Example c36_demo_history :
  let w := run demo (init 60 demo_roles 1000) in
  map (fun e => (ex_id e, ex_ix e, ex_approver e, ex_approved_at e, ex_at e, ex_delay e)) (w_execs w)
    = [(0, 77, 3, 1000, 1100, 100)] /\
  w_delay w = 100 /\ map b_open (w_bufs w) = [false].
Proof. vm_compute. repeat split. Qed.
