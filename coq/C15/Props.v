(* C15 — single-token ("pure") pools account for every token exactly once.
   [wf_pure p]: pure flag set, the unused short field is zero (as `Pools::init` leaves it:
   the account is zeroed and only the flag is written), stored total within u128. *)
From GV Require Import lib.Base C15.Model C15.Proofs.
Open Scope Z_scope.

(* long view + short view = stored total; the views are the ceil / floor halves *)
Theorem c15_pure_sides_sum : forall (dbg : bool) p, wf_pure p ->
  exists lv sv, long_amount dbg p = Ok lv /\ short_amount dbg p = Ok sv /\
    lv + sv = long_f p /\ 0 <= lv - sv <= 1 /\ 0 <= sv.
Proof. exact pure_sides_sum. Qed.

(* a signed delta on EITHER side changes the stored total by exactly that amount; it fails
   (pool unchanged, by [step_keep]) exactly when the new total would leave u128 *)
Theorem c15_pure_delta_exact : forall p (is_long : bool) d, wf_pure p ->
  (0 <= long_f p + d < 2 ^ 128 /\
   exists p', apply_delta_amount p is_long d = Ok p' /\ wf_pure p' /\
              is_pure p' = is_pure p /\ long_f p' = long_f p + d) \/
  (~ (0 <= long_f p + d < 2 ^ 128) /\ apply_delta_amount p is_long d = Err E_COMP).
Proof.
  intros p is_long d Wp. rewrite pure_apply_delta by apply Wp.
  destruct (fitsP (long_f p + d)) as [R|R]; [left|right]; split; try assumption; [|reflexivity].
  eexists. split; [reflexivity|]. split; [apply wf_pure_total; assumption|]. split; reflexivity.
Qed.

(* netting leaves only the parity remainder (program's override) ... *)
Theorem c15_pure_cancel_parity : forall p, wf_pure p ->
  exists p', cancel_prog p = Ok p' /\ wf_pure p' /\ is_pure p' = is_pure p /\ long_f p' = long_f p mod 2.
Proof.
  intros p Wp. eexists. split; [apply pure_cancel_prog_eq, Wp|].
  split; [apply wf_pure_total; [assumption|lia]|split; reflexivity].
Qed.
Theorem c15_pure_cancel_views : forall (dbg : bool) p, wf_pure p ->
  exists p', cancel_prog p = Ok p' /\ long_amount dbg p' = Ok (long_f p mod 2) /\ short_amount dbg p' = Ok 0.
Proof.
  intros dbg p Wp. destruct (c15_pure_cancel_parity p Wp) as (p' & E & W' & _ & L).
  exists p'. split; [exact E|]. destruct (pure_views dbg p' W') as [A B]. rewrite A, B, L.
  unfold ceil2. split; f_equal; lia.
Qed.
(* ... the SDK pool carries the same override: identical result on EVERY pool ... *)
Theorem c15_sdk_cancel_eq_prog : forall (dbg : bool) p, cancel_sdk dbg p = cancel_prog p.
Proof. reflexivity. Qed.
(* ... and the trait's default (through signed deltas) never fails on a pure pool and returns the identical pool *)
Theorem c15_pure_cancel_default_eq : forall (dbg : bool) p, wf_pure p -> cancel_default dbg p = cancel_prog p.
Proof. exact pure_cancel_default. Qed.

(* HISTORY FORM: over any sequence of operations (either side, both sides, netting; failed
   operations leave the pool as it was) a pure pool stays well-formed and its stored total
   is exactly the one-number ledger [ledger_step] folded over the sequence *)
Theorem c15_pure_history : forall (sdk dbg : bool) ops p, wf_pure p ->
  let p' := run sdk dbg p ops in
  wf_pure p' /\ is_pure p' = is_pure p /\ long_f p' = fold_left ledger_step ops (long_f p).
Proof. exact pure_history. Qed.

Theorem c15_pure_sdk_eq_prog : forall (dbg : bool) ops p, wf_pure p ->
  run true dbg p ops = run false dbg p ops.
Proof. intros dbg ops p _. apply sdk_eq_prog. Qed.
(* on ALL pools (two-token ones included, any amounts) *)
Theorem c15_sdk_eq_prog : forall (dbg : bool) ops p, run true dbg p ops = run false dbg p ops.
Proof. intros. apply sdk_eq_prog. Qed.

(* two-token pools, for contrast: netting removes min(l, s) from both sides *)
Theorem c15_impure_cancel : forall p, pure p = false -> in_range p ->
  exists p', cancel_prog p = Ok p' /\ is_pure p' = is_pure p /\
    long_f p' = long_f p - Z.min (long_f p) (short_f p) /\
    short_f p' = short_f p - Z.min (long_f p) (short_f p) /\
    (long_f p' = 0 \/ short_f p' = 0) /\ long_f p' - short_f p' = long_f p - short_f p.
Proof. exact impure_cancel_prog. Qed.

(* why the override matters: on two-token pools the trait's DEFAULT netting fails exactly when the
   netted amount exceeds i128::MAX, where the override succeeds *)
Theorem c15_default_cancel_impure_agrees : forall (dbg : bool) p, pure p = false -> in_range p ->
  Z.min (long_f p) (short_f p) <= 2 ^ 127 - 1 -> cancel_default dbg p = cancel_prog p.
Proof. exact impure_cancel_default_agrees. Qed.
Theorem c15_default_cancel_impure_fails : forall (dbg : bool) p, pure p = false -> in_range p ->
  2 ^ 127 <= Z.min (long_f p) (short_f p) -> cancel_default dbg p = Err E_CONV.
Proof. exact impure_cancel_default_fails. Qed.
Theorem c15_default_cancel_witness :
  let p := mkp 0 (2 ^ 128 - 1) (2 ^ 127) in
  pure p = false /\ in_range p /\
  cancel_prog p = Ok (mkp 0 (2 ^ 127 - 1) 0) /\ cancel_default true p = Err E_CONV /\ cancel_sdk true p = cancel_prog p.
Proof. vm_compute. repeat split; congruence. Qed.

(* non-vacuity *)
Example c15_ex_wf : wf_pure (mkp 1 (2 ^ 128 - 1) 0) /\ wf_pure (mkp 255 0 0).
Proof. unfold wf_pure. cbn. split; repeat split; try reflexivity; try lia. Qed.
Example c15_ex_run :
  run true true (mkp 1 (2 ^ 128 - 1) 0) [OShort 1; OLong (-4); ODelta (Some 5) (Some (-2)); OCancel; OSide false 7]
  = mkp 1 8 0.
Proof. vm_compute. reflexivity. Qed.
