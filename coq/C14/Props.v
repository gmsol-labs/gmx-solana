From GV Require Import lib.Base C01.Model C14.Model C14.Proofs.
Open Scope Z_scope.

(* The distributed amount is rate * elapsed seconds (floor, in units), capped at the excess of the
   pool over the configured minimum (0 when the rate is 0 or the pool is at/below the minimum);
   [expected unit c cur dur = Z.min (dur * rate c / unit) (Z.max 0 (cur - minp c))]. *)
Theorem c14_dist_spec : forall w, 1 <= w -> forall unit, 0 < unit -> forall c cur dur d next,
  wf_cfg c -> 0 <= cur < 2 ^ w -> 0 <= dur ->
  pending w unit c cur dur = Ok (d, next) ->
  d = Z.min (dur * rate c / unit) (Z.max 0 (cur - minp c)) /\ next = cur - d.
Proof.
  intros w Hw unit Hu c cur dur d next Hc Hcur Hd H.
  destruct (pending_cases w Hw unit Hu c cur dur Hc Hcur Hd) as [[E _]|[E _]]; rewrite E in H.
  - injection H as <- <-. auto.
  - discriminate.
Qed.

(* the only failure of the pure computation: rate * elapsed does not fit the number type *)
Theorem c14_dist_fails_only_on_overflow : forall w, 1 <= w -> forall unit, 0 < unit -> forall c cur dur e,
  wf_cfg c -> 0 <= cur < 2 ^ w -> 0 <= dur ->
  pending w unit c cur dur = Err e ->
  e = 1 /\ rate c <> 0 /\ minp c < cur /\ 2 ^ w <= dur * rate c / unit.
Proof.
  intros w Hw unit Hu c cur dur e Hc Hcur Hd H.
  destruct (pending_cases w Hw unit Hu c cur dur Hc Hcur Hd) as [[E _]|[E HO]]; rewrite E in H.
  - discriminate.
  - injection H as <-. auto.
Qed.

Theorem c14_dist_total : forall w, 1 <= w -> forall unit, 0 < unit -> forall c cur dur,
  wf_cfg c -> 0 <= cur < 2 ^ w -> 0 <= dur -> dur * rate c / unit < 2 ^ w ->
  pending w unit c cur dur = Ok (expected unit c cur dur, cur - expected unit c cur dur).
Proof.
  intros w Hw unit Hu c cur dur Hc Hcur Hd Hfit.
  destruct (pending_cases w Hw unit Hu c cur dur Hc Hcur Hd) as [[E _]|[_ HO]]; [exact E|lia].
Qed.

(* production instance: u128 amounts, 20 decimals, u64 seconds — never fails *)
Theorem c14_dist_never_fails_u128 : forall c cur dur,
  0 <= rate c < 2 ^ 128 -> 0 <= minp c -> 0 <= cur < 2 ^ 128 -> 0 <= dur < 2 ^ 64 ->
  pending 128 (10 ^ 20) c cur dur = Ok (expected (10 ^ 20) c cur dur, cur - expected (10 ^ 20) c cur dur).
Proof.
  intros c cur dur Hr Hm Hc Hd. pose proof (amount_bound_u128 dur (rate c) Hd Hr).
  apply c14_dist_total; try lia. split; lia.
Qed.

Theorem c14_execute_never_fails_u128 : forall c s now,
  0 <= rate c < 2 ^ 128 -> 0 <= minp c -> wf_st 128 s -> 0 <= now < 2 ^ 64 ->
  exists rep s', execute 128 (10 ^ 20) c s now = (Ok rep, s').
Proof. exact execute_never_fails_u128. Qed.

(* the action: report and state after a successful distribution *)
Theorem c14_execute_spec : forall w, 1 <= w -> forall unit, 0 < unit -> forall c s now rep s',
  wf_cfg c -> wf_st w s ->
  execute w unit c s now = (Ok rep, s') ->
  r_dur rep = elapsed s now /\
  r_dist rep = Z.min (elapsed s now * rate c / unit) (Z.max 0 (pool s - minp c)) /\
  r_next rep = pool s - r_dist rep /\ pool s' = r_next rep /\ last s' = now.
Proof. intros w Hw unit Hu. exact (execute_ok w Hw unit Hu). Qed.

(* the action fails only if rate*elapsed overflows, or the (capped) amount is >= 2^(w-1)
   (conversion to the signed delta); a failed action leaves the pool untouched *)
Theorem c14_execute_failure : forall w, 1 <= w -> forall unit, 0 < unit -> forall c s now e s',
  wf_cfg c -> wf_st w s ->
  execute w unit c s now = (Err e, s') ->
  pool s' = pool s /\ last s' = now /\ rate c <> 0 /\ minp c < pool s /\
  ((e = 1 /\ 2 ^ w <= elapsed s now * rate c / unit) \/
   (e = 2 /\ elapsed s now * rate c / unit < 2 ^ w /\
    2 ^ (w - 1) <= Z.min (elapsed s now * rate c / unit) (Z.max 0 (pool s - minp c)))).
Proof. intros w Hw unit Hu. exact (execute_err w Hw unit Hu). Qed.

(* one distribution (successful or not): never increases the pool, never takes it below the
   minimum if it started above it, leaves it alone at or below the minimum *)
Theorem c14_dist_never_increases_respects_floor : forall w, 1 <= w -> forall unit, 0 < unit -> forall c s now,
  wf_cfg c -> wf_st w s ->
  let s' := step w unit c s now in
  pool s' <= pool s /\ (minp c < pool s -> minp c <= pool s') /\ (pool s <= minp c -> pool s' = pool s) /\
  last s' = now /\ 0 <= pool s'.
Proof. intros w Hw unit Hu. exact (step_pool w Hw unit Hu). Qed.

(* histories: any number of repeated distributions at arbitrary times *)
Theorem c14_dist_history : forall w, 1 <= w -> forall unit, 0 < unit -> forall c nows,
  wf_cfg c -> Forall (fun t => 0 <= t) nows -> forall s, wf_st w s ->
  let s' := run w unit c s nows in
  wf_st w s' /\ pool s' <= pool s /\ (minp c < pool s -> minp c <= pool s') /\
  (pool s <= minp c -> pool s' = pool s).
Proof. intros w Hw unit Hu. exact (run_inv w Hw unit Hu). Qed.

(* distributing twice over d1 then d2 seconds never hands out more than once over d1 + d2 *)
Theorem c14_split_never_distributes_more : forall unit, 0 < unit -> forall c cur d1 d2,
  wf_cfg c -> 0 <= cur -> 0 <= d1 -> 0 <= d2 ->
  let e1 := expected unit c cur d1 in
  e1 + expected unit c (cur - e1) d2 <= expected unit c cur (d1 + d2).
Proof. intros unit Hu. exact (split_le unit Hu). Qed.

(* non-vacuity *)
Example c14_ex_partial :
  execute 64 (10 ^ 9) {| rate := 2 * 10 ^ 9; minp := 1000 |} {| pool := 5000; last := 100 |} 130
  = (Ok {| r_dur := 30; r_dist := 60; r_next := 4940 |}, {| pool := 4940; last := 130 |}).
Proof. vm_compute. reflexivity. Qed.
Example c14_ex_capped :
  run 64 (10 ^ 9) {| rate := 2 * 10 ^ 9; minp := 1000 |} {| pool := 5000; last := 100 |} [130; 5000; 6000]
  = {| pool := 1000; last := 6000 |}.
Proof. vm_compute. reflexivity. Qed.
Example c14_ex_fail :
  fst (execute 64 (10 ^ 9) {| rate := 2 ^ 63; minp := 0 |} {| pool := 5; last := 0 |} (2 ^ 62)) = Err 1
  /\ fst (execute 64 (10 ^ 9) {| rate := 10 ^ 9; minp := 0 |} {| pool := 2 ^ 64 - 1; last := 0 |} (2 ^ 63)) = Err 2.
Proof. vm_compute. split; reflexivity. Qed.
