(* C03 — lemmas about the price impact model. *)
From GV Require Import lib.Base lib.DivLemmas C01.Model C01.Proofs C03.Model.
Open Scope Z_scope.

Definition wf_pi (p : piparams) : Prop := 0 <= pi_exp p /\ 0 <= pi_pos p /\ 0 <= pi_neg p.

(* PriceImpactParams::adjusted_factors caps the positive factor *)
Lemma adjusted_spec p :
  fst (adjusted p) = Z.min (pi_pos p) (pi_neg p) /\ snd (adjusted p) = pi_neg p /\
  fst (adjusted p) <= snd (adjusted p).
Proof. unfold adjusted. destruct (pi_neg p <? pi_pos p) eqn:E; simpl; lia. Qed.

Definition reverse (d : pdelta) : pdelta :=
  MkPD (nxt_l d) (nxt_s d) (cur_l d) (cur_s d) (- dlt_l d) (- dlt_s d).

Lemma same_side_reverse d : same_side (reverse d) = same_side d.
Proof. unfold same_side, reverse. simpl. destruct (cur_l d <=? cur_s d), (nxt_l d <=? nxt_s d); reflexivity. Qed.

Lemma diffs_nonneg d : 0 <= initial_diff d /\ 0 <= next_diff d.
Proof. unfold initial_diff, next_diff. lia. Qed.

Lemma bc_of_cases i n :
  (i < n /\ bc_of i n = Worsened) \/ (i = n /\ bc_of i n = Unchanged) \/ (n < i /\ bc_of i n = Improved).
Proof.
  unfold bc_of. destruct (Z.eqb_spec n i); [right; left; split; [lia|reflexivity]|].
  destruct (Z.ltb_spec i n); [left|right; right]; split; [lia|reflexivity|lia|reflexivity].
Qed.

Section Delta.
  Variable w : Z.
  Hypothesis Hw : 1 <= w.

  Lemma pd_new_ok la sa pl ps dl ds d : pd_new w la sa pl ps dl ds = Ok d ->
    d = MkPD (la * pl) (sa * ps) (la * pl + dl) (sa * ps + ds) dl ds.
  Proof.
    unfold pd_new.
    rewrite rbind_of_opt_ok. intros (cl & A1 & A2). apply umul_some in A1. destruct A1 as [R1 ->].
    rewrite rbind_of_opt_ok in A2. destruct A2 as (cs & A2 & A3). apply umul_some in A2. destruct A2 as [R2 ->].
    rewrite rbind_of_opt_ok in A3. destruct A3 as (nl & A3 & A4). apply add_with_signed_exact in A3; [|lia..].
    rewrite rbind_of_opt_ok in A4. destruct A4 as (ns & A4 & A5). apply add_with_signed_exact in A4; [|lia..].
    destruct A3 as [-> _], A4 as [-> _]. injection A5 as <-. reflexivity.
  Qed.

  Lemma pd_from_amounts_ok la sa pl ps dal das d : 0 <= pl -> 0 <= ps ->
    pd_from_amounts w la sa pl ps dal das = Ok d ->
    d = MkPD (la * pl) (sa * ps) (la * pl + pl * dal) (sa * ps + ps * das) (pl * dal) (ps * das).
  Proof.
    intros Hpl Hps. unfold pd_from_amounts.
    rewrite rbind_of_opt_ok. intros (dl & A1 & A2). apply mul_with_signed_exact in A1; [|lia..].
    rewrite rbind_of_opt_ok in A2. destruct A2 as (ds & A2 & A3). apply mul_with_signed_exact in A2; [|lia..].
    destruct A1 as [-> _], A2 as [-> _]. exact (pd_new_ok _ _ _ _ _ _ _ A3).
  Qed.

  Theorem reverse_by_amounts la sa pl ps dal das d d' : 0 <= pl -> 0 <= ps ->
    pd_from_amounts w la sa pl ps dal das = Ok d ->
    pd_from_amounts w (la + dal) (sa + das) pl ps (- dal) (- das) = Ok d' -> d' = reverse d.
  Proof.
    intros Hpl Hps H H'. apply pd_from_amounts_ok in H, H'; try assumption. subst d d'.
    unfold reverse. cbn. f_equal; ring.
  Qed.
End Delta.

Section P.
  Variable w : Z.
  Hypothesis Hw : 1 <= w.
  Variable unit : Z.
  Hypothesis Hunit : 0 < unit < 2 ^ w.

  Lemma af_det x f e r1 r2 : apply_factors w unit x f e = Ok r1 -> apply_factors w unit x f e = Ok r2 -> r1 = r2.
  Proof. congruence. Qed.

  (* the common tail of the two rebalance branches: the signed magnitude of a - b *)
  Lemma signed_diff_ok (pos : bool) k a b v :
    (d <-- of_opt 6 (to_signed w (Z.abs (a - b))) ;; if pos then Ok d else of_opt k (sneg w d)) = Ok v ->
    v = if pos then Z.abs (a - b) else - Z.abs (a - b).
  Proof.
    rewrite rbind_of_opt_ok. intros (d & H1 & H2). apply to_signed_some in H1. destruct H1 as [_ ->].
    destruct pos; [injection H2 as <-; reflexivity|]. apply of_opt_ok, sneg_some in H2. tauto.
  Qed.

  Section WithP.
    Variable p : piparams.
    Hypothesis Hp : wf_pi p.
    Let pf := fst (adjusted p).
    Let nf := snd (adjusted p).
    Let Hpf : 0 <= pf <= nf.
    Proof. subst pf nf. destruct (adjusted_spec p) as (A & B & C). destruct Hp as (_ & H1 & H2). lia. Qed.

    (* both branches compute a - b, for a = i^e * f and b = n^e * f' *)
    Lemma impact_same_form i n v : 0 <= i -> 0 <= n -> impact_same w unit p i n = Ok v ->
      let f := if n <? i then pf else nf in
      exists a b, apply_factors w unit i f (pi_exp p) = Ok a /\
                  apply_factors w unit n f (pi_exp p) = Ok b /\ v = a - b.
    Proof.
      intros Hi Hn. unfold impact_same. subst pf nf. destruct (adjusted p) as [pf0 nf0]. cbn [fst snd] in *.
      set (f := if n <? i then pf0 else nf0). assert (Hf : 0 <= f <= f) by (subst f; destruct (n <? i); lia).
      rewrite rbind_ok. intros (a & H1 & H). rewrite rbind_ok in H. destruct H as (b & H2 & H).
      apply signed_diff_ok in H. exists a, b. split; [exact H1|]. split; [exact H2|].
      destruct (Z.ltb_spec n i).
      - pose proof (apply_factors_mono w Hw unit (proj1 Hunit) n i f f _ b a ltac:(lia) Hf H2 H1). lia.
      - pose proof (apply_factors_mono w Hw unit (proj1 Hunit) i n f f _ a b ltac:(lia) Hf H1 H2). lia.
    Qed.

    Lemma impact_cross_form i n v : impact_cross w unit p i n = Ok v ->
      exists a b, apply_factors w unit i pf (pi_exp p) = Ok a /\
                  apply_factors w unit n nf (pi_exp p) = Ok b /\ v = a - b.
    Proof.
      unfold impact_cross. subst pf nf. destruct (adjusted p) as [pf0 nf0]. cbn [fst snd].
      rewrite rbind_ok. intros (a & H1 & H). rewrite rbind_ok in H. destruct H as (b & H2 & H).
      apply signed_diff_ok in H. exists a, b. split; [exact H1|]. split; [exact H2|].
      destruct (Z.ltb_spec b a); lia.
    Qed.

    Lemma impact_same_sign i n v : 0 <= i -> 0 <= n -> impact_same w unit p i n = Ok v ->
      (i <= n -> v <= 0) /\ (n <= i -> 0 <= v).
    Proof.
      intros Hi Hn H. apply impact_same_form in H; [|assumption..]. cbv zeta in H.
      destruct H as (a & b & H1 & H2 & ->).
      assert (Hf : let f := if n <? i then pf else nf in 0 <= f <= f) by (destruct (n <? i); lia).
      split; intros Hle.
      - pose proof (apply_factors_mono w Hw unit (proj1 Hunit) i n _ _ _ a b ltac:(lia) Hf H1 H2). lia.
      - pose proof (apply_factors_mono w Hw unit (proj1 Hunit) n i _ _ _ b a ltac:(lia) Hf H2 H1). lia.
    Qed.

    Lemma impact_cross_not_improved i n v : 0 <= i -> i <= n -> impact_cross w unit p i n = Ok v -> v <= 0.
    Proof.
      intros Hi Hn H. apply impact_cross_form in H. destruct H as (a & b & H1 & H2 & ->).
      pose proof (apply_factors_mono w Hw unit (proj1 Hunit) i n pf nf _ a b ltac:(lia) Hpf H1 H2). lia.
    Qed.

    Lemma price_impact_ok d v bc : price_impact w unit p d = Ok (v, bc) ->
      bc = bc_of (initial_diff d) (next_diff d) /\
      (if same_side d then impact_same w unit p (initial_diff d) (next_diff d)
       else impact_cross w unit p (initial_diff d) (next_diff d)) = Ok v.
    Proof.
      unfold price_impact. rewrite rbind_ok. intros (v' & H1 & H2). injection H2 as <- <-. auto.
    Qed.

    Lemma price_impact_sign d v bc : price_impact w unit p d = Ok (v, bc) ->
      bc = bc_of (initial_diff d) (next_diff d) /\
      (initial_diff d <= next_diff d -> v <= 0) /\
      (same_side d = true -> next_diff d <= initial_diff d -> 0 <= v).
    Proof.
      intros H. apply price_impact_ok in H. destruct H as [-> H]. destruct (diffs_nonneg d) as [Hi Hn].
      split; [reflexivity|]. destruct (same_side d).
      - apply impact_same_sign in H; tauto.
      - split; [intros Hle; exact (impact_cross_not_improved _ _ _ Hi Hle H)|discriminate].
    Qed.

    Theorem worsened_nonpos d v bc : price_impact w unit p d = Ok (v, bc) ->
      initial_diff d < next_diff d -> v <= 0 /\ bc = Worsened.
    Proof.
      intros H Hlt. apply price_impact_sign in H. destruct H as (-> & Hneg & _). split; [apply Hneg; lia|].
      destruct (bc_of_cases (initial_diff d) (next_diff d)) as [[_ E]|[[? _]|[? _]]]; [exact E|lia..].
    Qed.

    Theorem unchanged_nonpos d v bc : price_impact w unit p d = Ok (v, bc) ->
      initial_diff d = next_diff d -> v <= 0 /\ bc = Unchanged /\ (same_side d = true -> v = 0).
    Proof.
      intros H Heq. apply price_impact_sign in H. destruct H as (-> & Hneg & Hpos).
      split; [apply Hneg; lia|]. split.
      - destruct (bc_of_cases (initial_diff d) (next_diff d)) as [[? _]|[[_ E]|[? _]]]; [lia|exact E|lia].
      - intros Hs. specialize (Hpos Hs). lia.
    Qed.

    Theorem improved_same_side_nonneg d v bc : price_impact w unit p d = Ok (v, bc) ->
      next_diff d < initial_diff d -> bc = Improved /\ (same_side d = true -> 0 <= v).
    Proof.
      intros H Hlt. apply price_impact_sign in H. destruct H as (-> & _ & Hpos). split.
      - destruct (bc_of_cases (initial_diff d) (next_diff d)) as [[? _]|[[? _]|[_ E]]]; [lia..|exact E].
      - intros Hs. apply Hpos; [exact Hs|lia].
    Qed.

    (* out with the negative factor, back with the capped positive one: the difference of the two
       scaled differences is the floor residue of [div_diff_mono] *)
    Lemma round_trip_same_lt i n v1 v2 : 0 <= i < n ->
      impact_same w unit p i n = Ok v1 -> impact_same w unit p n i = Ok v2 -> v1 + v2 <= 1.
    Proof.
      intros Hin H1 H2.
      apply impact_same_form in H1; [|lia..]. apply impact_same_form in H2; [|lia..]. cbv zeta in *.
      replace (n <? i) with false in H1 by lia. replace (i <? n) with true in H2 by lia.
      destruct H1 as (a1 & b1 & A1 & B1 & ->). destruct H2 as (a2 & b2 & A2 & B2 & ->).
      apply apply_factors_ok in A1, B1, A2, B2; try lia.
      destruct A1 as (Xi & Ei & Pi & ->). destruct B1 as (Xn & En & Pn & ->).
      destruct A2 as (Xn' & En' & _ & ->). destruct B2 as (Xi' & Ei' & _ & ->).
      rewrite En in En'. injection En' as <-. rewrite Ei in Ei'. injection Ei' as <-.
      pose proof (apply_exponent_factor_mono w Hw unit (proj1 Hunit) i n _ Xi Xn ltac:(lia) Ei En).
      pose proof (div_diff_mono Xn Xi pf nf unit (proj1 Hunit) ltac:(lia) Hpf). lia.
    Qed.

    Lemma round_trip_same i n v1 v2 : 0 <= i -> 0 <= n ->
      impact_same w unit p i n = Ok v1 -> impact_same w unit p n i = Ok v2 -> v1 + v2 <= 1.
    Proof.
      intros Hi Hn H1 H2. destruct (Z.lt_trichotomy i n) as [L|[E|L]].
      - exact (round_trip_same_lt i n v1 v2 ltac:(lia) H1 H2).
      - apply impact_same_sign in H1, H2; lia.
      - rewrite Z.add_comm. exact (round_trip_same_lt n i v2 v1 ltac:(lia) H2 H1).
    Qed.

    Lemma round_trip_cross i n v1 v2 : 0 <= i -> 0 <= n ->
      impact_cross w unit p i n = Ok v1 -> impact_cross w unit p n i = Ok v2 -> v1 + v2 <= 0.
    Proof.
      intros Hi Hn H1 H2.
      apply impact_cross_form in H1. apply impact_cross_form in H2.
      destruct H1 as (a1 & b1 & A1 & B1 & ->). destruct H2 as (a2 & b2 & A2 & B2 & ->).
      pose proof (apply_factors_mono w Hw unit (proj1 Hunit) i i pf nf _ a1 b2 ltac:(lia) Hpf A1 B2).
      pose proof (apply_factors_mono w Hw unit (proj1 Hunit) n n pf nf _ a2 b1 ltac:(lia) Hpf A2 B1). lia.
    Qed.

    Theorem round_trip d v1 b1 v2 b2 :
      price_impact w unit p d = Ok (v1, b1) -> price_impact w unit p (reverse d) = Ok (v2, b2) ->
      (same_side d = false -> v1 + v2 <= 0) /\ (same_side d = true -> v1 + v2 <= 1).
    Proof.
      intros H1 H2. apply price_impact_ok in H1. apply price_impact_ok in H2.
      destruct H1 as [_ H1]. destruct H2 as [_ H2]. rewrite same_side_reverse in H2.
      destruct (diffs_nonneg d) as [Hi Hn].
      change (initial_diff (reverse d)) with (next_diff d) in H2.
      change (next_diff (reverse d)) with (initial_diff d) in H2.
      destruct (same_side d); split; intros E; try discriminate.
      - exact (round_trip_same _ _ _ _ Hi Hn H1 H2).
      - exact (round_trip_cross _ _ _ _ Hi Hn H1 H2).
    Qed.

    (* what the two API-level sign rules need of a result [(v, bc)] that is the real impact
       [(v0, b0)] or something smaller *)
    Lemma sign_rules_of_real d v0 b0 v bc : price_impact w unit p d = Ok (v0, b0) ->
      v <= v0 -> (0 <= v0 -> (v, bc) = (v0, b0)) ->
      (initial_diff d <= next_diff d -> v <= 0) /\
      (next_diff d < initial_diff d -> same_side d = true -> 0 <= v /\ bc = Improved).
    Proof.
      intros Hr Hle Heq. split.
      - intros Hc. apply price_impact_sign in Hr. destruct Hr as (_ & Hneg & _). specialize (Hneg Hc). lia.
      - intros Hlt Hs. destruct (improved_same_side_nonneg d v0 b0 Hr Hlt) as [Hb Hv].
        injection (Heq (Hv Hs)) as -> ->. auto.
    Qed.
  End WithP.

  Lemma worse_of_spec real virt r : worse_of real virt = Ok r ->
    exists v, virt = Ok v /\ fst r <= fst real /\ (r = real \/ (r = v /\ fst v < fst real)).
  Proof.
    unfold worse_of. rewrite rbind_ok. intros (v & H1 & H2). exists v. split; [exact H1|].
    destruct (Z.ltb_spec (fst v) (fst real)); injection H2 as <-; split; auto; lia.
  Qed.

  (* the virtual inventory is consulted only for a negative real impact, on request *)
  Lemma virtual_branch_ok real incl (X : res (Z * bchange)) r :
    (if (0 <=? fst real) || negb incl then Ok real else X) = Ok r ->
    r = real \/ (fst real < 0 /\ incl = true /\ X = Ok r).
  Proof.
    destruct (Z.leb_spec 0 (fst real)); cbn [orb]; [intros [= <-]; auto|].
    destruct incl; cbn [negb]; [intros E; right; auto|intros [= <-]; auto].
  Qed.

  Theorem swap_virtual_only_worsens p la sa pl ps dl ds vi incl r :
    swap_impact_value w unit p la sa pl ps dl ds vi incl = Ok r ->
    exists d real, pd_new w la sa pl ps dl ds = Ok d /\ price_impact w unit p d = Ok real /\
      swap_impact_value w unit p la sa pl ps dl ds vi false = Ok real /\
      fst r <= fst real /\ (0 <= fst real -> r = real) /\
      (r = real \/ exists vl vs dv, vi = Some (vl, vs) /\ incl = true /\
                     pd_new w vl vs pl ps dl ds = Ok dv /\ price_impact w unit p dv = Ok r /\ fst r < fst real).
  Proof.
    unfold swap_impact_value. rewrite rbind_ok. intros (d & H1 & H2). rewrite rbind_ok in H2.
    destruct H2 as (real & H2 & H3). exists d, real. rewrite H1. cbn [rbind]. rewrite H2. cbn [rbind].
    split; [reflexivity|]. split; [reflexivity|]. split; [rewrite orb_true_r; reflexivity|].
    apply virtual_branch_ok in H3. destruct H3 as [->|(Hneg & -> & H3)]; [split; [lia|auto]|].
    destruct vi as [[vl vs]|]; [|injection H3 as <-; split; [lia|auto]].
    apply worse_of_spec in H3. destruct H3 as (v & Hv & Hle & Hor). split; [exact Hle|]. split; [lia|].
    destruct Hor as [->|[-> Hlt]]; [left; reflexivity|]. right.
    rewrite rbind_ok in Hv. destruct Hv as (dv & Hv1 & Hv2). exists vl, vs, dv. auto 6.
  Qed.

  Theorem position_virtual_only_worsens p oll ols osl oss vi is_long sd incl r :
    position_price_impact w unit p oll ols osl oss vi is_long sd incl = Ok r ->
    exists ol os d real,
      uadd w oll ols = Some ol /\ uadd w osl oss = Some os /\
      pd_new w ol os 1 1 (if is_long then sd else 0) (if is_long then 0 else sd) = Ok d /\
      price_impact w unit p d = Ok real /\
      position_price_impact w unit p oll ols osl oss vi is_long sd false = Ok real /\
      fst r <= fst real /\ (0 <= fst real -> r = real) /\
      (r = real \/ (incl = true /\ vi <> None /\ fst r < fst real)).
  Proof.
    unfold position_price_impact. rewrite rbind_ok. intros (ol & H1 & H2). rewrite rbind_ok in H2.
    destruct H2 as (os & H2 & H3). rewrite rbind_ok in H3. destruct H3 as (d & H3 & H4).
    rewrite rbind_ok in H4. destruct H4 as (real & H4 & H5). exists ol, os, d, real.
    rewrite H1. cbn [rbind]. rewrite H2. cbn [rbind]. rewrite H3. cbn [rbind]. rewrite H4. cbn [rbind].
    apply of_opt_ok in H1, H2.
    split; [exact H1|]. split; [exact H2|]. split; [reflexivity|]. split; [reflexivity|].
    split; [rewrite orb_true_r; reflexivity|].
    apply virtual_branch_ok in H5. destruct H5 as [->|(Hneg & -> & H5)]; [split; [lia|auto]|].
    destruct vi as [[vl vs]|]; [|injection H5 as <-; split; [lia|auto]].
    rewrite rbind_ok in H5. destruct H5 as (lo & _ & H5). rewrite rbind_ok in H5. destruct H5 as (lo2 & _ & H5).
    apply worse_of_spec in H5. destruct H5 as (v & Hv & Hle & Hor). split; [exact Hle|]. split; [lia|].
    destruct Hor as [->|[-> Hlt]]; [left; reflexivity|]. right. split; [reflexivity|]. split; [discriminate|exact Hlt].
  Qed.

  Theorem swap_sign_rules p la sa pl ps dl ds vi incl v bc : wf_pi p ->
    swap_impact_value w unit p la sa pl ps dl ds vi incl = Ok (v, bc) ->
    exists d, pd_new w la sa pl ps dl ds = Ok d /\
      (initial_diff d <= next_diff d -> v <= 0) /\
      (next_diff d < initial_diff d -> same_side d = true -> 0 <= v /\ bc = Improved).
  Proof.
    intros Hp H. apply swap_virtual_only_worsens in H.
    destruct H as (d & [v0 b0] & Hd & Hr & _ & Hle & Heq & _). exists d. split; [exact Hd|].
    exact (sign_rules_of_real p Hp d v0 b0 v bc Hr Hle Heq).
  Qed.

  Theorem position_sign_rules p oll ols osl oss vi is_long sd incl v bc : wf_pi p ->
    position_price_impact w unit p oll ols osl oss vi is_long sd incl = Ok (v, bc) ->
    exists d, pd_new w (oll + ols) (osl + oss) 1 1 (if is_long then sd else 0) (if is_long then 0 else sd) = Ok d /\
      (initial_diff d <= next_diff d -> v <= 0) /\
      (next_diff d < initial_diff d -> same_side d = true -> 0 <= v /\ bc = Improved).
  Proof.
    intros Hp H. apply position_virtual_only_worsens in H.
    destruct H as (ol & os & d & [v0 b0] & Ho1 & Ho2 & Hd & Hr & _ & Hle & Heq & _).
    apply uadd_some in Ho1, Ho2. destruct Ho1 as [_ ->], Ho2 as [_ ->]. exists d. split; [exact Hd|].
    exact (sign_rules_of_real p Hp d v0 b0 v bc Hr Hle Heq).
  Qed.
End P.
