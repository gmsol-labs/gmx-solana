(* C01 — property theorems only: the proofs are the lemmas of Proofs.v, so that the statements can be read
   here without them; the examples are evaluated. *)
From GV Require Import lib.Base C01.Model C01.Proofs.
Open Scope Z_scope.

(* multiply-then-divide: exactly floor(a*b/d), or failure exactly when d = 0 or
   the floor does not fit *)
Theorem c01_mul_div_exact : forall w, 1 <= w -> forall a b d r, 0 <= a -> 0 <= b -> 0 <= d ->
  mul_div w a b d = Some r <-> (d <> 0 /\ r = a * b / d /\ r < 2 ^ w).
Proof. exact mul_div_exact. Qed.

Theorem c01_mul_div_none : forall w, 1 <= w -> forall a b d, 0 <= a -> 0 <= b -> 0 <= d ->
  mul_div w a b d = None <-> (d = 0 \/ 2 ^ w <= a * b / d).
Proof. exact mul_div_none. Qed.

(* ceiling variant: d*(r-1) < a*b <= d*r *)
Theorem c01_mul_div_ceil_exact : forall w, 1 <= w -> forall a b d r, 0 <= a -> 0 <= b -> 0 <= d ->
  mul_div_ceil w a b d = Some r -> d <> 0 /\ d * (r - 1) < a * b <= d * r /\ 0 <= r < 2 ^ w.
Proof. exact mul_div_ceil_exact. Qed.

Theorem c01_mul_div_ceil_none : forall w, 1 <= w -> forall a b d, 0 <= a -> 0 <= b -> 0 <= d ->
  mul_div_ceil w a b d = None <-> (d = 0 \/ 2 ^ w <= ceil_div (a * b) d).
Proof. exact mul_div_ceil_none. Qed.

(* signed numerator: magnitude floors toward zero, sign follows the numerator *)
Theorem c01_mul_div_signed_exact : forall w, 1 <= w -> forall a n d r, 0 <= a -> 0 <= d ->
  mul_div_signed w a n d = Some r ->
  d <> 0 /\ Z.abs r = a * Z.abs n / d /\ Z.abs r < 2 ^ (w - 1) /\ (0 < n -> 0 <= r) /\ (n <= 0 -> r <= 0).
Proof. exact mul_div_signed_exact. Qed.

Theorem c01_mul_div_signed_none : forall w, 1 <= w -> forall a n d, 0 <= a -> 0 <= d ->
  mul_div_signed w a n d = None <-> (d = 0 \/ 2 ^ (w - 1) <= a * Z.abs n / d).
Proof. exact mul_div_signed_none. Qed.

(* round-up division: ceil(a/d); fails exactly when d = 0 or a + d overflows *)
Theorem c01_round_up_div_sound : forall w, 1 <= w -> forall a d r, 0 <= a -> 0 <= d ->
  round_up_div w a d = Some r -> d <> 0 /\ d * (r - 1) < a <= d * r.
Proof. intros w _. exact (round_up_div_sound w). Qed.

Theorem c01_round_up_div_none : forall w, 1 <= w -> forall a d, 0 <= a -> 0 <= d ->
  round_up_div w a d = None <-> (d = 0 \/ 2 ^ w <= a + d).
Proof. exact round_up_div_none. Qed.

(* signed magnitude rounding: |r| = ceil(|x|/d), sign kept *)
Theorem c01_round_up_mag_div_sound : forall w, 1 <= w -> forall d x r, 0 <= d ->
  round_up_mag_div w d x = Some r ->
  d <> 0 /\ d * (Z.abs r - 1) < Z.abs x <= d * Z.abs r /\ (0 <= x -> 0 <= r) /\ (x < 0 -> r <= 0).
Proof. exact round_up_mag_div_sound. Qed.

Theorem c01_bound_magnitude_spec : forall w, 1 <= w -> forall v mn mx r,
  0 <= mn -> 0 <= mx -> in_s w v = true ->
  bound_magnitude w v mn mx = Ok r ->
  mn <= mx /\ Z.abs r = clampZ (Z.abs v) mn mx /\ (v < 0 -> r <= 0) /\ (0 <= v -> 0 <= r) /\ in_s w r = true.
Proof. exact bound_magnitude_spec. Qed.

Theorem c01_bound_magnitude_err : forall w, 1 <= w -> forall v mn mx e, 0 <= mn -> 0 <= mx ->
  bound_magnitude w v mn mx = Err e ->
  (e = 1 /\ mx < mn) \/ (e = 2 /\ mn <= mx /\ 2 ^ (w - 1) <= clampZ (Z.abs v) mn mx).
Proof. exact bound_magnitude_err. Qed.

(* mixed-sign helpers are exact *)
Theorem c01_add_with_signed_exact : forall w, 1 <= w -> forall a s r, 0 <= a ->
  add_with_signed w a s = Some r <-> (r = a + s /\ 0 <= r < 2 ^ w).
Proof. exact add_with_signed_exact. Qed.
Theorem c01_sub_with_signed_exact : forall w, 1 <= w -> forall a s r, 0 <= a ->
  sub_with_signed w a s = Some r <-> (r = a - s /\ 0 <= r < 2 ^ w).
Proof. exact sub_with_signed_exact. Qed.
Theorem c01_mul_with_signed_exact : forall w, 1 <= w -> forall a s r, 0 <= a ->
  mul_with_signed w a s = Some r -> r = a * s /\ Z.abs r < 2 ^ (w - 1).
Proof. exact mul_with_signed_exact. Qed.
Theorem c01_signed_sub_exact : forall w, 1 <= w -> forall a b r, 0 <= a -> 0 <= b ->
  signed_sub w a b = Some r -> r = a - b /\ Z.abs r < 2 ^ (w - 1).
Proof. exact signed_sub_exact. Qed.

Theorem c01_apply_factor_exact : forall w, 1 <= w -> forall unit, 0 < unit -> forall v f r, 0 <= v -> 0 <= f ->
  apply_factor w unit v f = Some r <-> (r = v * f / unit /\ r < 2 ^ w).
Proof. exact apply_factor_exact. Qed.

Theorem c01_div_to_factor_exact : forall w, 1 <= w -> forall unit, 0 < unit -> forall v d ru r, 0 <= v -> 0 <= d ->
  div_to_factor w unit v d ru = Some r ->
  (d = 0 /\ r = 0) \/
  (d <> 0 /\ ru = false /\ d * r <= v * unit < d * r + d) \/
  (d <> 0 /\ ru = true /\ d * (r - 1) < v * unit <= d * r).
Proof. exact div_to_factor_exact. Qed.

Theorem c01_div_to_factor_signed_exact : forall w, 1 <= w -> forall unit, 0 < unit -> forall v d r, 0 <= d ->
  div_to_factor_signed w unit v d = Some r ->
  (d = 0 /\ r = 0) \/
  (d <> 0 /\ Z.abs r = unit * Z.abs v / d /\ (0 < v -> 0 <= r) /\ (v <= 0 -> r <= 0)).
Proof. exact div_to_factor_signed_exact. Qed.

(* fixed-point power with whole exponents: never above the exact power, monotone *)
Theorem c01_pow_upper : forall w, 1 <= w -> forall unit, 0 < unit -> forall b n r, 0 <= b ->
  pow_loop w unit b n = Some r -> 0 <= r /\ r * unit ^ (Z.of_N n) <= unit * b ^ (Z.of_N n).
Proof. exact pow_loop_upper. Qed.
Theorem c01_pow_mono : forall w, 1 <= w -> forall unit, 0 < unit -> forall b1 b2 n r1 r2, 0 <= b1 <= b2 ->
  pow_loop w unit b1 n = Some r1 -> pow_loop w unit b2 n = Some r2 -> r1 <= r2.
Proof. exact pow_loop_mono. Qed.

Theorem c01_usd_to_mt_cases : forall w, 1 <= w -> forall usd pool supply divisor r,
  0 <= usd -> 0 <= pool -> 0 <= supply -> 0 <= divisor ->
  usd_to_mt w usd pool supply divisor = Some r ->
  divisor <> 0 /\
  ((supply = 0 /\ pool = 0 /\ r = usd / divisor) \/
   (supply = 0 /\ pool <> 0 /\ r = (pool + usd) / divisor /\ pool + usd < 2 ^ w) \/
   (supply <> 0 /\ pool <> 0 /\ pool * r <= supply * usd < pool * r + pool /\ r < 2 ^ w)).
Proof. exact usd_to_mt_cases. Qed.
Theorem c01_mt_to_usd_exact : forall w, 1 <= w -> forall amount pool supply r,
  0 <= amount -> 0 <= pool -> 0 <= supply ->
  mt_to_usd w amount pool supply = Some r ->
  supply <> 0 /\ supply * r <= pool * amount < supply * r + supply.
Proof. exact mt_to_usd_exact. Qed.

(* non-vacuity: concrete instances at the type limits *)
Example c01_ex1 : mul_div 64 18446744073709551615 18446744073709551615 18446744073709551615 = Some 18446744073709551615.
Proof. vm_compute. reflexivity. Qed.
Example c01_ex2 : mul_div_ceil 128 7 3 2 = Some 11 /\ mul_div 64 (2^63) 2 1 = None.
Proof. vm_compute. split; reflexivity. Qed.
Example c01_ex3 : round_up_mag_div 64 3 (-1) = Some (-1) /\ bound_magnitude 64 (-123) 124 256 = Ok (-124).
Proof. vm_compute. split; reflexivity. Qed.
