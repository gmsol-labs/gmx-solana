(* C06 — the terms of LiquidityMarketExt::pool_value: liquidity value + pending borrowing fees
   - capped pnl - value of the position-impact pool.  Where no pnl cap binds and the pending fees
   do not depend on the liquidity ([uncapped], [same_pending]), the pool value follows the liquidity:
   [uncapped_shift], [uncapped_growth].  NoOI and Calm give the two kinds of market where that holds. *)
From GV Require Import lib.Base C01.Model C01.Proofs MK.Market MK.Liquidity MK.MarketProofs MK.SwapProofs.
Open Scope Z_scope.

Section P.
  Variable w : Z.
  Hypothesis Hw : 1 <= w.
  Variable unit : Z.
  Variable cfg : config.

  (* (distributed, remaining) position-impact pool; the remainder is deducted from the pool value *)
  Definition impact_next (s : mstate) : res (Z * Z) := pending_impact_distribution w unit cfg s (passed s (clk_impact s)).

  Lemma impact_next_same a b : same_rest a b -> impact_next a = impact_next b.
  Proof.
    unfold impact_next, pending_impact_distribution, passed. intros R. destruct (same_rest_impact _ _ R) as (PI & N & CI). rewrite PI, N, CI. reflexivity.
  Qed.

  Lemma impact_next_nonneg s d n : impact_next s = Ok (d, n) -> 0 <= p_long (position_impact s) -> 0 <= n.
  Proof.
    unfold impact_next, pending_impact_distribution. intros H Hp. rinv H.
    - injection H as _ <-. exact Hp.
    - injection H as _ <-. apply usub_some in E1. lia.
  Qed.

  Lemma pnl_same_rest a b index il mx : same_rest a b -> pnl w a index il mx = pnl w b index il mx.
  Proof.
    intros R. destruct (same_rest_oi _ _ R) as (O1 & O2 & T1 & T2). unfold pnl, oi_amount, oit_amount. rewrite O1, O2, T1, T2. reflexivity.
  Qed.

  Lemma pool_value_decomp s ps k mx v : pool_value w unit cfg s ps k mx = Ok v ->
    exists bl bs tbp lp0 lp sp0 sp d n,
      total_pending_borrowing_fees w unit cfg s ps true = Ok bl /\
      total_pending_borrowing_fees w unit cfg s ps false = Ok bs /\
      (exists f, usub w unit (bp_receiver (c_borrowing cfg)) = Some f /\ apply_factor w unit (bl + bs) f = Some tbp) /\
      pnl w s (px_index ps) true (negb mx) = Ok lp0 /\
      cap_pnl w unit cfg true lp0 (p_long (primary s) * pick (px_long ps) mx) k = Ok lp /\
      pnl w s (px_index ps) false (negb mx) = Ok sp0 /\
      cap_pnl w unit cfg false sp0 (p_short (primary s) * pick (px_short ps) mx) k = Ok sp /\
      impact_next s = Ok (d, n) /\
      v = p_long (primary s) * pick (px_long ps) mx + p_short (primary s) * pick (px_short ps) mx
          + tbp - (lp + sp) - n * pick (px_index ps) (negb mx).
  Proof.
    intros E. unfold pool_value in E. rinv E. rename E7 into Eborrow, x15 into dn.
    unfold side_value in *. cbn [pamount side_price] in *. norm.
    apply obind_some in Eborrow. destruct Eborrow as (f & F1 & F2). destruct dn as [d n]. cbn [snd] in *.
    repeat eexists; try eassumption; lia.
  Qed.
  (* minimised pnl (the one pool_value subtracts when maximising) <= maximised pnl *)
  Lemma pnl_min_le_max (s : mstate) (index : price) (il : bool) lo hi : pr_min index <= pr_max index ->
    0 <= p_long (if il then oit_long s else oit_short s) -> 0 <= p_short (if il then oit_long s else oit_short s) ->
    pnl w s index il false = Ok lo -> pnl w s index il true = Ok hi -> lo <= hi.
  Proof.
    intros Ho T1 T2 El Eh. unfold pnl in *.
    destruct (oi_amount w s il) as [oi|]; cbn [rbind] in *; [|discriminate].
    destruct (oit_amount w s il) as [oit|] eqn:EO; cbn [rbind] in *; [|discriminate].
    assert (0 <= oit).
    { unfold oit_amount, merged in EO. apply of_opt_ok, uadd_some in EO. destruct il; lia. }
    destruct ((oi =? 0) && (oit =? 0)); [injection El as <-; injection Eh as <-; lia|].
    unfold pick_for_pnl in *. destruct il; cbn [xorb] in *; rinv El; rinv Eh; norm; nia.
  Qed.

  (* a pool value in which no pnl cap binds, term by term *)
  Definition uncapped (s : mstate) (ps : prices) (mx : bool) (v : Z) : Prop :=
    exists bl bs tbp lp0 sp0 d n,
      total_pending_borrowing_fees w unit cfg s ps true = Ok bl /\
      total_pending_borrowing_fees w unit cfg s ps false = Ok bs /\
      (exists f, usub w unit (bp_receiver (c_borrowing cfg)) = Some f /\ apply_factor w unit (bl + bs) f = Some tbp) /\
      pnl w s (px_index ps) true (negb mx) = Ok lp0 /\
      pnl w s (px_index ps) false (negb mx) = Ok sp0 /\
      impact_next s = Ok (d, n) /\
      v = p_long (primary s) * pick (px_long ps) mx + p_short (primary s) * pick (px_short ps) mx
          + tbp - (lp0 + sp0) - n * pick (px_index ps) (negb mx).

  Definition lp_kind (k : pnl_kind) : Prop := k = MaxAfterDeposit \/ k = MaxAfterWithdrawal.

  Definition uncapped_market (s : mstate) (ps : prices) : Prop :=
    forall k mx v, lp_kind k -> pool_value w unit cfg s ps k mx = Ok v -> uncapped s ps mx v.

  Definition same_pending (a b : mstate) (ps : prices) : Prop :=
    forall il x y, total_pending_borrowing_fees w unit cfg a ps il = Ok x ->
                   total_pending_borrowing_fees w unit cfg b ps il = Ok y -> x = y.

  (* the pool values of [a] and of [b] (a state that differs from [a] in the written fields only) follow the liquidity *)
  Definition follows_liquidity (a b : mstate) (ps : prices) : Prop :=
    uncapped_market a ps /\ (same_rest a b -> uncapped_market b ps /\ same_pending a b ps).

  (* two states that differ only in the liquidity: all terms but the liquidity value and the pnl
     (which depends on the valuation mode) coincide *)
  Lemma uncapped_pair a b ps mxa mxb va vb : same_rest a b -> same_pending a b ps ->
    uncapped a ps mxa va -> uncapped b ps mxb vb ->
    exists tbp lpa spa lpb spb d n,
      pnl w a (px_index ps) true (negb mxa) = Ok lpa /\ pnl w a (px_index ps) false (negb mxa) = Ok spa /\
      pnl w a (px_index ps) true (negb mxb) = Ok lpb /\ pnl w a (px_index ps) false (negb mxb) = Ok spb /\
      impact_next a = Ok (d, n) /\
      va = p_long (primary a) * pick (px_long ps) mxa + p_short (primary a) * pick (px_short ps) mxa
           + tbp - (lpa + spa) - n * pick (px_index ps) (negb mxa) /\
      vb = p_long (primary b) * pick (px_long ps) mxb + p_short (primary b) * pick (px_short ps) mxb
           + tbp - (lpb + spb) - n * pick (px_index ps) (negb mxb).
  Proof.
    intros R S (bl & bs & tbp & lp0 & sp0 & d & n & A1 & A2 & (f1 & U1 & T1) & A4 & A5 & A6 & ->)
               (bl' & bs' & tbp' & lp0' & sp0' & d' & n' & B1 & B2 & (f2 & U2 & T2) & B4 & B5 & B6 & ->).
    pose proof (S _ _ _ A1 B1). pose proof (S _ _ _ A2 B2). subst bl' bs'.
    rewrite U1 in U2. injection U2 as <-. rewrite T1 in T2. injection T2 as <-.
    rewrite <- (impact_next_same _ _ R), A6 in B6. injection B6 as <- <-.
    rewrite <- (pnl_same_rest _ _ _ _ _ R) in B4. rewrite <- (pnl_same_rest _ _ _ _ _ R) in B5.
    exists tbp, lp0, sp0, lp0', sp0', d, n. auto 10.
  Qed.

  Lemma uncapped_shift a b ps mx va vb : same_rest a b -> same_pending a b ps ->
    uncapped a ps mx va -> uncapped b ps mx vb ->
    vb = va + (p_long (primary b) - p_long (primary a)) * pick (px_long ps) mx
            + (p_short (primary b) - p_short (primary a)) * pick (px_short ps) mx.
  Proof.
    intros R S Ua Ub.
    destruct (uncapped_pair _ _ _ _ _ _ _ R S Ua Ub) as (tbp & lpa & spa & lpb & spb & d & n & A1 & A2 & B1 & B2 & _ & -> & ->).
    rewrite A1 in B1. rewrite A2 in B2. injection B1 as <-. injection B2 as <-. lia.
  Qed.

  Lemma uncapped_growth a b ps va vb dl ds : same_rest a b -> same_pending a b ps ->
    pr_min (px_index ps) <= pr_max (px_index ps) ->
    pr_min (px_long ps) <= pr_max (px_long ps) -> pr_min (px_short ps) <= pr_max (px_short ps) ->
    0 <= p_long (primary a) -> 0 <= p_short (primary a) ->
    0 <= p_long (oit_long a) -> 0 <= p_short (oit_long a) -> 0 <= p_long (oit_short a) -> 0 <= p_short (oit_short a) ->
    0 <= p_long (position_impact a) ->
    p_long (primary b) = p_long (primary a) + dl -> p_short (primary b) = p_short (primary a) + ds ->
    uncapped a ps true va -> uncapped b ps false vb ->
    vb <= va + dl * pr_min (px_long ps) + ds * pr_min (px_short ps).
  Proof.
    intros R S Oi Ol Os L0 S0 T1 T2 T3 T4 Hpi EL ES Ua Ub.
    destruct (uncapped_pair _ _ _ _ _ _ _ R S Ua Ub) as (tbp & lpa & spa & lpb & spb & d & n & A1 & A2 & B1 & B2 & I & -> & ->).
    cbn [negb] in *.
    pose proof (pnl_min_le_max a (px_index ps) true _ _ Oi T1 T2 A1 B1).
    pose proof (pnl_min_le_max a (px_index ps) false _ _ Oi T3 T4 A2 B2).
    pose proof (impact_next_nonneg _ _ _ I Hpi).
    cbn [pick]. rewrite EL, ES. nia.
  Qed.
End P.
