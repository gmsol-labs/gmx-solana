(* C42 — property theorems.  Model: the swap path search of crates/sdk/src/market_graph/mod.rs
   AS IMPLEMENTED (C42/Model.v): bellman_ford with in-place relaxation, predecessors frozen after
   max_steps rounds and distances cached at round max_steps; dfs with visited set and pruning;
   best_swap_paths with the DFS fallback; BestSwapPaths::to with the step guard.
   Graph = build ms for a market list ms (long token, short token, cost long->short, cost short->long),
   costs exact integers; [path_to] returns (distance d with reported rate exp(-d), path).
   Node indices are positions in tokens_of ms; [edge_of_market] says an edge is one direction of
   the market it names, so consecutive path markets share the traded token by [gwalk]. *)
From GV Require Import lib.Base C42.Model C42.Proofs1 C42.Proofs2 C42.Proofs3 C42.Proofs4 C42.Proofs5 C42.Proofs6.
Open Scope Z_scope.

(* path_valid + length <= max_steps + no repeated market (and no repeated token) + the reported
   rate never overstates the path (distance >= path cost), for EVERY graph, source, target, step
   limit, with or without negative cycles, Bellman-Ford or DFS.
   With Bellman-Ford (arbitrage_exists = Some false): rate_matches_cost (distance = path cost) and
   no_better_path_within_limit (no walk of <= max_steps edges is cheaper than what is reported). *)
Theorem c42_search_sound : forall ms k source skip p target d path,
  0 <= k ->
  best_swap_paths (build ms) k source skip = Ok p ->
  path_to (build ms) k source (p_state p) target = (d, path) -> path <> [] ->
  exists s t es dv,
    index_of source (toks_of ms) = Some s /\ index_of target (toks_of ms) = Some t /\ source <> target /\
    gwalk (build ms) s t es /\ map e_mkt es = path /\
    (forall e, In e es -> edge_of_market (tokens_of ms) ms e) /\
    Z.of_nat (length path) <= k /\ NoDup (walk_nodes s es) /\ NoDup path /\
    d = Some dv /\ ecost es <= dv /\
    (p_arb p = Some false ->
       dv = ecost es /\
       forall es', gwalk (build ms) s t es' -> Z.of_nat (length es') <= k -> dv <= ecost es').
Proof.
  intros ms k source skip p target d path Hk Hb Hp Hne.
  destruct (bsp_result _ k source skip p (build_wf ms) Hk Hb) as [s [Hs [Hg [H0 Hopt]]]].
  assert (Hg' : good (build ms) s (p_state p) \/ no_pred (p_state p)) by tauto.
  destruct (path_to_valid (build ms) s k Hk (build_mkt_pair ms) _ _ _ _ _ Hg' Hs H0 Hp Hne)
    as [t [es [dv [Ht [Hst [Hw [Hm [Hl [Hn [Hnp [Hd [Hdt Hc]]]]]]]]]]]].
  assert (Hlen : Z.of_nat (length es) <= k) by (rewrite <- (map_length e_mkt), Hm; exact Hl).
  pose proof (fun Harb => opt_exact _ _ _ _ _ _ _ (Hopt Harb) Hdt Hw Hlen Hc) as Hex.
  exists s, t, es, dv. repeat split; auto; [|apply Hex; assumption ..].
  intros e He. apply build_edges. eapply gwalk_edges_in; eassumption.
Qed.

(* an empty path carries no rate, except rate 1 (distance 0) for target = source *)
Theorem c42_search_empty_path : forall ms k source skip p target d,
  0 <= k ->
  best_swap_paths (build ms) k source skip = Ok p ->
  path_to (build ms) k source (p_state p) target = (d, []) ->
  d = None \/ (source = target /\ d = Some 0).
Proof.
  intros ms k source skip p target d Hk Hb Hp.
  destruct (bsp_result _ k source skip p (build_wf ms) Hk Hb) as [s [Hs [_ [H0 _]]]].
  unfold path_to in Hp.
  destruct (index_of target (g_toks (build ms))) as [t|] eqn:Et; [|inversion Hp; auto].
  destruct (Z.eqb_spec source target) as [<-|_].
  - rewrite Hs in Et. inversion Et; subst t. inversion Hp; subst. right. auto.
  - destruct (walk (Z.to_nat (k + 1)) k (pred (p_state p)) (getd (pred (p_state p)) t) 0 []) as [q|];
      [|inversion Hp; auto].
    inversion Hp; subst. left. reflexivity.
Qed.

(* Bellman-Ford: if a walk within the limit exists but no path is reported, the distance IS known
   and the predecessor walk was cut by the step guard of `to` — the one way the
   "no better path within the limit" clause fails after Bellman-Ford (known-finding class 1) *)
Theorem c42_bf_empty_path_only_by_guard : forall ms k source p target d s t es,
  0 <= k ->
  best_swap_paths (build ms) k source false = Ok p -> p_arb p = Some false ->
  path_to (build ms) k source (p_state p) target = (d, []) ->
  index_of source (toks_of ms) = Some s -> index_of target (toks_of ms) = Some t -> source <> target ->
  gwalk (build ms) s t es -> Z.of_nat (length es) <= k ->
  (exists dv, getd (dist (p_state p)) t = Some dv /\ dv <= ecost es) /\
  walk (Z.to_nat (k + 1)) k (pred (p_state p)) (getd (pred (p_state p)) t) 0 [] = None.
Proof.
  intros ms k source p target d s t es Hk Hb Harb Hp Hs Ht Hst Hw Hl.
  unfold toks_of in Hs, Ht.
  destruct (bsp_result _ k source false p (build_wf ms) Hk Hb) as [s' [Hs' [Hg [_ Hopt]]]].
  assert (s' = s) by congruence. subst s'.
  destruct (Hopt Harb _ _ Hw Hl) as [dv [Hdv Hle]].
  split; [exists dv; auto|].
  assert (Hts : t <> s) by (intros ->; apply Hst; eapply index_of_inj; eassumption).
  pose proof (reached_has_entry _ _ _ _ _ _ _ Hg Hdv Hts Hw Hl) as Hpt.
  unfold path_to in Hp. rewrite Ht in Hp.
  replace (source =? target) with false in Hp by lia.
  destruct (walk (Z.to_nat (k + 1)) k (pred (p_state p)) (getd (pred (p_state p)) t) 0 []) as [q|] eqn:Ew;
    [|reflexivity].
  (* `to` answered with the empty path, which the walk returns only where t has no entry *)
  contradiction Hpt. apply (walk_nil_iff _ _ _ _ _ _ Ew). inversion Hp; reflexivity.
Qed.

(* the invariants of the (distances, predecessors) pair each search returns on any well-formed
   graph; c42_search_sound is derived from them *)
Theorem c42_bellman_ford_result : forall g s k,
  0 <= s < Z.of_nat (length (g_toks g)) ->
  (forall e, In e (g_edges g) -> 0 <= e_src e < Z.of_nat (length (g_toks g)) /\ 0 <= e_dst e < Z.of_nat (length (g_toks g))) ->
  forall source res, index_of source (g_toks g) = Some s -> bellman_ford g k source = Ok res ->
  (good g s res \/ (k < 1 /\ no_pred res)) /\ getd (dist res) s = Some 0 /\ opt g s k (dist res).
Proof. exact bellman_ford_result. Qed.

Theorem c42_dfs_result : forall g s k,
  0 <= s < Z.of_nat (length (g_toks g)) ->
  (forall e, In e (g_edges g) -> 0 <= e_src e < Z.of_nat (length (g_toks g)) /\ 0 <= e_dst e < Z.of_nat (length (g_toks g))) ->
  forall source res, 0 <= k -> index_of source (g_toks g) = Some s -> dfs g k source = Ok res ->
  good g s res /\ getd (dist res) s = Some 0.
Proof. exact dfs_result. Qed.

(* Witnesses against "no better path within the limit".  The statements fix only the answer and the
   markets; k is existential, and the violated clause is exhibited by the witness in each proof, not
   stated. *)
(* class 1, witness with k = 1: 2 -> 1 directly (market 2, cost 11) is within max_steps = 1, yet
   Bellman-Ford + `to` report no path: the in-place sweep already found 2 -> 0 -> 1 (two hops) in
   round 1 *)
Theorem c42_bf_step_guard_drops_path_refuted : exists ms k source target p,
  best_swap_paths (build ms) k source false = Ok p /\ p_arb p = Some false /\
  path_to (build ms) k source (p_state p) target = (None, []) /\
  exists m l s cl, nth_error ms m = Some (l, s, Some cl, None) /\ l = source /\ s = target.
Proof.
  exists [(2, 0, Some 0, Some 1); (1, 0, Some 3, Some 0); (2, 1, Some 11, None)], 1, 2, 1.
  eexists. split; [vm_compute; reflexivity|]. split; [reflexivity|]. split; [vm_compute; reflexivity|].
  exists 2%nat, 2, 1, 11. repeat split; reflexivity.
Qed.

(* class 2, witness with k = 2: DFS-only search, no negative cycle: it reports cost 1 for 3 -> 1
   although the walk 3 -> 0 -> 1 costs 4 - 6 = -2 and is within max_steps = 2 *)
Theorem c42_dfs_pruning_misses_path_refuted : exists ms k source target p dv,
  best_swap_paths (build ms) k source true = Ok p /\
  path_to (build ms) k source (p_state p) target = (Some dv, [3]) /\ dv = 1 /\
  (* the better route: market 0 short->long (3 -> 0, cost 4), market 1 short->long (0 -> 1, cost -6) *)
  nth_error ms 0 = Some (0, 3, Some 12, Some 4) /\ nth_error ms 1 = Some (1, 0, Some 13, Some (-6)).
Proof.
  exists [(0, 3, Some 12, Some 4); (1, 0, Some 13, Some (-6)); (2, 3, Some 5, Some 2); (1, 3, Some 5, Some 1);
          (0, 2, Some 13, Some 11); (3, 2, Some (-1), Some 5); (2, 0, Some 2, Some 5)], 2, 3, 1.
  eexists. exists 1. split; [vm_compute; reflexivity|]. split; [vm_compute; reflexivity|]. repeat split; reflexivity.
Qed.

(* non-vacuity *)
Example c42_ex_bf_path :
  exists p, best_swap_paths (build [(5, 3, Some 4, Some (-4)); (5, 5, Some 9, Some 2); (1, 3, Some 7, Some (-7)); (3, 0, Some 1, Some (-1))]) 3 1 false = Ok p
            /\ p_arb p = Some false
            /\ path_to (build [(5, 3, Some 4, Some (-4)); (5, 5, Some 9, Some 2); (1, 3, Some 7, Some (-7)); (3, 0, Some 1, Some (-1))]) 3 1 (p_state p) 0 = (Some 8, [2; 3]).
Proof. eexists. split; [vm_compute; reflexivity|]. split; vm_compute; reflexivity. Qed.

Example c42_ex_dfs_fallback :   (* negative cycle 0 -> 1 -> 0: Bellman-Ford fails, DFS answers *)
  exists p, best_swap_paths (build [(0, 1, Some (-3), Some 1); (1, 2, Some 2, Some 2)]) 3 0 false = Ok p
            /\ p_arb p = Some true
            /\ path_to (build [(0, 1, Some (-3), Some 1); (1, 2, Some 2, Some 2)]) 3 0 (p_state p) 2 = (Some (-1), [0; 1]).
Proof. eexists. split; [vm_compute; reflexivity|]. split; vm_compute; reflexivity. Qed.
